(* C14 — proofs about Model/Verify.v. Every statement is for arbitrary crypto/x509 behaviour: the verifier,
   VerifyHostname, NotAfter, the chain pre-checks and the name that went into SNI are Section variables. *)
From UV Require Import Base.Common Model.Verify.
Open Scope Z_scope.

Lemma is_empty_true (s : name) : is_empty s = true <-> s = [].
Proof. destruct s; simpl; split; congruence. Qed.
Lemma is_empty_false (s : name) : is_empty s = false <-> s <> [].
Proof. destruct s; simpl; split; congruence. Qed.
Lemma is_star_true (s : name) : is_star s = true <-> s = [42%N].
Proof. unfold is_star. apply bytes_eqb_eq. Qed.
Lemma star_not_empty (s : name) : is_star s = true -> is_empty s = false.
Proof. intros H. apply is_star_true in H. subst. reflexivity. Qed.

Section VerifyP.
  Variable cert : Type.
  Variable pool : Type.
  Variable x509_verify : pool -> Z -> name -> list cert -> bool.
  Variable verify_hostname : cert -> name -> bool.
  Variable not_after : cert -> Z.
  Variable chain_parses : list cert -> bool.
  Variable leaf_key_supported : cert -> bool.
  Variable sni : name.                               (* what went into SNI: arbitrary *)

  Notation config := (config pool).
  Notation conn_at_verify := (conn_at_verify sni).
  Notation verify_opts := (verify_opts cert pool not_after).
  Notation verify_opts_unfixed := (verify_opts_unfixed cert pool not_after).
  Notation used_name := (used_name cert pool not_after).
  Notation used_name_unfixed := (used_name_unfixed cert pool not_after).
  Notation used_time := (used_time cert pool not_after).
  Notation expected_time := (expected_time cert pool not_after).
  Notation run_x509 := (run_x509 cert pool x509_verify).
  Notation verify_server_certificate := (verify_server_certificate cert pool x509_verify not_after chain_parses leaf_key_supported).
  Notation client_result := (client_result cert pool x509_verify not_after chain_parses leaf_key_supported).
  Notation load_session_cert_checks := (load_session_cert_checks cert pool verify_hostname not_after).

  Lemma rejected_at_verify (cfg : config) pub accepted :
    ech_rejected cfg (conn_at_verify cfg pub accepted) = ech_config_list cfg && negb accepted.
  Proof.
    unfold ech_rejected, Verify.conn_at_verify, conn_after_hello, conn_ech_accepted.
    destruct (ech_config_list cfg), accepted; reflexivity.
  Qed.

  Lemma server_name_when_rejected (cfg : config) pub accepted :
    ech_rejected cfg (conn_at_verify cfg pub accepted) = true ->
    c_server_name (conn_at_verify cfg pub accepted) = pub.
  Proof.
    rewrite rejected_at_verify. unfold Verify.conn_at_verify, conn_after_hello, conn_ech_accepted.
    destruct (ech_config_list cfg), accepted; simpl; congruence.
  Qed.

  Lemma dns_of_name_of_dns (d : name) : dns_of_name (name_of_dns d) = d.
  Proof. unfold name_of_dns. destruct d; reflexivity. Qed.

  (* outside the ECH-rejected branch the uTLS choice of DNSName is the name the property prescribes;
     this is where the makeClientHello precondition is needed *)
  Lemma dns_name_expected (cfg : config) c pub :
    config_accepted cfg = true -> ech_rejected cfg c = false -> InsecureSkipVerify cfg = false ->
    name_of_dns (dns_name cfg) = expected_name cfg c pub.
  Proof.
    intros Hacc Hrej Hsv. unfold expected_name, dns_name, name_of_dns. rewrite Hrej.
    destruct (is_empty (InsecureServerNameToVerify cfg)) eqn:Hinv.
    - unfold config_accepted in Hacc. rewrite Hsv, Hinv, !orb_false_r, negb_true_iff in Hacc.
      rewrite Hacc. reflexivity.
    - destruct (is_star (InsecureServerNameToVerify cfg)); cbn [negb]; [reflexivity|rewrite Hinv; reflexivity].
  Qed.

  (* c is a variable tied to conn_at_verify by an equation: [destruct (ech_rejected cfg c)] then abstracts every
     occurrence, and only the rejected case opens c (for c_server_name) *)
  Lemma used_name_is_expected (cfg : config) pub accepted leaf :
    config_accepted cfg = true -> pub <> [] ->
    forall c, c = conn_at_verify cfg pub accepted ->
    (ech_rejected cfg c = true \/ InsecureSkipVerify cfg = false) ->
    used_name cfg c leaf = expected_name cfg c pub.
  Proof.
    intros Hacc Hpub c Hc Hbranch. unfold Verify.used_name, Verify.verify_opts.
    destruct (ech_rejected cfg c) eqn:Hrej; cbn [o_dns_name].
    - unfold expected_name. rewrite Hrej. subst c. rewrite (server_name_when_rejected _ _ _ Hrej).
      unfold name_of_dns. rewrite (proj2 (is_empty_false pub) Hpub). reflexivity.
    - destruct Hbranch as [Hb|Hsv]; [discriminate|]. exact (dns_name_expected cfg c pub Hacc Hrej Hsv).
  Qed.

  (* the code before the fix: in the rejected branch it used the inner (secret) name *)
  Lemma used_name_unfixed_rejected (cfg : config) c leaf :
    is_empty (InsecureServerNameToVerify cfg) = true -> ServerName cfg <> [] ->
    used_name_unfixed cfg c leaf = Some (ServerName cfg).
  Proof.
    intros Hinv Hsn. unfold Verify.used_name_unfixed, Verify.verify_opts_unfixed, dns_name, name_of_dns. cbn [o_dns_name].
    rewrite Hinv. apply is_empty_false in Hsn. rewrite Hsn. reflexivity.
  Qed.

  Lemma used_time_is_expected (cfg : config) c leaf : used_time cfg c leaf = expected_time cfg leaf.
  Proof.
    unfold Verify.used_time, Verify.verify_opts, Verify.expected_time, current_time.
    destruct (ech_rejected cfg c); reflexivity.
  Qed.

  (* InsecureSkipTimeVerify reaches the outcome only through the time argument of the verifier: it is
     irrelevant on a chain that gets the same verdict at the leaf's NotAfter and at Config.Time *)
  Lemma skip_time_irrelevant (cfg : config) c leaf rest b :
    (let o := verify_opts cfg c leaf in
     x509_verify (o_roots o) (not_after leaf) (o_dns_name o) (leaf :: rest) =
     x509_verify (o_roots o) (cfg_time cfg) (o_dns_name o) (leaf :: rest)) ->
    verify_server_certificate (set_skip_time b cfg) c (leaf :: rest) = verify_server_certificate cfg c (leaf :: rest).
  Proof.
    intros H. unfold Verify.verify_server_certificate. destruct (chain_parses (leaf :: rest)); [|reflexivity].
    change (ech_rejected (set_skip_time b cfg) c) with (ech_rejected cfg c).
    replace (run_x509 (verify_opts (set_skip_time b cfg) c leaf) (leaf :: rest))
      with (run_x509 (verify_opts cfg c leaf) (leaf :: rest)); [reflexivity|].
    revert H. unfold Verify.run_x509, Verify.verify_opts, current_time.
    change (ech_rejected (set_skip_time b cfg) c) with (ech_rejected cfg c).
    destruct (ech_rejected cfg c); cbn; destruct b, (InsecureSkipTimeVerify cfg); auto.
  Qed.

  Lemma opts_are_expected (cfg : config) pub accepted leaf :
    config_accepted cfg = true -> pub <> [] ->
    forall c, c = conn_at_verify cfg pub accepted ->
    (ech_rejected cfg c = true \/ InsecureSkipVerify cfg = false) ->
    verify_opts cfg c leaf = mkOpts (RootCAs cfg) (expected_time cfg leaf) (dns_of_name (expected_name cfg c pub)).
  Proof.
    intros Hacc Hpub c Hc Hb.
    rewrite <- (used_name_is_expected cfg pub accepted leaf Hacc Hpub c Hc Hb).
    unfold Verify.used_name. rewrite dns_of_name_of_dns.
    unfold Verify.verify_opts. destruct (ech_rejected cfg c); reflexivity.
  Qed.

  Lemma run_x509_expected (cfg : config) pub accepted leaf chain :
    config_accepted cfg = true -> pub <> [] ->
    forall c, c = conn_at_verify cfg pub accepted ->
    (ech_rejected cfg c = true \/ InsecureSkipVerify cfg = false) ->
    run_x509 (verify_opts cfg c leaf) chain =
    x509_verify (RootCAs cfg) (expected_time cfg leaf) (dns_of_name (expected_name cfg c pub)) chain.
  Proof.
    intros Hacc Hpub c Hc Hb. rewrite (opts_are_expected cfg pub accepted leaf Hacc Hpub c Hc Hb). reflexivity.
  Qed.

  Lemma verify_ok_eq (cfg : config) c leaf rest :
    is_ok (verify_server_certificate cfg c (leaf :: rest)) =
    chain_parses (leaf :: rest) && leaf_key_supported leaf &&
    (if ech_rejected cfg c
     then match ech_rejection_verify cfg with
          | Some ok => ok
          | None => run_x509 (verify_opts cfg c leaf) (leaf :: rest)
          end
     else (InsecureSkipVerify cfg || run_x509 (verify_opts cfg c leaf) (leaf :: rest)) && verify_callbacks_ok cfg).
  Proof.
    unfold Verify.verify_server_certificate. destruct (chain_parses (leaf :: rest)); [|reflexivity].
    destruct (ech_rejected cfg c); cbn [negb andb].
    - destruct (ech_rejection_verify cfg) as [[|]|]; [| |destruct (run_x509 _ _)];
        destruct (leaf_key_supported leaf); reflexivity.
    - destruct (InsecureSkipVerify cfg); [|destruct (run_x509 _ _)];
        destruct (leaf_key_supported leaf), (verify_callbacks_ok cfg); reflexivity.
  Qed.

  (* no premise on callbacks or pre-checks: they can only refuse *)
  Lemma verify_ok_ran (cfg : config) c chain :
    is_ok (verify_server_certificate cfg c chain) = true ->
    (if ech_rejected cfg c then ech_rejection_verify cfg = None else InsecureSkipVerify cfg = false) ->
    exists leaf rest, chain = leaf :: rest /\ run_x509 (verify_opts cfg c leaf) chain = true.
  Proof.
    intros H B. destruct chain as [|leaf rest].
    - unfold Verify.verify_server_certificate in H. destruct (chain_parses []); discriminate.
    - exists leaf, rest. split; [reflexivity|]. rewrite verify_ok_eq in H.
      destruct (ech_rejected cfg c); rewrite B in H; cbn [orb] in H.
      + apply andb_true_iff in H. apply H.
      + apply andb_true_iff in H. destruct H as [_ H]. apply andb_true_iff in H. apply H.
  Qed.

  Lemma decision (cfg : config) pub accepted leaf rest :
    config_accepted cfg = true -> pub <> [] ->
    chain_parses (leaf :: rest) = true -> leaf_key_supported leaf = true ->
    ech_rejection_verify cfg = None -> verify_callbacks_ok cfg = true ->
    forall c, c = conn_at_verify cfg pub accepted ->
    (is_ok (verify_server_certificate cfg c (leaf :: rest)) = true <->
     (ech_rejected cfg c = false /\ InsecureSkipVerify cfg = true) \/
     x509_verify (RootCAs cfg) (expected_time cfg leaf) (dns_of_name (expected_name cfg c pub)) (leaf :: rest) = true).
  Proof.
    intros Hacc Hpub Hp Hk Hcb Hvc c Hc. rewrite verify_ok_eq, Hp, Hk, Hcb, Hvc. cbn [andb].
    destruct (ech_rejected cfg c) eqn:Hrej.
    - rewrite (run_x509_expected cfg pub accepted leaf _ Hacc Hpub c Hc (or_introl Hrej)).
      split; [auto|]. intros [[H _]|H]; [discriminate|exact H].
    - rewrite andb_true_r. destruct (InsecureSkipVerify cfg) eqn:Hsv; cbn [orb]; [split; auto|].
      rewrite (run_x509_expected cfg pub accepted leaf _ Hacc Hpub c Hc (or_intror Hsv)).
      split; [auto|]. intros [[_ H]|H]; [discriminate|exact H].
  Qed.

  (* what the caller of Handshake sees *)
  Lemma client_result_cases (cfg : config) c chain :
    match client_result cfg c chain with
    | HsOk => is_ok (verify_server_certificate cfg c chain) = true /\ ech_rejected cfg c = false
    | HsEchRejected => is_ok (verify_server_certificate cfg c chain) = true /\ ech_rejected cfg c = true
    | _ => is_ok (verify_server_certificate cfg c chain) = false
    end.
  Proof.
    unfold Verify.client_result. destruct (verify_server_certificate cfg c chain) as [u|e|p]; cbn [is_ok].
    - destruct (ech_rejected cfg c); auto.
    - destruct (e =? E_cert_verify)%N; reflexivity.
    - reflexivity.
  Qed.

  Lemma load_session_iff (cfg : config) (s : session cert) :
    load_session_cert_checks cfg s = true <->
    (InsecureSkipTimeVerify cfg = false -> cfg_time cfg <= not_after (s_leaf s)) /\
    (InsecureSkipVerify cfg = false ->
       s_has_verified_chains s = true /\
       match name_of_dns (dns_name cfg) with
       | Some n => verify_hostname (s_leaf s) n = true
       | None => True
       end).
  Proof.
    unfold Verify.load_session_cert_checks, name_of_dns.
    destruct (InsecureSkipTimeVerify cfg); cbn [negb andb];
      [|destruct (Z.gtb_spec (cfg_time cfg) (not_after (s_leaf s))) as [G|G]].
    2: split; [discriminate|intros [H _]; destruct (Z.lt_irrefl _ (Z.lt_le_trans _ _ _ G (H eq_refl)))].
    all: destruct (InsecureSkipVerify cfg), (s_has_verified_chains s), (is_empty (dns_name cfg)); cbn [negb].
    all: intuition discriminate.
  Qed.
End VerifyP.
