(* C17 — a HelloRetryRequest changes only what RFC 8446 allows.

   uconn.Extensions is a list of [hext] (Model/Hrr.v): key_share, cookie, padding, or ANY other
   extension (characterised by the bytes it emits).  [hrr_exts] is the uTLS section of
   processHelloRetryRequest (handshake_client_tls13.go:388-441), [marshal_hexts] the re-marshal
   (u_conn.go:598-675, Model/Marshal.v), [Negotiate.process_hrr] the crypto/tls checks before it.
   Scope of the statements: no PSK identities (npsk = 0), no real ECH (hs.echContext == nil),
   ClientHelloID != HelloGolang.  The PRNG behind the cookie position is an input ((fuel, s): the
   SHAKE stream of newPRNG(), Model/Prng.v); "cookie_index ... <> None" only says the stream did not
   run dry (the harness never reaches that).
   State of the files: they describe the UNCHANGED code; the property holds. *)
From UV Require Import Base.Common Model.Padding Model.Marshal Model.Prng Model.Hrr.
From UV Require Import Proofs.MarshalP Proofs.HrrP.
From UV Require Model.Negotiate.

(* The second ClientHello, for ALL extension lists with a key_share extension and at most one padding
   extension, all header fields, any requested group g with any fresh public key d, any cookie
   ([] = the HRR carried none), any PRNG stream:
   - it is sent (no error, no panic), and uconn.Extensions afterwards is es' with the padding state updated;
   - diff_spec: ignoring cookie extensions, es' is es position by position with every key_share
     extension holding exactly [(g, d)] and nothing else altered; the cookie extensions are: unchanged
     without a cookie, else all set to the server's cookie, else exactly one new extension carrying it;
     the last extension stays last; still at most one padding extension;
   - the bytes: header unchanged, then each extension's own encoding in list order, the padding
     extension's being its policy applied to the length of the NEW hello without padding (recomputed);
   - every extension other than key_share / cookie / padding contributes byte-identical output, in the
     same relative order, in both hellos. *)
Theorem C17_diff : forall bbs fuel s h g d cookie es,
  hdr_ok h -> (pads es <= 1)%nat -> existsb is_key_share es = true ->
  cookie_index fuel s (Z.of_nat (length es)) <> None ->
  exists es' raw,
    hrr_second_hello bbs fuel s h 0 [(g, d)] cookie es = Ok (map (hupdate (hunpadded h es')) es', raw) /\
    diff_spec [(g, d)] cookie es es' /\
    raw = frame h true (concat (map (hemit (hunpadded h es')) es')) /\
    map (hemit (hunpadded h es')) (others es') = map (hemit (hunpadded h es)) (others es).
Proof. intros. apply second_hello_spec; assumption. Qed.
Print Assumptions C17_diff.

(* ... and the FIRST hello is the same framing of the old list: the two hellos differ exactly in
   the per-extension outputs that diff_spec allows to differ *)
Theorem C17_first_hello : forall bbs h es, hdr_ok h -> (pads es <= 1)%nat ->
  marshal_hexts bbs h es =
    Ok (frame h (match es with [] => false | _ => true end) (concat (map (hemit (hunpadded h es)) es))).
Proof. exact marshal_hexts_spec. Qed.
Print Assumptions C17_first_hello.

(* the encodings of the two extensions the HRR code writes (Model/Ext.v, proved against the RFC layout in C08) *)
Theorem C17_key_share_cookie_bytes : forall g d c,
  hemit 0 (HKeyShare [(g, d)]) =
    Wire.enc_u16 51 ++ Wire.enc_u16 (4 + Wire.blen d + 2) ++ Wire.enc_u16 (4 + Wire.blen d)
    ++ Wire.enc_u16 g ++ Wire.enc_u16 (Wire.blen d) ++ d
  /\ hemit 0 (HCookie c) = Wire.enc_u16 44 ++ Wire.enc_u16 (2 + Wire.blen c) ++ Wire.enc_u16 (Wire.blen c) ++ c.
Proof.
  intros g d c. split.
  - cbn [hemit]. unfold key_share_bytes, emit_of. cbn [Ext.ext_read Ext.ext_len].
    unfold Ext.guarded. rewrite N.ltb_irrefl. unfold Ext.key_shares_len, Ext.key_shares_bytes.
    cbn [Wire.sum_map flat_map fst snd]. rewrite N.add_0_r, app_nil_r. reflexivity.
  - cbn [hemit]. unfold cookie_bytes, emit_of. cbn [Ext.ext_read Ext.ext_len].
    unfold Ext.guarded. rewrite N.ltb_irrefl. reflexivity.
Qed.
Print Assumptions C17_key_share_cookie_bytes.

(* The cookie position (handshake_client_tls13.go:430-441), for EVERY list length, stream and cookie:
   never a panic; an error only for the empty list (unreachable: a key_share extension was found
   before) or a dry PRNG; otherwise the cookie goes to index i < len, i = 0 for lists of one or two
   extensions (Intn of a non-positive bound is 0 in u_prng.go), i <= len-3 otherwise - so the last
   extension (pre_shared_key, when present) is still the last one. *)
Theorem C17_index_safe : forall fuel s c es,
  match insert_cookie fuel s c es with
  | Ok es' => exists i : nat, (i < length es)%nat /\ ((length es <= 2)%nat -> i = 0%nat) /\
                ((3 <= length es)%nat -> (i + 3 <= length es)%nat) /\
                es' = firstn i es ++ HCookie c :: skipn i es /\
                (forall d, last es' d = last es d)
  | Err code => (code = E_PRNG /\ cookie_index fuel s (Z.of_nat (length es)) = None) \/ (code = E_COOKIE_INDEX /\ es = [])
  | Panic _ => False
  end.
Proof.
  intros fuel s c es. pose proof (insert_cookie_spec fuel s c es) as H.
  destruct (insert_cookie fuel s c es) as [es'|code|p]; try exact H.
  destruct H as (i & H1 & H2 & H3 & ->). exists i. repeat split; auto.
  intros d. apply last_insert. exact H1.
Qed.
Print Assumptions C17_index_safe.

(* the whole uTLS section never panics, whatever the list, the PSK count, the shares, the cookie *)
Theorem C17_no_panic : forall fuel s npsk ks cookie es p, hrr_exts fuel s npsk ks cookie es <> Panic p.
Proof.
  intros fuel s npsk ks cookie es p. unfold hrr_exts.
  destruct (0 <? npsk); [discriminate|]. destruct (negb _); [discriminate|].
  destruct cookie as [|c0 c]; [discriminate|]. destruct (existsb is_cookie _); [discriminate|].
  pose proof (insert_cookie_spec fuel s (c0 :: c) (map (set_key_shares ks) es)) as H.
  destruct (insert_cookie _ _ _ _); try discriminate. contradiction.
Qed.
Print Assumptions C17_no_panic.

(* Rejections.  m is the HelloRetryRequest (h_share m = 0: it carries no server share - with one the alert is
   decode_error instead).  Unoffered group, group already shared, or nothing to change: illegal_parameter,
   no second hello, and the handshake (Negotiate.run13) aborts. *)
Theorem C17_reject : forall bbs fuel s h v m cookie fresh old es,
  Negotiate.h_share m = 0 ->
  (Negotiate.h_selgroup m <> 0 /\ Negotiate.memN (Negotiate.h_selgroup m) (Negotiate.cv_curves v) = false) \/
  (Negotiate.h_selgroup m <> 0 /\ Negotiate.memN (Negotiate.h_selgroup m) (Negotiate.cv_shares v) = true) \/
  (Negotiate.h_selgroup m = 0 /\ Negotiate.h_cookie m = false) ->
  client_hrr bbs fuel s h v m cookie fresh old es = HAlert Negotiate.a_illegal_parameter /\
  forall fl, Negotiate.f_hrr fl = Some m -> exists a, Negotiate.run13 v fl = Negotiate.Abort a.
Proof.
  intros bbs fuel s h v m cookie fresh old es Hs Hc.
  assert (Hp : Negotiate.process_hrr v m = inl Negotiate.a_illegal_parameter).
  { unfold Negotiate.process_hrr. rewrite Hs. destruct Hc as [[H1 H2]|[[H1 H2]|[H1 H2]]].
    - rewrite H2. replace (Negotiate.h_selgroup m =? 0) with false by lia. reflexivity.
    - rewrite H2. replace (Negotiate.h_selgroup m =? 0) with false by lia. cbn [andb negb N.eqb].
      destruct (Negotiate.memN _ (Negotiate.cv_curves v)); reflexivity.
    - rewrite H1, H2. reflexivity. }
  split; [unfold client_hrr; rewrite Hp; reflexivity|].
  intros fl Hf. unfold Negotiate.run13. rewrite Hf, Hp.
  destruct ((Negotiate.cv_ecdhe v =? 0) || _); [eexists; reflexivity|].
  destruct (Negotiate.check_hello13 v None m); eexists; reflexivity.
Qed.
Print Assumptions C17_reject.

(* a listed group that is not a classical curve (X25519MLKEM768 listed without a share): also refused *)
Theorem C17_reject_nonclassical : forall v m, Negotiate.h_selgroup m <> 0 -> Negotiate.h_share m = 0 ->
  Negotiate.classical_impl (Negotiate.h_selgroup m) = false -> exists a, Negotiate.process_hrr v m = inl a.
Proof.
  intros v m H1 H2 H3. unfold Negotiate.process_hrr. rewrite H2, H3.
  replace (Negotiate.h_selgroup m =? 0) with false by lia. cbn [andb negb N.eqb].
  destruct (Negotiate.memN _ (Negotiate.cv_curves v)); cbn [negb]; [|eexists; reflexivity].
  destruct (Negotiate.memN _ (Negotiate.cv_shares v)); eexists; reflexivity.
Qed.
Print Assumptions C17_reject_nonclassical.

(* PSK identities present: the uTLS section refuses (F-19b, outside the property's scope) *)
Theorem C17_psk_refused : forall fuel s npsk ks cookie es, 0 < npsk -> hrr_exts fuel s npsk ks cookie es = Err E_PSK_HRR.
Proof. intros. unfold hrr_exts. replace (0 <? npsk) with true by lia. reflexivity. Qed.
Print Assumptions C17_psk_refused.

(* the valid case end to end: crypto/tls accepts, the second hello goes out with exactly the requested group *)
Theorem C17_accept : forall bbs fuel s h v m cookie fresh old es,
  Negotiate.h_selgroup m <> 0 -> Negotiate.h_share m = 0 -> Negotiate.cv_psk v = 0 ->
  Negotiate.memN (Negotiate.h_selgroup m) (Negotiate.cv_curves v) = true ->
  Negotiate.memN (Negotiate.h_selgroup m) (Negotiate.cv_shares v) = false ->
  Negotiate.classical_impl (Negotiate.h_selgroup m) = true ->
  hdr_ok h -> (pads es <= 1)%nat -> existsb is_key_share es = true ->
  cookie_index fuel s (Z.of_nat (length es)) <> None ->
  exists es' raw, client_hrr bbs fuel s h v m cookie fresh old es = HSecond es' raw.
Proof.
  intros bbs fuel s h v m cookie fresh old es H1 H2 H3 H4 H5 H6 Hh Hp Hk Hr.
  assert (Ha : Negotiate.process_hrr v m = inr ([Negotiate.h_selgroup m], Negotiate.h_selgroup m)).
  { unfold Negotiate.process_hrr. rewrite H2, H3, H4, H5, H6.
    replace (Negotiate.h_selgroup m =? 0) with false by lia. reflexivity. }
  unfold client_hrr. rewrite Ha, H3.
  replace (Negotiate.h_selgroup m =? 0) with false by lia.
  destruct (second_hello_spec bbs fuel s h [(Negotiate.h_selgroup m, fresh)]
              (if Negotiate.h_cookie m then cookie else []) es Hh Hp Hk Hr) as (es' & raw & -> & _).
  eexists. eexists. reflexivity.
Qed.
Print Assumptions C17_accept.

(* the hypotheses are satisfiable by concrete non-trivial inputs *)
Definition ex_hdr : hello_hdr :=
  {| h_vers := 771; h_random := zeros 32; h_sid := zeros 32; h_suites := [4865; 4866]; h_comp := [0] |}.
Definition ex_es : list hext :=
  [ HOther false [0; 10; 0; 6; 0; 4; 0; 29; 0; 23];
    HKeyShare [(29, zeros 32)];
    HOther false [0; 43; 0; 3; 2; 3; 4];
    HPad PolBoring {| p_len := 0; p_will := false |};
    HOther true [] ].
(* 4 bytes of stream 0 0 0 1 then zeros: Int31 = 1, Intn(5-2) = 1 *)
Definition ex_stream : stream := [0; 0; 0; 1; 0; 0; 0; 0].

Example C17_ex_hyps : hdr_ok ex_hdr /\ (pads ex_es <= 1)%nat /\ existsb is_key_share ex_es = true
  /\ cookie_index 8 ex_stream (Z.of_nat (length ex_es)) = Some 1%Z.
Proof. vm_compute. repeat split; lia. Qed.

(* cookie present: inserted at index 1, key share replaced, everything else in place *)
Example C17_ex_step : hrr_exts 8 ex_stream 0 [(23, zeros 65)] [7; 7; 7] ex_es =
  Ok [ HOther false [0; 10; 0; 6; 0; 4; 0; 29; 0; 23];
       HCookie [7; 7; 7];
       HKeyShare [(23, zeros 65)];
       HOther false [0; 43; 0; 3; 2; 3; 4];
       HPad PolBoring {| p_len := 0; p_will := false |};
       HOther true [] ].
Proof. vm_compute. reflexivity. Qed.

(* lists of one and two extensions: index 0 (Intn(-1) = Intn(0) = 0), no panic *)
Example C17_ex_short_lists :
  insert_cookie 8 ex_stream [9] [HKeyShare []] = Ok [HCookie [9]; HKeyShare []] /\
  insert_cookie 8 ex_stream [9] [HKeyShare []; HOther true []] = Ok [HCookie [9]; HKeyShare []; HOther true []] /\
  insert_cookie 8 ex_stream [9] [] = Err E_COOKIE_INDEX.
Proof. vm_compute. repeat split. Qed.

(* a rejected HRR: P-521 (25) not in supported_groups *)
Example C17_ex_reject :
  let v := Negotiate.mkView [4865] [29; 23] [29] [] [] 0 [] false 771 772 false 29 false [772] 0 in
  let m := Negotiate.mkHello 771 772 0 [] 4865 0 0 25 false None [] in
  Negotiate.process_hrr v m = inl Negotiate.a_illegal_parameter.
Proof. vm_compute. reflexivity. Qed.
