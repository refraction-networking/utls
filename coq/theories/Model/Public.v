(* C31 — public views of handshake messages (u_public.go) and the private structs
   they are converted to/from, field by field, exactly as the Go code copies them.
   Executable definitions only; proofs are in Proofs/PublicP.v and Props/C31.v.

   Conventions: uintN fields are N; []byte / string are [bytes]; [][]byte and []string are
   [list bytes]; func values, hash.Hash objects, *ecdh.PrivateKey, *mlkem keys, time.Time are
   opaque identities ([N]; a nil pointer / nil func is [None]).  A Go slice that is
   *assigned* (same backing array, nil stays nil) is a plain list; the three slices that are
   *rebuilt* by an append loop (KeyShares, PskIdentities, TicketKeys) carry nil-ness
   ([option (list _)], None = nil) because the loop turns an empty non-nil slice into nil. *)
From UV Require Export Base.Common.
From Coq Require Import String.
Open Scope N_scope.

Definition slice (A : Type) := option (list A).
(* `var out []T; for _, x := range in { out = append(out, f x) }`  (u_public.go:637-676, 838-852) *)
Definition append_loop {A B} (f : A -> B) (l : list A) : slice B :=
  fold_left (fun acc x => match acc with None => Some [f x] | Some o => Some (o ++ [f x]) end) l None.
Definition rebuild {A B} (f : A -> B) (s : slice A) : slice B :=
  match s with None => None | Some l => append_loop f l end.
Definition elems {A} (s : slice A) : list A := match s with None => [] | Some l => l end.

(* ---- key shares (u_public.go:629-650, common.go:166) ---- *)
Record KeyShare := { KS_Group : N; KS_Data : bytes }.
Record keyShare := { ks_group : N; ks_data : bytes }.
Definition ks_to_public (k : keyShare) : KeyShare := {| KS_Data := ks_data k; KS_Group := ks_group k |}.   (* :640 *)
Definition ks_to_private (K : KeyShare) : keyShare := {| ks_data := KS_Data K; ks_group := KS_Group K |}.  (* :647 *)
Definition keyShares_ToPublic (kss : slice keyShare) : slice KeyShare := rebuild ks_to_public kss.
Definition KeyShares_ToPrivate (KSS : slice KeyShare) : slice keyShare := rebuild ks_to_private KSS.

(* ---- PSK identities (u_public.go:654-676, common.go:179) ---- *)
Record PskIdentity := { PI_Label : bytes; PI_ObfuscatedTicketAge : N }.
Record pskIdentity := { pi_label : bytes; pi_obfuscatedTicketAge : N }.
Definition pi_to_public (p : pskIdentity) : PskIdentity :=
  {| PI_Label := pi_label p; PI_ObfuscatedTicketAge := pi_obfuscatedTicketAge p |}.                       (* :665 *)
Definition pi_to_private (P : PskIdentity) : pskIdentity :=
  {| pi_label := PI_Label P; pi_obfuscatedTicketAge := PI_ObfuscatedTicketAge P |}.                       (* :673 *)
Definition pskIdentities_ToPublic (s : slice pskIdentity) : slice PskIdentity := rebuild pi_to_public s.
Definition PskIdentities_ToPrivate (s : slice PskIdentity) : slice pskIdentity := rebuild pi_to_private s.

(* ---- ticket keys (u_public.go:804-852, common.go:948) ---- *)
Record TicketKey := { TK_AesKey : bytes; TK_HmacKey : bytes; TK_Created : N }.
Record ticketKey := { tk_aesKey : bytes; tk_hmacKey : bytes; tk_created : N }.
Definition tk_ToPublic (t : ticketKey) : TicketKey :=
  {| TK_AesKey := tk_aesKey t; TK_HmacKey := tk_hmacKey t; TK_Created := tk_created t |}.                 (* :822 *)
Definition TK_ToPrivate (T : TicketKey) : ticketKey :=
  {| tk_aesKey := TK_AesKey T; tk_hmacKey := TK_HmacKey T; tk_created := TK_Created T |}.                 (* :830 *)
Definition ticketKeys_ToPublic (s : slice ticketKey) : slice TicketKey := rebuild tk_ToPublic s.          (* :838 *)
Definition TicketKeys_ToPrivate (s : slice TicketKey) : slice ticketKey := rebuild TK_ToPrivate s.        (* :846 *)

(* ---- key-share private keys (u_public.go:888-924, key_schedule.go:53-60) ---- *)
(* ExtraEcdhe / extraEcdhe ([]*ecdh.PrivateKey, added by the C18 fix): the slice is assigned as is, so a plain list of key identities *)
Record KeySharePrivateKeys := { KP_CurveID : N; KP_Ecdhe : option N; KP_Mlkem : option N; KP_MlkemEcdhe : option N;
  KP_ExtraEcdhe : list (option N) }.
Record keySharePrivateKeys := { kp_curveID : N; kp_ecdhe : option N; kp_mlkem : option N; kp_mlkemEcdhe : option N;
  kp_extraEcdhe : list (option N) }.
Definition KP_ToPrivate (k : option KeySharePrivateKeys) : option keySharePrivateKeys :=                   (* :895 *)
  match k with None => None | Some k =>
    Some {| kp_curveID := KP_CurveID k; kp_ecdhe := KP_Ecdhe k; kp_mlkem := KP_Mlkem k; kp_mlkemEcdhe := KP_MlkemEcdhe k;
            kp_extraEcdhe := KP_ExtraEcdhe k |} end.
Definition kp_ToPublic (k : option keySharePrivateKeys) : option KeySharePrivateKeys :=                   (* :907 *)
  match k with None => None | Some k =>
    Some {| KP_CurveID := kp_curveID k; KP_Ecdhe := kp_ecdhe k; KP_Mlkem := kp_mlkem k; KP_MlkemEcdhe := kp_mlkemEcdhe k;
            KP_ExtraEcdhe := kp_extraEcdhe k |} end.

(* ---- deprecated KEM key view (u_public.go:854-886) ---- *)
Record KemPrivateKey := { KM_SecretKey : option N; KM_CurveID : N }.
Record kemPrivateKey := { km_secretKey : option N; km_curveID : N }.
Definition KM_ToPrivate (k : option KemPrivateKey) : option kemPrivateKey :=
  match k with None => None | Some k => Some {| km_secretKey := KM_SecretKey k; km_curveID := KM_CurveID k |} end.
Definition km_ToPublic (k : option kemPrivateKey) : option KemPrivateKey :=
  match k with None => None | Some k => Some {| KM_SecretKey := km_secretKey k; KM_CurveID := km_curveID k |} end.

(* ---- TLS 1.3 cipher-suite view (u_public.go:235-266, cipher_suites.go:195) ---- *)
Record PubCipherSuiteTLS13 := { C3_Id : N; C3_KeyLen : Z; C3_Aead : option N; C3_Hash : N }.
Record cipherSuiteTLS13 := { c3_id : N; c3_keyLen : Z; c3_aead : option N; c3_hash : N }.
Definition c3_toPublic (c : option cipherSuiteTLS13) : option PubCipherSuiteTLS13 :=                      (* :242 *)
  match c with None => None | Some c =>
    Some {| C3_Id := c3_id c; C3_KeyLen := c3_keyLen c; C3_Aead := c3_aead c; C3_Hash := c3_hash c |} end.
Definition C3_toPrivate (c : option PubCipherSuiteTLS13) : option cipherSuiteTLS13 :=                     (* :255 *)
  match c with None => None | Some c =>
    Some {| c3_id := C3_Id c; c3_keyLen := C3_KeyLen c; c3_aead := C3_Aead c; c3_hash := C3_Hash c |} end.

(* ---- TLS <=1.2 cipher-suite view (u_public.go:499-547, cipher_suites.go:136) ---- *)
Record PubCipherSuite := { CS_Id : N; CS_KeyLen : Z; CS_MacLen : Z; CS_IvLen : Z; CS_Ka : option N;
  CS_Flags : Z; CS_Cipher : option N; CS_Mac : option N; CS_Aead : option N }.
Record cipherSuite := { cs_id : N; cs_keyLen : Z; cs_macLen : Z; cs_ivLen : Z; cs_ka : option N;
  cs_flags : Z; cs_cipher : option N; cs_mac : option N; cs_aead : option N }.
Definition CS_zero : PubCipherSuite := {| CS_Id := 0; CS_KeyLen := 0; CS_MacLen := 0; CS_IvLen := 0; CS_Ka := None;
  CS_Flags := 0; CS_Cipher := None; CS_Mac := None; CS_Aead := None |}.
Definition CS_getPrivatePtr (c : option PubCipherSuite) : option cipherSuite :=                            (* :513 *)
  match c with None => None | Some c =>
    Some {| cs_id := CS_Id c; cs_keyLen := CS_KeyLen c; cs_macLen := CS_MacLen c; cs_ivLen := CS_IvLen c; cs_ka := CS_Ka c;
            cs_flags := CS_Flags c; cs_cipher := CS_Cipher c; cs_mac := CS_Mac c; cs_aead := CS_Aead c |} end.
Definition cs_getPublicObj (c : option cipherSuite) : PubCipherSuite :=                                    (* :531 nil -> zero object *)
  match c with None => CS_zero | Some c =>
    {| CS_Id := cs_id c; CS_KeyLen := cs_keyLen c; CS_MacLen := cs_macLen c; CS_IvLen := cs_ivLen c; CS_Ka := cs_ka c;
       CS_Flags := cs_flags c; CS_Cipher := cs_cipher c; CS_Mac := cs_mac c; CS_Aead := cs_aead c |} end.

(* ---- FinishedHash view (u_public.go:551-626, prf.go:172).  prf functions are identities; the
   wrappers prfFuncV1ToV2 / prfFuncV2ToV1 build a NEW closure, written as a tagged identity. ---- *)
Inductive prf_id := PrfNative (f : N) | PrfWrapV1 (old : old_id)      (* prfFunc values *)
with old_id := OldNative (f : N) | OldWrapV2 (p : prf_id).            (* prfFuncOld values *)
Record FinishedHash := { FH_Client : option N; FH_Server : option N; FH_ClientMD5 : option N; FH_ServerMD5 : option N;
  FH_Buffer : bytes; FH_Version : N; FH_Prfv2 : option prf_id; FH_Prf : option old_id }.
Record finishedHash := { fh_client : option N; fh_server : option N; fh_clientMD5 : option N; fh_serverMD5 : option N;
  fh_buffer : bytes; fh_version : N; fh_prf : option prf_id }.
Definition FH_getPrivateObj (f : FinishedHash) : finishedHash :=                                           (* :585 *)
  {| fh_client := FH_Client f; fh_server := FH_Server f; fh_clientMD5 := FH_ClientMD5 f; fh_serverMD5 := FH_ServerMD5 f;
     fh_buffer := FH_Buffer f; fh_version := FH_Version f;
     fh_prf := match FH_Prfv2 f with
               | Some p => Some p                                                                          (* :598 *)
               | None => match FH_Prf f with Some o => Some (PrfWrapV1 o) | None => None end end |}.       (* :600 *)
Definition fh_getPublicObj (f : finishedHash) : FinishedHash :=                                            (* :608 *)
  {| FH_Client := fh_client f; FH_Server := fh_server f; FH_ClientMD5 := fh_clientMD5 f; FH_ServerMD5 := fh_serverMD5 f;
     FH_Buffer := fh_buffer f; FH_Version := fh_version f;
     FH_Prfv2 := fh_prf f;                                                                                 (* :621 *)
     FH_Prf := match fh_prf f with Some p => Some (OldWrapV2 p) | None => Some (OldWrapV2 (PrfNative 0)) end |}.
     (* :622 prfFuncV2ToV1(fh.prf) is a non-nil closure even when fh.prf is nil; it is never equal to the Prf given *)

(* ---- CertificateRequestMsgTLS13 (u_public.go:189-233, handshake_messages.go:1278) ---- *)
Record CertificateRequestMsgTLS13 := { CR_Raw : bytes; CR_OcspStapling : bool; CR_Scts : bool;
  CR_SupportedSignatureAlgorithms : list N; CR_SupportedSignatureAlgorithmsCert : list N;
  CR_CertificateAuthorities : list bytes }.
Record certificateRequestMsgTLS13 := { cr_original : option bytes; cr_ocspStapling : bool; cr_scts : bool;
  cr_supportedSignatureAlgorithms : list N; cr_supportedSignatureAlgorithmsCert : list N;
  cr_certificateAuthorities : list bytes }.
Section CertReq.
  (* certificateRequestMsgTLS13.marshal (handshake_messages.go:1287): never looks at [original];
     None = builder error, then Raw is the empty slice (u_public.go:205-208). *)
  Variable crm_marshal : bool -> bool -> list N -> list N -> list bytes -> option bytes.
  Definition cr_toPublic (c : option certificateRequestMsgTLS13) : option CertificateRequestMsgTLS13 :=   (* :201 *)
    match c with None => None | Some c =>
      Some {| CR_Raw := match crm_marshal (cr_ocspStapling c) (cr_scts c) (cr_supportedSignatureAlgorithms c)
                                         (cr_supportedSignatureAlgorithmsCert c) (cr_certificateAuthorities c)
                        with Some raw => raw | None => [] end;
              CR_OcspStapling := cr_ocspStapling c; CR_Scts := cr_scts c;
              CR_SupportedSignatureAlgorithms := cr_supportedSignatureAlgorithms c;
              CR_SupportedSignatureAlgorithmsCert := cr_supportedSignatureAlgorithmsCert c;
              CR_CertificateAuthorities := cr_certificateAuthorities c |} end.
End CertReq.
Definition CR_toPrivate (c : option CertificateRequestMsgTLS13) : option certificateRequestMsgTLS13 :=    (* :221 Raw NOT copied *)
  match c with None => None | Some c =>
    Some {| cr_original := None;
            cr_ocspStapling := CR_OcspStapling c; cr_scts := CR_Scts c;
            cr_supportedSignatureAlgorithms := CR_SupportedSignatureAlgorithms c;
            cr_supportedSignatureAlgorithmsCert := CR_SupportedSignatureAlgorithmsCert c;
            cr_certificateAuthorities := CR_CertificateAuthorities c |} end.

(* ---- ServerHello (u_public.go:268-353, handshake_messages.go:750) ---- *)
Record PubServerHelloMsg := { SH_Raw : option bytes; SH_Vers : N; SH_Random : bytes; SH_SessionId : bytes; SH_CipherSuite : N;
  SH_CompressionMethod : N; SH_NextProtoNeg : bool; SH_NextProtos : list bytes; SH_OcspStapling : bool; SH_Scts : list bytes;
  SH_ExtendedMasterSecret : bool; SH_TicketSupported : bool; SH_SecureRenegotiation : bytes;
  SH_SecureRenegotiationSupported : bool; SH_AlpnProtocol : bytes; SH_SupportedVersion : N; SH_ServerShare : keyShare;
  SH_SelectedIdentityPresent : bool; SH_SelectedIdentity : N; SH_Cookie : bytes; SH_SelectedGroup : N }.
Record serverHelloMsg := { sh_original : option bytes; sh_vers : N; sh_random : bytes; sh_sessionId : bytes; sh_cipherSuite : N;
  sh_compressionMethod : N; sh_ocspStapling : bool; sh_ticketSupported : bool; sh_secureRenegotiationSupported : bool;
  sh_secureRenegotiation : bytes; sh_extendedMasterSecret : bool; sh_alpnProtocol : bytes; sh_scts : list bytes;
  sh_supportedVersion : N; sh_serverShare : keyShare; sh_selectedIdentityPresent : bool; sh_selectedIdentity : N;
  sh_supportedPoints : bytes; sh_encryptedClientHello : bytes; sh_serverNameAck : bool;
  sh_cookie : bytes; sh_selectedGroup : N; sh_nextProtoNeg : bool; sh_nextProtos : list bytes }.
Definition SH_getPrivatePtr (s : option PubServerHelloMsg) : option serverHelloMsg :=                      (* :295 *)
  match s with None => None | Some s =>
    Some {| sh_original := SH_Raw s; sh_vers := SH_Vers s; sh_random := SH_Random s; sh_sessionId := SH_SessionId s;
            sh_cipherSuite := SH_CipherSuite s; sh_compressionMethod := SH_CompressionMethod s;
            sh_nextProtoNeg := SH_NextProtoNeg s; sh_nextProtos := SH_NextProtos s; sh_ocspStapling := SH_OcspStapling s;
            sh_scts := SH_Scts s; sh_extendedMasterSecret := SH_ExtendedMasterSecret s;
            sh_ticketSupported := SH_TicketSupported s; sh_secureRenegotiation := SH_SecureRenegotiation s;
            sh_secureRenegotiationSupported := SH_SecureRenegotiationSupported s; sh_alpnProtocol := SH_AlpnProtocol s;
            sh_supportedVersion := SH_SupportedVersion s; sh_serverShare := SH_ServerShare s;
            sh_selectedIdentityPresent := SH_SelectedIdentityPresent s; sh_selectedIdentity := SH_SelectedIdentity s;
            sh_cookie := SH_Cookie s; sh_selectedGroup := SH_SelectedGroup s;
            (* not set by the composite literal: zero values *)
            sh_supportedPoints := []; sh_encryptedClientHello := []; sh_serverNameAck := false |} end.
Definition sh_getPublicPtr (s : option serverHelloMsg) : option PubServerHelloMsg :=                       (* :325 *)
  match s with None => None | Some s =>
    Some {| SH_Raw := sh_original s; SH_Vers := sh_vers s; SH_Random := sh_random s; SH_SessionId := sh_sessionId s;
            SH_CipherSuite := sh_cipherSuite s; SH_CompressionMethod := sh_compressionMethod s;
            SH_NextProtoNeg := sh_nextProtoNeg s; SH_NextProtos := sh_nextProtos s; SH_OcspStapling := sh_ocspStapling s;
            SH_Scts := sh_scts s; SH_ExtendedMasterSecret := sh_extendedMasterSecret s;
            SH_TicketSupported := sh_ticketSupported s; SH_SecureRenegotiation := sh_secureRenegotiation s;
            SH_SecureRenegotiationSupported := sh_secureRenegotiationSupported s; SH_AlpnProtocol := sh_alpnProtocol s;
            SH_SupportedVersion := sh_supportedVersion s; SH_ServerShare := sh_serverShare s;
            SH_SelectedIdentityPresent := sh_selectedIdentityPresent s; SH_SelectedIdentity := sh_selectedIdentity s;
            SH_Cookie := sh_cookie s; SH_SelectedGroup := sh_selectedGroup s |} end.

(* ---- ClientHello (u_public.go:355-479, handshake_messages.go:71) ---- *)
Record clientHelloMsg := { ch_original : option bytes; ch_vers : N; ch_random : bytes; ch_sessionId : bytes;
  ch_cipherSuites : list N; ch_compressionMethods : bytes; ch_serverName : bytes; ch_ocspStapling : bool;
  ch_supportedCurves : list N; ch_supportedPoints : bytes; ch_ticketSupported : bool; ch_sessionTicket : bytes;
  ch_supportedSignatureAlgorithms : list N; ch_supportedSignatureAlgorithmsCert : list N;
  ch_secureRenegotiationSupported : bool; ch_secureRenegotiation : bytes; ch_extendedMasterSecret : bool;
  ch_alpnProtocols : list bytes; ch_scts : bool; ch_supportedVersions : list N; ch_cookie : bytes;
  ch_keyShares : slice keyShare; ch_earlyData : bool; ch_pskModes : bytes; ch_pskIdentities : slice pskIdentity;
  ch_pskBinders : list bytes; ch_quicTransportParameters : option bytes; ch_encryptedClientHello : bytes;
  ch_extensions : list N; ch_nextProtoNeg : bool }.
Record PubClientHelloMsg := { CH_Raw : option bytes; CH_Vers : N; CH_Random : bytes; CH_SessionId : bytes;
  CH_CipherSuites : list N; CH_CompressionMethods : bytes; CH_NextProtoNeg : bool; CH_ServerName : bytes;
  CH_OcspStapling : bool; CH_Scts : bool; CH_Ems : bool; CH_SupportedCurves : list N; CH_SupportedPoints : bytes;
  CH_TicketSupported : bool; CH_SessionTicket : bytes; CH_SupportedSignatureAlgorithms : list N;
  CH_SecureRenegotiation : bytes; CH_SecureRenegotiationSupported : bool; CH_AlpnProtocols : list bytes;
  CH_SupportedSignatureAlgorithmsCert : list N; CH_SupportedVersions : list N; CH_Cookie : bytes;
  CH_KeyShares : slice KeyShare; CH_EarlyData : bool; CH_PskModes : bytes; CH_PskIdentities : slice PskIdentity;
  CH_PskBinders : list bytes; CH_QuicTransportParameters : option bytes;
  CH_cachedPrivateHello : option clientHelloMsg;      (* pointer to the private struct it was made from / last made *)
  CH_encryptedClientHello : bytes }.
(* getPrivatePtr builds the private struct AND stores it in chm.cachedPrivateHello (:428). *)
Definition CH_private_of (c : PubClientHelloMsg) : clientHelloMsg :=                                        (* :395-427 *)
  {| ch_original := CH_Raw c; ch_vers := CH_Vers c; ch_random := CH_Random c; ch_sessionId := CH_SessionId c;
     ch_cipherSuites := CH_CipherSuites c; ch_compressionMethods := CH_CompressionMethods c;
     ch_serverName := CH_ServerName c; ch_ocspStapling := CH_OcspStapling c; ch_supportedCurves := CH_SupportedCurves c;
     ch_supportedPoints := CH_SupportedPoints c; ch_ticketSupported := CH_TicketSupported c;
     ch_sessionTicket := CH_SessionTicket c; ch_supportedSignatureAlgorithms := CH_SupportedSignatureAlgorithms c;
     ch_supportedSignatureAlgorithmsCert := CH_SupportedSignatureAlgorithmsCert c;
     ch_secureRenegotiationSupported := CH_SecureRenegotiationSupported c; ch_secureRenegotiation := CH_SecureRenegotiation c;
     ch_extendedMasterSecret := CH_Ems c; ch_alpnProtocols := CH_AlpnProtocols c; ch_scts := CH_Scts c;
     ch_supportedVersions := CH_SupportedVersions c; ch_cookie := CH_Cookie c;
     ch_keyShares := KeyShares_ToPrivate (CH_KeyShares c); ch_earlyData := CH_EarlyData c; ch_pskModes := CH_PskModes c;
     ch_pskIdentities := PskIdentities_ToPrivate (CH_PskIdentities c); ch_pskBinders := CH_PskBinders c;
     ch_quicTransportParameters := CH_QuicTransportParameters c; ch_encryptedClientHello := CH_encryptedClientHello c;
     ch_nextProtoNeg := CH_NextProtoNeg c;
     ch_extensions := [] (* not set: zero value *) |}.
Definition CH_set_cached (c : PubClientHelloMsg) (p : option clientHelloMsg) : PubClientHelloMsg :=
  {| CH_Raw := CH_Raw c; CH_Vers := CH_Vers c; CH_Random := CH_Random c; CH_SessionId := CH_SessionId c;
     CH_CipherSuites := CH_CipherSuites c; CH_CompressionMethods := CH_CompressionMethods c; CH_NextProtoNeg := CH_NextProtoNeg c;
     CH_ServerName := CH_ServerName c; CH_OcspStapling := CH_OcspStapling c; CH_Scts := CH_Scts c; CH_Ems := CH_Ems c;
     CH_SupportedCurves := CH_SupportedCurves c; CH_SupportedPoints := CH_SupportedPoints c;
     CH_TicketSupported := CH_TicketSupported c; CH_SessionTicket := CH_SessionTicket c;
     CH_SupportedSignatureAlgorithms := CH_SupportedSignatureAlgorithms c; CH_SecureRenegotiation := CH_SecureRenegotiation c;
     CH_SecureRenegotiationSupported := CH_SecureRenegotiationSupported c; CH_AlpnProtocols := CH_AlpnProtocols c;
     CH_SupportedSignatureAlgorithmsCert := CH_SupportedSignatureAlgorithmsCert c; CH_SupportedVersions := CH_SupportedVersions c;
     CH_Cookie := CH_Cookie c; CH_KeyShares := CH_KeyShares c; CH_EarlyData := CH_EarlyData c; CH_PskModes := CH_PskModes c;
     CH_PskIdentities := CH_PskIdentities c; CH_PskBinders := CH_PskBinders c;
     CH_QuicTransportParameters := CH_QuicTransportParameters c; CH_cachedPrivateHello := p;
     CH_encryptedClientHello := CH_encryptedClientHello c |}.
(* returns (private struct, receiver after the call) *)
Definition CH_getPrivatePtr (c : option PubClientHelloMsg) : option (clientHelloMsg * PubClientHelloMsg) :=  (* :391 *)
  match c with None => None | Some c => let p := CH_private_of c in Some (p, CH_set_cached c (Some p)) end.
Definition ch_getPublicPtr (m : option clientHelloMsg) : option PubClientHelloMsg :=                        (* :441 *)
  match m with None => None | Some m =>
    Some {| CH_Raw := ch_original m; CH_Vers := ch_vers m; CH_Random := ch_random m; CH_SessionId := ch_sessionId m;
            CH_CipherSuites := ch_cipherSuites m; CH_CompressionMethods := ch_compressionMethods m;
            CH_NextProtoNeg := ch_nextProtoNeg m; CH_ServerName := ch_serverName m; CH_OcspStapling := ch_ocspStapling m;
            CH_Scts := ch_scts m; CH_Ems := ch_extendedMasterSecret m; CH_SupportedCurves := ch_supportedCurves m;
            CH_SupportedPoints := ch_supportedPoints m; CH_TicketSupported := ch_ticketSupported m;
            CH_SessionTicket := ch_sessionTicket m; CH_SupportedSignatureAlgorithms := ch_supportedSignatureAlgorithms m;
            CH_SecureRenegotiation := ch_secureRenegotiation m;
            CH_SecureRenegotiationSupported := ch_secureRenegotiationSupported m; CH_AlpnProtocols := ch_alpnProtocols m;
            CH_SupportedSignatureAlgorithmsCert := ch_supportedSignatureAlgorithmsCert m;
            CH_SupportedVersions := ch_supportedVersions m; CH_Cookie := ch_cookie m;
            CH_KeyShares := keyShares_ToPublic (ch_keyShares m); CH_EarlyData := ch_earlyData m; CH_PskModes := ch_pskModes m;
            CH_PskIdentities := pskIdentities_ToPublic (ch_pskIdentities m); CH_PskBinders := ch_pskBinders m;
            CH_QuicTransportParameters := ch_quicTransportParameters m; CH_cachedPrivateHello := Some m;
            CH_encryptedClientHello := ch_encryptedClientHello m |} end.

(* ---- the field tables the runner compares with reflect on every run ----
   pair name, public struct fields in declaration order, private struct fields in declaration order,
   (public field, private field) for every field the conversions copy, in either direction. *)
Record pair_info := { pi_pub : list string; pi_priv : list string; pi_copied : list (string * string) }.
Local Open Scope string_scope.
Definition info_ClientHello : pair_info := {|
  pi_pub := ["Raw";"Vers";"Random";"SessionId";"CipherSuites";"CompressionMethods";"NextProtoNeg";"ServerName";"OcspStapling";
    "Scts";"Ems";"SupportedCurves";"SupportedPoints";"TicketSupported";"SessionTicket";"SupportedSignatureAlgorithms";
    "SecureRenegotiation";"SecureRenegotiationSupported";"AlpnProtocols";"SupportedSignatureAlgorithmsCert";"SupportedVersions";
    "Cookie";"KeyShares";"EarlyData";"PskModes";"PskIdentities";"PskBinders";"QuicTransportParameters";"cachedPrivateHello";
    "encryptedClientHello"];
  pi_priv := ["original";"vers";"random";"sessionId";"cipherSuites";"compressionMethods";"serverName";"ocspStapling";
    "supportedCurves";"supportedPoints";"ticketSupported";"sessionTicket";"supportedSignatureAlgorithms";
    "supportedSignatureAlgorithmsCert";"secureRenegotiationSupported";"secureRenegotiation";"extendedMasterSecret";
    "alpnProtocols";"scts";"supportedVersions";"cookie";"keyShares";"earlyData";"pskModes";"pskIdentities";"pskBinders";
    "quicTransportParameters";"encryptedClientHello";"extensions";"nextProtoNeg"];
  pi_copied := [("Raw","original");("Vers","vers");("Random","random");("SessionId","sessionId");("CipherSuites","cipherSuites");
    ("CompressionMethods","compressionMethods");("NextProtoNeg","nextProtoNeg");("ServerName","serverName");
    ("OcspStapling","ocspStapling");("Scts","scts");("Ems","extendedMasterSecret");("SupportedCurves","supportedCurves");
    ("SupportedPoints","supportedPoints");("TicketSupported","ticketSupported");("SessionTicket","sessionTicket");
    ("SupportedSignatureAlgorithms","supportedSignatureAlgorithms");("SecureRenegotiation","secureRenegotiation");
    ("SecureRenegotiationSupported","secureRenegotiationSupported");("AlpnProtocols","alpnProtocols");
    ("SupportedSignatureAlgorithmsCert","supportedSignatureAlgorithmsCert");("SupportedVersions","supportedVersions");
    ("Cookie","cookie");("KeyShares","keyShares");("EarlyData","earlyData");("PskModes","pskModes");
    ("PskIdentities","pskIdentities");("PskBinders","pskBinders");("QuicTransportParameters","quicTransportParameters");
    ("encryptedClientHello","encryptedClientHello")] |}.
Definition info_ServerHello : pair_info := {|
  pi_pub := ["Raw";"Vers";"Random";"SessionId";"CipherSuite";"CompressionMethod";"NextProtoNeg";"NextProtos";"OcspStapling";
    "Scts";"ExtendedMasterSecret";"TicketSupported";"SecureRenegotiation";"SecureRenegotiationSupported";"AlpnProtocol";
    "SupportedVersion";"ServerShare";"SelectedIdentityPresent";"SelectedIdentity";"Cookie";"SelectedGroup"];
  pi_priv := ["original";"vers";"random";"sessionId";"cipherSuite";"compressionMethod";"ocspStapling";"ticketSupported";
    "secureRenegotiationSupported";"secureRenegotiation";"extendedMasterSecret";"alpnProtocol";"scts";"supportedVersion";
    "serverShare";"selectedIdentityPresent";"selectedIdentity";"supportedPoints";"encryptedClientHello";"serverNameAck";
    "cookie";"selectedGroup";"nextProtoNeg";"nextProtos"];
  pi_copied := [("Raw","original");("Vers","vers");("Random","random");("SessionId","sessionId");("CipherSuite","cipherSuite");
    ("CompressionMethod","compressionMethod");("NextProtoNeg","nextProtoNeg");("NextProtos","nextProtos");
    ("OcspStapling","ocspStapling");("Scts","scts");("ExtendedMasterSecret","extendedMasterSecret");
    ("TicketSupported","ticketSupported");("SecureRenegotiation","secureRenegotiation");
    ("SecureRenegotiationSupported","secureRenegotiationSupported");("AlpnProtocol","alpnProtocol");
    ("SupportedVersion","supportedVersion");("ServerShare","serverShare");("SelectedIdentityPresent","selectedIdentityPresent");
    ("SelectedIdentity","selectedIdentity");("Cookie","cookie");("SelectedGroup","selectedGroup")] |}.
Definition info_CertReq13 : pair_info := {|
  pi_pub := ["Raw";"OcspStapling";"Scts";"SupportedSignatureAlgorithms";"SupportedSignatureAlgorithmsCert";"CertificateAuthorities"];
  pi_priv := ["original";"ocspStapling";"scts";"supportedSignatureAlgorithms";"supportedSignatureAlgorithmsCert";"certificateAuthorities"];
  pi_copied := [("OcspStapling","ocspStapling");("Scts","scts");("SupportedSignatureAlgorithms","supportedSignatureAlgorithms");
    ("SupportedSignatureAlgorithmsCert","supportedSignatureAlgorithmsCert");("CertificateAuthorities","certificateAuthorities")] |}.
Definition info_KeyShare : pair_info := {| pi_pub := ["Group";"Data"]; pi_priv := ["group";"data"];
  pi_copied := [("Group","group");("Data","data")] |}.
Definition info_PskIdentity : pair_info := {| pi_pub := ["Label";"ObfuscatedTicketAge"]; pi_priv := ["label";"obfuscatedTicketAge"];
  pi_copied := [("Label","label");("ObfuscatedTicketAge","obfuscatedTicketAge")] |}.
Definition info_TicketKey : pair_info := {| pi_pub := ["AesKey";"HmacKey";"Created"]; pi_priv := ["aesKey";"hmacKey";"created"];
  pi_copied := [("AesKey","aesKey");("HmacKey","hmacKey");("Created","created")] |}.
Definition info_KeySharePrivateKeys : pair_info := {| pi_pub := ["CurveID";"Ecdhe";"Mlkem";"MlkemEcdhe";"ExtraEcdhe"];
  pi_priv := ["curveID";"ecdhe";"mlkem";"mlkemEcdhe";"extraEcdhe"];
  pi_copied := [("CurveID","curveID");("Ecdhe","ecdhe");("Mlkem","mlkem");("MlkemEcdhe","mlkemEcdhe");("ExtraEcdhe","extraEcdhe")] |}.
Definition info_KemPrivateKey : pair_info := {| pi_pub := ["SecretKey";"CurveID"]; pi_priv := ["secretKey";"curveID"];
  pi_copied := [("SecretKey","secretKey");("CurveID","curveID")] |}.
Definition info_CipherSuiteTLS13 : pair_info := {| pi_pub := ["Id";"KeyLen";"Aead";"Hash"]; pi_priv := ["id";"keyLen";"aead";"hash"];
  pi_copied := [("Id","id");("KeyLen","keyLen");("Aead","aead");("Hash","hash")] |}.
Definition info_CipherSuite : pair_info := {|
  pi_pub := ["Id";"KeyLen";"MacLen";"IvLen";"Ka";"Flags";"Cipher";"Mac";"Aead"];
  pi_priv := ["id";"keyLen";"macLen";"ivLen";"ka";"flags";"cipher";"mac";"aead"];
  pi_copied := [("Id","id");("KeyLen","keyLen");("MacLen","macLen");("IvLen","ivLen");("Ka","ka");("Flags","flags");
    ("Cipher","cipher");("Mac","mac");("Aead","aead")] |}.
Definition info_FinishedHash : pair_info := {|
  pi_pub := ["Client";"Server";"ClientMD5";"ServerMD5";"Buffer";"Version";"Prfv2";"Prf"];
  pi_priv := ["client";"server";"clientMD5";"serverMD5";"buffer";"version";"prf"];
  pi_copied := [("Client","client");("Server","server");("ClientMD5","clientMD5");("ServerMD5","serverMD5");("Buffer","buffer");
    ("Version","version");("Prfv2","prf")] |}.

Definition pair_table : list (string * pair_info) :=
  [("ClientHello", info_ClientHello); ("ServerHello", info_ServerHello); ("CertReq13", info_CertReq13);
   ("KeyShare", info_KeyShare); ("PskIdentity", info_PskIdentity); ("TicketKey", info_TicketKey);
   ("KeySharePrivateKeys", info_KeySharePrivateKeys); ("KemPrivateKey", info_KemPrivateKey);
   ("CipherSuiteTLS13", info_CipherSuiteTLS13); ("CipherSuite", info_CipherSuite); ("FinishedHash", info_FinishedHash)].

(* Fields WITHOUT a counterpart = declared fields that no conversion copies. *)
Definition str_mem (s : string) (l : list string) : bool := existsb (String.eqb s) l.
Definition pub_without (i : pair_info) : list string := filter (fun f => negb (str_mem f (map fst (pi_copied i)))) (pi_pub i).
Definition priv_without (i : pair_info) : list string := filter (fun f => negb (str_mem f (map snd (pi_copied i)))) (pi_priv i).
Definition without_counterpart : list (string * (list string * list string)) :=
  filter (fun e => match snd e with ([], []) => false | _ => true end)
         (map (fun e => (fst e, (pub_without (snd e), priv_without (snd e)))) pair_table).
