(* "The client never reports an unoffered value in ConnectionState" - also after an aborted handshake: every value the
   Conn holds when the handshake stops passed the offered-set check first. *)
From UV Require Import Base.Common Model.Negotiate Model.NegotiateReport Proofs.NegotiateP.

Definition reported_offered (v : client_view) (r : conn_state) : Prop :=
  (cs_suite r = 0 \/ In (cs_suite r) (cv_suites v))
  /\ (cs_group r = 0 \/ In (cs_group r) (cv_shares v) \/ In (cs_group r) (cv_curves v))
  /\ (cs_alpn r = [] \/ In (cs_alpn r) (cv_alpn v)).

Lemma rep_offered v suite group alpn :
  suite = 0 \/ In suite (cv_suites v) ->
  group = 0 \/ In group (cv_shares v) \/ In group (cv_curves v) ->
  alpn = [] \/ In alpn (cv_alpn v) ->
  reported_offered v (rep suite group alpn).
Proof. intros. repeat split; assumption. Qed.

Lemma rep_empty v : reported_offered v (rep 0 0 []).
Proof. apply rep_offered; auto. Qed.

Lemma report13_offered v fl : reported_offered v (report13 v fl).
Proof.
  unfold report13.
  destruct ((cv_ecdhe v =? 0) || _); [apply rep_empty|].
  destruct (f_hrr fl) as [hrr|] eqn:Ehrr.
  - destruct (check_hello13 v None hrr) as [a|suite0] eqn:E1; [apply rep_empty|].
    apply check_hello13_inv in E1. destruct E1 as (_ & A2 & _).
    destruct (process_hrr v hrr) as [a|[shares ecdhe]] eqn:E2; [apply rep_offered; auto|].
    destruct (check_hello13 v (Some suite0) (f_sh fl)) as [a|suite] eqn:E3; [apply rep_offered; auto|].
    apply check_hello13_inv in E3. destruct E3 as (_ & B2 & _).
    destruct (process_sh13 v shares suite (f_sh fl)) as [a|psk] eqn:E4; [apply rep_offered; auto|].
    apply process_sh13_inv in E4. destruct E4 as (C1 & _).
    assert (G : In (h_share (f_sh fl)) (cv_shares v) \/ In (h_share (f_sh fl)) (cv_curves v)).
    { apply process_hrr_inv in E2. destruct E2 as [(_ & -> & _) | (_ & -> & _ & D4 & _)]; [auto|].
      destruct C1 as [<-|[]]. auto. }
    destruct (establish_keys _ _ _); [apply rep_offered; auto|].
    destruct (f_crypto_ok fl); cbn [negb]; [|apply rep_offered; auto].
    destruct (check_alpn (cv_alpn v) (f_ee_alpn fl)) eqn:E5; cbn [negb]; apply rep_offered; auto.
    apply check_alpn_inv, E5.
  - destruct (check_hello13 v None (f_sh fl)) as [a|suite] eqn:E1; [apply rep_empty|].
    apply check_hello13_inv in E1. destruct E1 as (_ & A2 & _).
    destruct (process_sh13 v (cv_shares v) suite (f_sh fl)) as [a|psk] eqn:E4; [apply rep_offered; auto|].
    apply process_sh13_inv in E4. destruct E4 as (C1 & _).
    destruct (establish_keys _ _ _); [apply rep_offered; auto|].
    destruct (f_crypto_ok fl); cbn [negb]; [|apply rep_offered; auto].
    destruct (check_alpn (cv_alpn v) (f_ee_alpn fl)) eqn:E5; cbn [negb]; apply rep_offered; auto.
    apply check_alpn_inv, E5.
Qed.

(* TLS <= 1.2: the ECDHE curve is an offered one once the curve check (fixes/C12-tls12-unoffered-curve) is in the tree *)
Lemma report12_offered e v h fl :
  e_fix_curve12 e = true -> reported_offered v (report12 e v h fl).
Proof.
  intros Hf. unfold report12.
  destruct (memN (h_suite h) (cv_suites v) && memN (h_suite h) (e_impl12 e)) eqn:E1; cbn [negb]; [|apply rep_empty].
  apply andb_true_iff in E1. destruct E1 as [E1 _]. apply memN_In in E1.
  destruct (h_comp h =? 0); cbn [negb]; [|apply rep_offered; auto].
  destruct (check_alpn (cv_alpn v) (h_alpn h)) eqn:E3; cbn [negb]; [|apply rep_offered; auto].
  apply check_alpn_inv in E3.
  destruct (process_skx e v (h_suite h) (f_skx fl)) eqn:E4; [apply rep_offered; auto|].
  destruct (f_skx fl) as [c|] eqn:Ec; apply rep_offered; auto.
  unfold process_skx in E4. destruct (memN (h_suite h) (e_ecdhe12 e)); [|discriminate].
  destruct (classical_impl c); [|discriminate]. cbn [negb] in E4. rewrite Hf in E4. cbn [andb] in E4.
  destruct (memN c (cv_curves v)) eqn:E6; [|discriminate]. apply memN_In in E6. auto.
Qed.

Lemma report_offered e v fl : e_fix_curve12 e = true -> reported_offered v (report_gen e v fl).
Proof.
  intros Hf. unfold report_gen.
  destruct (pick_version v _); [|apply rep_empty].
  destruct (version_offered e v n); cbn [negb]; [|apply rep_empty].
  destruct (canary_abort e v n _); [apply rep_empty|].
  destruct (n =? V13); [apply report13_offered | apply report12_offered; exact Hf].
Qed.

Lemma report_offered_wire e v w fl :
  e_fix_curve12 e = true -> synced v w = true ->
  let r := report_gen e v fl in
  (cs_suite r = 0 \/ In (cs_suite r) (w_suites w))
  /\ (cs_group r = 0 \/ In (cs_group r) (w_shares w) \/ In (cs_group r) (w_groups w))
  /\ (cs_alpn r = [] \/ In (cs_alpn r) (w_alpn w)).
Proof.
  intros Hf Hs. destruct (synced_inv _ _ Hs) as (S1 & S2 & S3 & S4 & _).
  rewrite <- S1, <- S2, <- S3, <- S4. exact (report_offered e v fl Hf).
Qed.

(* a completed handshake reports exactly the state it completed with *)
Lemma report_of_complete e v fl st :
  client_run_gen e v fl = Complete st ->
  cs_suite (report_gen e v fl) = cs_suite st /\ cs_group (report_gen e v fl) = cs_group st
  /\ cs_alpn (report_gen e v fl) = cs_alpn st.
Proof.
  unfold client_run_gen, report_gen.
  destruct (pick_version v _) as [vers|]; [|discriminate].
  destruct (version_offered e v vers); cbn [negb]; [|discriminate].
  destruct (canary_abort e v vers _); [discriminate|].
  destruct (vers =? V13).
  - unfold run13, report13.
    destruct ((cv_ecdhe v =? 0) || _); [discriminate|].
    destruct (f_hrr fl) as [hrr|].
    1: destruct (check_hello13 v None hrr) as [a|suite0]; [discriminate|];
       destruct (process_hrr v hrr) as [a|[shares ecdhe]]; [discriminate|].
    (* from here on both cases read the ServerHello alike *)
    all: destruct (check_hello13 v _ (f_sh fl)) as [a|suite]; [discriminate|].
    all: destruct (process_sh13 v _ suite (f_sh fl)) as [a|psk]; [discriminate|].
    all: destruct (establish_keys _ _ _); [discriminate|].
    all: destruct (f_crypto_ok fl); cbn [negb]; [|discriminate].
    all: destruct (check_alpn _ _); cbn [negb]; [|discriminate].
    all: destruct (if psk then None else check_ccert v (f_ccert fl)); [discriminate|].
    all: intros H; inversion H; subst st; cbn; auto.
  - unfold run12, report12.
    destruct (memN _ _ && memN _ _); cbn [negb]; [|discriminate].
    destruct (h_comp _ =? 0); cbn [negb]; [|discriminate].
    destruct (check_alpn _ _); cbn [negb]; [|discriminate].
    destruct (process_skx _ _ _ _); [discriminate|].
    destruct (f_crypto_ok fl); cbn [negb]; [|discriminate].
    intros H; inversion H; subst st; cbn. auto.
Qed.
