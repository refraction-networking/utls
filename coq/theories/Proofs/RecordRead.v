(* Read side: Conn.Read / UConn.Read reassemble what a matched writer sent (stream_integrity).
   Scope of the proof: application data records (any sizes, any interleaving of writes and reads, any
   read-buffer sizes). KeyUpdate handling is modelled in Model/Record.v and exercised by the runner but
   is not covered by these theorems. *)
From UV Require Import Base.Common Model.Record Proofs.RecordP Proofs.RecordRT Proofs.RecordStream.
Open Scope N_scope.

Definition rconn_ok (c : conn) : Prop :=
  vers_ok (cn_vers c) /\ cn_hand c = [] /\ h_cipher (cn_in c) <> None.

Lemma vers_bytes v : vers_ok v ->
  vb1 v * 256 + vb2 v = (if v =? V13 then V12 else v).
Proof. intros [-> | [-> | [-> | ->]]]; reflexivity. Qed.

Lemma len16 n : n < 65536 -> (n / 256) mod 256 * 256 + n mod 256 = n.
Proof.
  intros H. rewrite (N.mod_small (n / 256)) by (apply N.div_lt_upper_bound; lia).
  pose proof (N.div_mod n 256). lia.
Qed.

Section Read.
Variable P : prims.
Hypothesis HP : prims_ok P.

Lemma decrypt_keeps_cipher hc r p t hc' :
  decrypt P hc r = Ok (p, t, hc') -> h_cipher hc <> None -> h_cipher hc' <> None.
Proof.
  intros H Hn. unfold decrypt in H.
  destruct (length r <? recordHeaderLen)%nat; [discriminate|].
  destruct ((h_vers hc =? V13) && (nth 0 r 0 =? rtCCS)); [inversion H; subst; exact Hn|].
  destruct (h_cipher hc) as [c|] eqn:E; [|contradiction].
  destruct (dec_cipher P hc c r) as [[[[[pt pay] pl] good] c1]| |]; cbn [bind] in H; try discriminate.
  destruct (dec_inner13 hc (nth 0 r 0) pt) as [pt1| |]; cbn [bind] in H; try discriminate.
  destruct (dec_mac P hc r (fst pt1) pay pl good) as [pt2| |]; cbn [bind] in H; try discriminate.
  unfold inc_seq in H. destruct (_ =? _); [discriminate|]. inversion H. cbn. discriminate.
Qed.

(* conn.go:612 readRecordOrCCS on one well-formed application data record *)
Lemma read_record_data f c r rest p rx' :
  rconn_ok c -> rec_wf (cn_vers c) r ->
  decrypt P (cn_in c) r = Ok (p, rtAppData, rx') -> 0 < len p <= maxPlaintext ->
  read_record P (S f) c (r ++ rest) = @RDone (conn * bytes)%type (with_in c rx' p [] 0, rest).
Proof.
  intros (Hvo & Hhand & Hci) (t & body & -> & Hbody) Hdec Hp.
  assert (Hb16 : len body < 65536).
  { unfold maxCiphertextTLS13, maxCiphertext in Hbody. destruct (cn_vers c =? V13); lia. }
  set (r := hdr5 t (vb1 (cn_vers c)) (vb2 (cn_vers c)) (len body) ++ body) in *.
  assert (Hrx : h_cipher rx' <> None) by (eapply decrypt_keeps_cipher; eassumption).
  cbn [read_record].
  assert (Lr : length r = (5 + length body)%nat) by reflexivity.
  replace (length (r ++ rest) <? recordHeaderLen)%nat with false
    by (symmetry; apply Nat.ltb_ge; rewrite app_length, Lr; unfold recordHeaderLen; lia).
  change (nth 0 (r ++ rest) 0) with t.
  change (nth 1 (r ++ rest) 0) with (vb1 (cn_vers c)).
  change (nth 2 (r ++ rest) 0) with (vb2 (cn_vers c)).
  change (nth 3 (r ++ rest) 0) with ((len body / 256) mod 256).
  change (nth 4 (r ++ rest) 0) with (len body mod 256).
  rewrite (vers_bytes _ Hvo), N.eqb_refl, (len16 _ Hb16). cbn [negb].
  replace ((cn_vers c =? V13) && (maxCiphertextTLS13 <? len body) || (maxCiphertext <? len body)) with false.
  2:{ symmetry. unfold maxCiphertextTLS13, maxCiphertext in *. destruct (cn_vers c =? V13) eqn:E; cbn; lia. }
  replace (N.to_nat (len body)) with (length body) by (unfold len; lia).
  replace (length (r ++ rest) <? recordHeaderLen + length body)%nat with false
    by (symmetry; apply Nat.ltb_ge; rewrite app_length, Lr; unfold recordHeaderLen; lia).
  rewrite firstn_app_exact by (rewrite Lr; reflexivity).
  rewrite skipn_app_exact by (rewrite Lr; reflexivity).
  rewrite Hdec.
  replace (maxPlaintext <? len p) with false by lia.
  destruct (h_cipher rx') eqn:Erx; [|contradiction].
  cbn [andb].
  change (rtAppData =? rtAlert) with false. change (rtAppData =? rtCCS) with false.
  change (rtAppData =? rtHandshake) with false. change (rtAppData =? rtAppData) with true.
  rewrite Hhand. change (0 <? len []) with false. rewrite andb_false_r.
  replace (len p =? 0) with false by lia.
  replace (0 <? len p) with true by lia. cbn [negb andb]. reflexivity.
Qed.

Lemma conn_read_input c wire n rnd :
  cn_hand c = [] -> cn_input c <> [] -> (0 < n)%nat ->
  conn_read P c wire n rnd
  = Ok (Some (firstn n (cn_input c)), with_in c (cn_in c) (skipn n (cn_input c)) (cn_hand c) (cn_retry c), wire, []).
Proof.
  intros Hh Hi Hn. unfold conn_read.
  replace (n =? 0)%nat with false by (symmetry; apply Nat.eqb_neq; lia).
  change (2 + length wire + length (cn_hand c))%nat with (S (S (length wire + length (cn_hand c)))).
  cbn [read_loop]. rewrite Hh. cbn [length Nat.ltb Nat.leb].
  destruct (cn_input c) eqn:E; [contradiction|]. cbn [length Nat.ltb Nat.leb bind]. rewrite ?Hh, ?E. reflexivity.
Qed.

Lemma conn_read_record c r rest p rx' n rnd :
  rconn_ok c -> cn_input c = [] -> rec_wf (cn_vers c) r ->
  decrypt P (cn_in c) r = Ok (p, rtAppData, rx') -> 0 < len p <= maxPlaintext -> (0 < n)%nat ->
  conn_read P c (r ++ rest) n rnd
  = Ok (Some (firstn n p), with_in c rx' (skipn n p) [] 0, rest, []).
Proof.
  intros Hr Hi Hw Hd Hp Hn. pose proof Hr as (_ & Hh & _). unfold conn_read.
  replace (n =? 0)%nat with false by (symmetry; apply Nat.eqb_neq; lia).
  change (2 + length (r ++ rest) + length (cn_hand c))%nat with (S (S (length (r ++ rest) + length (cn_hand c)))).
  cbn [read_loop]. rewrite Hh, Hi. cbn [length Nat.ltb Nat.leb].
  unfold read_record_fuel. rewrite (read_record_data _ c r rest p rx' Hr Hw Hd Hp).
  cbn [with_in cn_hand cn_input length Nat.ltb Nat.leb].
  destruct p as [|x p']; [unfold len in Hp; cbn in Hp; lia|].
  cbn [length Nat.ltb Nat.leb bind]. reflexivity.
Qed.

Lemma conn_read_block c n rnd :
  cn_hand c = [] -> cn_input c = [] -> (0 < n)%nat ->
  conn_read P c [] n rnd = Ok (None, c, [], []).
Proof.
  intros Hh Hi Hn. unfold conn_read.
  replace (n =? 0)%nat with false by (symmetry; apply Nat.eqb_neq; lia).
  cbn [length Nat.add read_loop]. rewrite Hh, Hi. cbn. reflexivity.
Qed.

(* the read half of stream_integrity: a Read hands out what is buffered, else the payload of the next
   record in flight, else it blocks; what it returns is taken off the front of what was buffered or in flight.
   [recs] is given the type that [inv] infers for it, so that step_inv can rewrite with the equation *)
Lemma conn_read_ok c (recs : list (bytes * list N)) rx_end n rnd :
  rconn_ok c -> rchain P (cn_vers c) rtAppData (cn_in c) recs rx_end -> (0 < n)%nat ->
  exists d c' recs',
    conn_read P c (concat (map snd recs)) n rnd = Ok (d, c', concat (map snd recs'), []) /\
    rconn_ok c' /\ cn_vers c' = cn_vers c /\ rchain P (cn_vers c) rtAppData (cn_in c') recs' rx_end /\
    cn_input c ++ concat (map fst recs)
    = match d with Some x => x | None => [] end ++ cn_input c' ++ concat (map fst recs') /\
    (0 < length (cn_input c ++ concat (map fst recs)) -> 0 < length match d with Some x => x | None => [] end)%nat.
Proof.
  intros Hr Hch Hn. pose proof Hr as (Hvo & Hhand & Hci).
  destruct (cn_input c) as [|x inp] eqn:Ein.
  - destruct recs as [|[p r] recs'].
    + exists None, c, []. cbn [map concat app]. rewrite (conn_read_block c n rnd Hhand Ein Hn), Ein. auto 6.
    + cbn [rchain] in Hch. destruct Hch as (Hrw & Hp & rx' & Hd & Hch').
      exists (Some (firstn n p)), (with_in c rx' (skipn n p) [] 0), recs'. cbn [map snd fst concat app].
      rewrite (conn_read_record c r _ p rx' n rnd Hr Ein Hrw Hd Hp Hn).
      split; [reflexivity|]. split; [|split; [reflexivity|split; [exact Hch'|]]].
      * split; [exact Hvo|]. split; [reflexivity|]. eapply decrypt_keeps_cipher; eassumption.
      * cbn [cn_input with_in]. split; [rewrite app_assoc, firstn_skipn; reflexivity|]. intros _.
        destruct p; [unfold len in Hp; cbn in Hp; lia|]. destruct n; [lia|]. cbn [firstn length]. lia.
  - assert (Hne : cn_input c <> []) by (rewrite Ein; discriminate). rewrite <- Ein.
    exists (Some (firstn n (cn_input c))), (with_in c (cn_in c) (skipn n (cn_input c)) (cn_hand c) (cn_retry c)), recs.
    rewrite (conn_read_input c _ n rnd Hhand Hne Hn). cbn [cn_input cn_in cn_vers with_in].
    split; [reflexivity|]. split; [exact Hr|]. split; [reflexivity|]. split; [exact Hch|].
    split; [rewrite app_assoc, firstn_skipn; reflexivity|]. intros _. rewrite Ein. destruct n; [lia|]. cbn [firstn length]. lia.
Qed.

(* any interleaving of writes and reads, one direction *)
Inductive op := Send (b : bytes) | Recv (n : nat).

Record world := mkWorld {
  w_tx : conn;        (* the writing connection *)
  w_rx : conn;        (* the reading connection *)
  w_wire : bytes;     (* bytes in flight (and in rawInput) *)
  w_sent : bytes;     (* everything handed to Write so far *)
  w_got : bytes       (* everything Read has returned so far *)
}.

Definition step (rnd : N -> bytes) (w : world) (o : op) : res world :=
  match o with
  | Send b =>
    do r <- conn_write P (w_tx w) b rnd;
    let '(out, _, tx') := r in
    Ok (mkWorld tx' (w_rx w) (w_wire w ++ out) (w_sent w ++ b) (w_got w))
  | Recv n =>
    do r <- conn_read P (w_rx w) (w_wire w) n rnd;
    let '(d, rx', wire', _) := r in
    Ok (mkWorld (w_tx w) rx' wire' (w_sent w) (w_got w ++ match d with Some x => x | None => [] end))
  end.

Fixpoint run (rnd : N -> bytes) (w : world) (ops : list op) : res world :=
  match ops with
  | [] => Ok w
  | o :: r => do w' <- step rnd w o; run rnd w' r
  end.

Fixpoint send_total (ops : list op) : N :=
  match ops with [] => 0 | Send b :: r => len b + send_total r | Recv _ :: r => send_total r end.

(* writer and reader are matched up to the records still in flight, and
   sent = received ++ (buffered in the reader) ++ (payloads in flight) *)
Definition inv (w : world) : Prop :=
  exists recs rx_end,
    w_wire w = concat (map snd recs) /\
    rchain P (cn_vers (w_rx w)) rtAppData (cn_in (w_rx w)) recs rx_end /\
    synced (cn_out (w_tx w)) rx_end /\
    wconn_ok (w_tx w) /\ rconn_ok (w_rx w) /\ cn_vers (w_tx w) = cn_vers (w_rx w) /\
    w_sent w = w_got w ++ cn_input (w_rx w) ++ concat (map fst recs).

Lemma step_inv rnd w o :
  inv w -> rnd_ok rnd ->
  match o with Send b => h_seq (cn_out (w_tx w)) + len b < 18446744073709551616 | Recv n => (0 < n)%nat end ->
  exists w', step rnd w o = Ok w' /\ inv w' /\
             h_seq (cn_out (w_tx w')) <= h_seq (cn_out (w_tx w)) + (match o with Send b => len b | _ => 0 end) /\
             (* progress: a read with data pending returns at least one byte *)
             (match o with
              | Recv n => length (w_got w) < length (w_sent w) -> length (w_got w) < length (w_got w')
              | _ => True end)%nat.
Proof.
  intros (recs & rx_end & Hwire & Hch & Hs & Hwt & Hwr & Hv & Hsent) Hrnd Hpre.
  destruct o as [b | n].
  - destruct (conn_write_ok P HP (w_tx w) b rnd rx_end Hwt Hs Hrnd Hpre)
      as (recs2 & tx' & rx2 & Hcw & Hch2 & Hs2 & Hcat & Hwt' & Hsame & Hq).
    eexists. split; [|split; [|split]].
    + unfold step. rewrite Hcw. cbn [bind]. reflexivity.
    + exists (recs ++ recs2), rx2. cbn [w_wire w_rx w_tx w_sent w_got].
      split; [rewrite map_app, concat_app, Hwire; reflexivity|].
      split; [eapply rchain_app; [exact Hch|rewrite <- Hv; exact Hch2]|].
      split; [exact Hs2|]. split; [exact Hwt'|]. split; [exact Hwr|].
      split; [congruence|].
      rewrite Hsent, map_app, concat_app, Hcat, <- !app_assoc. reflexivity.
    + cbn [w_tx]. exact Hq.
    + exact I.
  - destruct (conn_read_ok (w_rx w) recs rx_end n rnd Hwr Hch Hpre)
      as (d & rx' & recs' & Hcr & Hwr' & Hv' & Hch' & Hdata & Hprog).
    eexists. split; [|split; [|split]].
    + unfold step. rewrite Hwire, Hcr. cbn [bind]. reflexivity.
    + exists recs', rx_end. cbn [w_wire w_rx w_tx w_sent w_got]. rewrite Hv'.
      split; [reflexivity|]. split; [exact Hch'|]. split; [exact Hs|]. split; [exact Hwt|].
      split; [exact Hwr'|]. split; [exact Hv|]. rewrite Hsent, Hdata, <- !app_assoc. reflexivity.
    + cbn [w_tx]. lia.
    + cbn [w_got]. intros Hlt. rewrite Hsent, !app_length in Hlt. rewrite !app_length in *. lia.
Qed.

Definition recvs_positive (ops : list op) : Prop :=
  forall n, In (Recv n) ops -> (0 < n)%nat.

Theorem stream_integrity rnd : rnd_ok rnd -> forall ops w,
  inv w -> recvs_positive ops ->
  h_seq (cn_out (w_tx w)) + send_total ops < 18446744073709551616 ->
  exists w', run rnd w ops = Ok w' /\ inv w' /\
             exists pending, w_sent w' = w_got w' ++ pending.
Proof.
  intros Hrnd ops. induction ops as [|o ops IH]; intros w Hi Hpos Hbud.
  - exists w. split; [reflexivity|]. split; [exact Hi|].
    destruct Hi as (recs & rx_end & _ & _ & _ & _ & _ & _ & Hs). eexists. exact Hs.
  - assert (Hpre : match o with Send b => h_seq (cn_out (w_tx w)) + len b < 18446744073709551616 | Recv n => (0 < n)%nat end).
    { destruct o as [b | n]; [cbn [send_total] in Hbud; lia|apply Hpos; left; reflexivity]. }
    destruct (step_inv rnd w o Hi Hrnd Hpre) as (w1 & Hst & Hi1 & Hq & _).
    destruct (IH w1 Hi1) as (w' & Hrun & Hi' & Hpend).
    + intros n Hn. apply Hpos. right. exact Hn.
    + destruct o as [b | n]; cbn [send_total] in Hbud; lia.
    + exists w'. split; [cbn [run]; rewrite Hst; cbn [bind]; exact Hrun|]. split; assumption.
Qed.

End Read.
