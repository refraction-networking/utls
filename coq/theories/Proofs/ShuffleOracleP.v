(* C03: the shuffle-aware oracle of Model/ParrotSpec.v (shuffle_match: re-ARRANGE the table entry's extension list
   after the wire order, then compare in sequence) accepts every hello built from a rearrangement the Chrome shuffle can
   produce - soundness, i.e. the oracle raises no false alarm on a shuffling parrot.
   Needs of the table entry [l]: its non-fixed entries form one contiguous block between the fixed ones (GREASE at the
   front, GREASE / padding / pre_shared_key at the back: [contigb], true for all 38 parrots by computation), types of the
   non-GREASE entries pairwise distinct and none a GREASE value (part of PresetOk.preset_ok). *)
From Coq Require Import Permutation.
From UV Require Import Base.Common Model.Wire Model.Ext Model.ExtSpec.
From UV Require Model.Grease.
From UV Require Import Model.Preset Model.PresetOk Model.ParrotSpec Proofs.PresetP.

Definition mustnot (c : cfg) (s : sext) : bool := match presence_of c s with MustNot => true | _ => false end.
Definition nonfixed (s : sext) : bool := negb (fixedb s).

Lemma fixed_not_mustnot c s : fixedb s = true -> mustnot c s = false.
Proof. unfold mustnot. destruct s as [e|]; [|discriminate]. destruct e; cbn; intros H; try discriminate; reflexivity. Qed.

Lemma may_is_fixed c s : presence_of c s = May -> fixedb s = true.
Proof. destruct s as [e|]; [|discriminate]. destruct e; cbn; intros H; try discriminate; try reflexivity. destruct (empty host && empty (c_sni c)); discriminate. Qed.

Lemma ext_matches_id c s w : fixedb s = false -> ext_matches c s w = true -> fst w = sext_id s.
Proof.
  destruct w as [id body]. destruct s as [e|su ci en pl]; cbn [ext_matches sext_id fst].
  - destruct e; cbn [fixedb ext_id]; intros Hf H; try discriminate; apply andb_true_iff in H; destruct H as [H _]; apply N.eqb_eq in H; exact H.
  - intros _ H. apply andb_true_iff in H. destruct H as [H _]. apply N.eqb_eq in H. exact H.
Qed.

Definition fixed_id (i : N) : bool := Grease.is_grease i || (i =? ID_PADDING) || (i =? ID_PSK).

Lemma ext_matches_fixed c s w : fixedb s = true -> ext_matches c s w = true -> fixed_id (fst w) = true.
Proof.
  destruct w as [id body]. destruct s as [e|]; [|discriminate]. unfold fixed_id. cbn [fst].
  destruct e; cbn [fixedb ext_matches]; intros Hf H; try discriminate.
  - apply andb_true_iff in H. destruct H as [H _]. rewrite H. reflexivity.
  - apply andb_true_iff in H. destruct H as [H _]. rewrite H. rewrite orb_true_r. reflexivity.
  - rewrite H. rewrite !orb_true_r. reflexivity.
  - rewrite H. rewrite !orb_true_r. reflexivity.
Qed.

(* entries that must not be on the wire play no role in the comparison *)
Lemma seq_match_drop c L : forall ws, seq_match c L ws = seq_match c (filter (fun s => negb (mustnot c s)) L) ws.
Proof.
  induction L as [|s L IH]; intros ws; [reflexivity|]. cbn [filter]. unfold mustnot at 1. cbn [seq_match].
  destruct (presence_of c s) eqn:E; cbn [negb seq_match]; rewrite ?E.
  - destruct ws; [reflexivity|]. rewrite IH. reflexivity.
  - apply IH.
  - destruct ws; rewrite !IH; reflexivity.
Qed.

Lemma filter_none {A} (f : A -> bool) l : (forall x, In x l -> f x = false) -> filter f l = [].
Proof. induction l as [|x r IH]; intros H; [reflexivity|]. cbn [filter]. rewrite (H x (or_introl eq_refl)). apply IH. intros y Hy. apply H. right. exact Hy. Qed.

Lemma filter_all {A} (f : A -> bool) l : (forall x, In x l -> f x = true) -> filter f l = l.
Proof. induction l as [|x r IH]; intros H; [reflexivity|]. cbn [filter]. rewrite (H x (or_introl eq_refl)), IH; [reflexivity|]. intros y Hy. apply H. right. exact Hy. Qed.

Lemma forallb_In {A} (f : A -> bool) l x : forallb f l = true -> In x l -> f x = true.
Proof. intros H. apply forallb_forall. exact H. Qed.

Lemma partition_len {A} (f : A -> bool) l : (length (filter (fun x => negb (f x)) l) + length (filter f l) = length l)%nat.
Proof. induction l as [|x r IH]; [reflexivity|]. cbn [filter]. destruct (f x); cbn [negb length]; lia. Qed.

Lemma pick_in nf s : NoDup (map sext_id nf) -> In s nf -> filter (fun x => sext_id x =? sext_id s) nf = [s].
Proof.
  induction nf as [|x r IH]; intros Hnd Hin; [destruct Hin|]. cbn [map] in Hnd. inversion Hnd as [|? ? Hn Hnd']; subst. cbn [filter].
  destruct Hin as [->|Hin].
  - rewrite N.eqb_refl. f_equal. apply filter_none. intros y Hy. apply N.eqb_neq. intros E. apply Hn. rewrite <- E. apply in_map. exact Hy.
  - destruct (sext_id x =? sext_id s) eqn:E; [|apply IH; assumption].
    exfalso. apply Hn. apply N.eqb_eq in E. rewrite E. apply in_map. exact Hin.
Qed.

Lemma pick_fixed nf i : (forall s, In s nf -> fixed_id (sext_id s) = false) -> fixed_id i = true -> filter (fun x => sext_id x =? i) nf = [].
Proof.
  intros H Hi. apply filter_none. intros x Hx. apply N.eqb_neq. intros E. rewrite <- E in Hi. rewrite (H x Hx) in Hi. discriminate.
Qed.

Lemma In_picked nf (ws : list (N * bytes)) s :
  In s (flat_map (fun w => filter (fun x => sext_id x =? fst w) nf) ws) <-> In s nf /\ In (sext_id s) (map fst ws).
Proof.
  rewrite in_flat_map, in_map_iff. split.
  - intros (w & Hw & Hs). apply filter_In in Hs. destruct Hs as [Hs E]. apply N.eqb_eq in E. split; [exact Hs|]. exists w. auto.
  - intros (Hs & w & E & Hw). exists w. split; [exact Hw|]. apply filter_In. split; [exact Hs|]. apply N.eqb_eq. auto.
Qed.

(* Reading the wire against L: each wire entry that belongs to a non-fixed entry of L picks that entry out of nf,
   a wire entry matched by a fixed one (GREASE, padding, pre_shared_key type) picks nothing. *)
Lemma seen_of_match c nf : NoDup (map sext_id nf) -> (forall s, In s nf -> fixed_id (sext_id s) = false) ->
  forall L ws, (forall s, In s L -> fixedb s = false -> In s nf) -> seq_match c L ws = true ->
    flat_map (fun w => filter (fun x => sext_id x =? fst w) nf) ws = filter (fun s => nonfixed s && negb (mustnot c s)) L.
Proof.
  intros Hnd Hids. induction L as [|s L IH]; intros ws Hsub H; cbn [seq_match] in H.
  - destruct ws; [reflexivity|discriminate].
  - assert (Hsub' : forall x, In x L -> fixedb x = false -> In x nf) by (intros x Hx; apply Hsub; right; exact Hx).
    assert (Hfix : forall w ws', fixedb s = true -> ext_matches c s w = true -> seq_match c L ws' = true ->
                   flat_map (fun w => filter (fun x => sext_id x =? fst w) nf) (w :: ws')
                   = filter (fun s => nonfixed s && negb (mustnot c s)) L).
    { intros w ws' Ef Hm Hr. cbn [flat_map]. rewrite (pick_fixed nf _ Hids (ext_matches_fixed c s w Ef Hm)). exact (IH ws' Hsub' Hr). }
    cbn [filter]. unfold nonfixed at 1, mustnot at 1. destruct (presence_of c s) eqn:Ep.
    + destruct ws as [|w ws']; [discriminate|]. apply andb_true_iff in H. destruct H as [Hm Hr].
      destruct (fixedb s) eqn:Ef; cbn [negb andb]; [exact (Hfix w ws' eq_refl Hm Hr)|].
      cbn [flat_map]. rewrite (ext_matches_id c s w Ef Hm), (pick_in nf s Hnd (Hsub s (or_introl eq_refl) Ef)).
      cbn [app]. f_equal. exact (IH ws' Hsub' Hr).
    + rewrite andb_false_r. exact (IH ws Hsub' H).
    + rewrite (may_is_fixed c s Ep). cbn [negb andb]. destruct ws as [|w ws']; [exact (IH _ Hsub' H)|].
      apply orb_true_iff in H. destruct H as [H|H]; [|exact (IH _ Hsub' H)].
      apply andb_true_iff in H. destruct H as [Hm Hr]. exact (Hfix w ws' (may_is_fixed c s Ep) Hm Hr).
Qed.

Lemma expect_app A : forall k B, expect_exts k (A ++ B) = expect_exts k A ++ expect_exts (k + ngrease A) B.
Proof.
  induction A as [|s A IH]; intros k B; [cbn; rewrite Nat.add_0_r; reflexivity|].
  cbn [app]. rewrite (expect_cons k s (A ++ B)), (expect_cons k s A), IH, <- app_assoc. do 3 f_equal.
  symmetry. apply ngrease_cons.
Qed.

Lemma nonfixed_nog X : forallb nonfixed X = true -> (forall k, expect_exts k X = X) /\ ngrease X = O.
Proof.
  induction X as [|s X IH]; intros H; [split; reflexivity|]. cbn [forallb] in H. apply andb_true_iff in H. destruct H as [Hs HX].
  destruct (IH HX) as [I1 I2].
  assert (G : (forall k, expect_exts k [s] = [s]) /\ is_sgrease s = false)
    by (destruct s as [e|]; [destruct e; try discriminate|]; split; reflexivity).
  destruct G as [G1 G2]. unfold ngrease. cbn [filter]. rewrite G2. split; [|exact I2].
  intros k. rewrite expect_cons, G1. unfold seen_after. rewrite G2, I1. reflexivity.
Qed.

Lemma expect_fixed k A : forallb fixedb A = true -> forallb fixedb (expect_exts k A) = true.
Proof.
  revert k. induction A as [|s A IH]; intros k H; [reflexivity|]. cbn [forallb] in H. apply andb_true_iff in H. destruct H as [Hs HA].
  destruct s as [e|]; [|discriminate]. destruct e; cbn [expect_exts forallb]; try discriminate; cbn [fixedb]; rewrite IH; try reflexivity; exact HA.
Qed.

Lemma expect_block F1 X F2 : forallb nonfixed X = true ->
  expect_exts 0 (F1 ++ X ++ F2) = expect_exts 0 F1 ++ X ++ expect_exts (ngrease F1) F2.
Proof.
  intros H. destruct (nonfixed_nog X H) as [Hn Hz]. rewrite !expect_app, Hn, Hz, Nat.add_0_r. reflexivity.
Qed.

Lemma refill_fixed A pool : forallb fixedb A = true -> refill A pool = A.
Proof.
  induction A as [|s A IH]; intros H; [reflexivity|]. cbn [forallb] in H. apply andb_true_iff in H. destruct H as [Hs HA].
  cbn [refill]. rewrite Hs, (IH HA). reflexivity.
Qed.

Lemma refill_contig F1 NF F2 pool : forallb fixedb F1 = true -> forallb nonfixed NF = true -> forallb fixedb F2 = true ->
  length pool = length NF -> refill (F1 ++ NF ++ F2) pool = F1 ++ pool ++ F2.
Proof.
  intros H1 H2 H3. revert pool. induction F1 as [|s F1 IH]; intros pool Hl.
  - cbn [app]. revert pool Hl. induction NF as [|x NF IHN]; intros pool Hl.
    + destruct pool; [|discriminate]. cbn [app]. apply refill_fixed. exact H3.
    + cbn [forallb] in H2. apply andb_true_iff in H2. destruct H2 as [Hx HN]. destruct pool as [|y pool]; [discriminate|].
      cbn [app refill]. unfold nonfixed in Hx. apply negb_true_iff in Hx. rewrite Hx. f_equal. apply IHN; [exact HN|]. cbn [length] in Hl. lia.
  - cbn [forallb] in H1. apply andb_true_iff in H1. destruct H1 as [Hs HF]. cbn [app refill]. rewrite Hs. f_equal. apply IH; assumption.
Qed.

Definition kept (l l' : list sext) : Prop :=
  (forall k x, nth_error l k = Some x -> fixedb x = true -> nth_error l' k = Some x)
  /\ (forall k y, nth_error l' k = Some y -> fixedb y = true -> nth_error l k = Some y).

Lemma kept_tail x l y l' : kept (x :: l) (y :: l') -> kept l l'.
Proof. intros [K1 K2]. split; intros k z H F; [apply (K1 (S k) z H F) | apply (K2 (S k) z H F)]. Qed.

Lemma kept_prefix F1 : forall R l', kept (F1 ++ R) l' -> forallb fixedb F1 = true -> exists R', l' = F1 ++ R' /\ kept R R'.
Proof.
  induction F1 as [|x F1 IH]; intros R l' K H; [exists l'; split; [reflexivity|exact K]|].
  cbn [forallb] in H. apply andb_true_iff in H. destruct H as [Hx HF]. cbn [app] in K.
  destruct K as [K1 K2]. pose proof (K1 0%nat x eq_refl Hx) as H0. destruct l' as [|y l']; [discriminate|]. cbn in H0. inversion H0; subst y.
  destruct (IH R l' (kept_tail x _ x _ (conj K1 K2)) HF) as (R' & -> & KR). exists R'. split; [reflexivity|exact KR].
Qed.

Lemma kept_suffix NF : forall F2 M', kept (NF ++ F2) M' -> length M' = length (NF ++ F2) -> forallb fixedb F2 = true ->
  exists NF', M' = NF' ++ F2 /\ length NF' = length NF.
Proof.
  induction NF as [|x NF IH]; intros F2 M' K Hl HF.
  - cbn [app] in *. destruct (kept_prefix F2 [] M') as (R' & HM & _); [rewrite app_nil_r; exact K | exact HF|].
    subst M'. rewrite app_length in Hl. destruct R'; [|cbn [length] in Hl; lia]. rewrite app_nil_r. exists []. split; reflexivity.
  - cbn [app length] in Hl. destruct M' as [|y M']; [discriminate|]. cbn [app] in K.
    destruct (IH F2 M' (kept_tail _ _ _ _ K) ltac:(cbn [length] in Hl; lia) HF) as (NF' & -> & Hn).
    exists (y :: NF'). split; [reflexivity|cbn [length]; lia].
Qed.

Fixpoint takew {A} (f : A -> bool) (l : list A) : list A := match l with x :: r => if f x then x :: takew f r else [] | [] => [] end.
Fixpoint dropw {A} (f : A -> bool) (l : list A) : list A := match l with x :: r => if f x then dropw f r else l | [] => [] end.
Lemma takew_dropw {A} (f : A -> bool) l : l = takew f l ++ dropw f l /\ forallb f (takew f l) = true.
Proof. induction l as [|x r [IH1 IH2]]; [split; reflexivity|]. cbn [takew dropw]. destruct (f x) eqn:E; [|split; reflexivity]. cbn [app forallb]. rewrite E, IH2. split; [f_equal; exact IH1|reflexivity]. Qed.

(* the non-fixed entries form one block *)
Definition contigb (l : list sext) : bool := forallb fixedb (dropw nonfixed (dropw fixedb l)).

Lemma contig_split l : contigb l = true -> exists F1 NF F2, l = F1 ++ NF ++ F2
  /\ forallb fixedb F1 = true /\ forallb nonfixed NF = true /\ forallb fixedb F2 = true.
Proof.
  intros H. destruct (takew_dropw fixedb l) as [E1 H1]. destruct (takew_dropw nonfixed (dropw fixedb l)) as [E2 H2].
  exists (takew fixedb l), (takew nonfixed (dropw fixedb l)), (dropw nonfixed (dropw fixedb l)).
  split; [rewrite <- E2; exact E1|]. auto.
Qed.

Lemma nonfixed_block F1 NF F2 : forallb fixedb F1 = true -> forallb nonfixed NF = true -> forallb fixedb F2 = true ->
  filter nonfixed (F1 ++ NF ++ F2) = NF.
Proof.
  intros H1 H2 H3. rewrite !filter_app, (filter_all nonfixed NF (fun x => forallb_In _ _ x H2)).
  rewrite !filter_none; [apply app_nil_r| |]; intros x Hx; unfold nonfixed;
    [rewrite (forallb_In _ _ x H3 Hx)|rewrite (forallb_In _ _ x H1 Hx)]; reflexivity.
Qed.

Lemma kept_blocks l l' : contigb l = true -> Permutation l l' -> kept l l' ->
  exists F1 NF NF' F2, l = F1 ++ NF ++ F2 /\ l' = F1 ++ NF' ++ F2 /\ Permutation NF NF'
    /\ forallb fixedb F1 = true /\ forallb nonfixed NF = true /\ forallb fixedb F2 = true.
Proof.
  intros Hcon P K. destruct (contig_split l Hcon) as (F1 & NF & F2 & -> & HF1 & HNF & HF2).
  destruct (kept_prefix F1 (NF ++ F2) l' K HF1) as (M' & -> & KM).
  apply Permutation_app_inv_l in P.
  destruct (kept_suffix NF F2 M' KM (eq_sym (Permutation_length P)) HF2) as (NF' & -> & _).
  apply Permutation_app_inv_r in P. exists F1, NF, NF', F2. auto 10.
Qed.

Section Blocks.
  Variables (c : cfg) (F1 NF NF' F2 : list sext).
  Hypothesis Hnd : NoDup (map sext_id NF).
  Hypothesis Hids : forall s, In s NF -> fixed_id (sext_id s) = false.
  Hypothesis P : Permutation NF NF'.
  Hypothesis HF1 : forallb fixedb F1 = true.
  Hypothesis HNF : forallb nonfixed NF = true.
  Hypothesis HF2 : forallb fixedb F2 = true.

  Lemma block_perm_nonfixed : forallb nonfixed NF' = true.
  Proof. apply forallb_forall. intros x Hx. apply (forallb_In _ _ x HNF). exact (Permutation_in _ (Permutation_sym P) Hx). Qed.

  (* the oracle's rearrangement of the table entry: the entries seen on the wire in wire order, then the absent ones *)
  Definition pool : list sext := filter (fun s => negb (mustnot c s)) NF' ++ filter (mustnot c) NF.

  Lemma pool_nonfixed : forallb nonfixed pool = true.
  Proof.
    unfold pool. rewrite forallb_app. apply andb_true_iff. split; apply forallb_forall; intros x Hx; apply filter_In in Hx; destruct Hx as [Hx _].
    - exact (forallb_In _ _ x block_perm_nonfixed Hx).
    - exact (forallb_In _ _ x HNF Hx).
  Qed.

  Lemma pool_present : filter (fun s => negb (mustnot c s)) pool = filter (fun s => negb (mustnot c s)) NF'.
  Proof.
    unfold pool. rewrite filter_app, (filter_all _ (filter _ NF')), (filter_none _ (filter _ NF)); [apply app_nil_r| |];
      intros x Hx; apply filter_In in Hx; destruct Hx as [_ Hx].
    - rewrite Hx. reflexivity.
    - exact Hx.
  Qed.

  Lemma arrange_block ws : seq_match c (expect_exts 0 (F1 ++ NF' ++ F2)) ws = true ->
    arrange (F1 ++ NF ++ F2) ws = F1 ++ pool ++ F2.
  Proof.
    intros Hm. rewrite (expect_block F1 NF' F2 block_perm_nonfixed) in Hm.
    set (E1 := expect_exts 0 F1) in Hm. set (E2 := expect_exts (ngrease F1) F2) in Hm.
    assert (HE1 : forallb fixedb E1 = true) by (apply expect_fixed; exact HF1).
    assert (HE2 : forallb fixedb E2 = true) by (apply expect_fixed; exact HF2).
    (* the entries seen, in wire order: the block as it was sent, without those that must be absent *)
    assert (Hseen : flat_map (fun w => filter (fun x => sext_id x =? fst w) NF) ws = filter (fun s => negb (mustnot c s)) NF').
    { rewrite (seen_of_match c NF Hnd Hids (E1 ++ NF' ++ E2) ws); [|intros s Hs Hf|exact Hm].
      - rewrite !filter_app, (filter_none _ E1), (filter_none _ E2), app_nil_r; [apply filter_ext_in| |]; intros x Hx; unfold nonfixed.
        + fold (nonfixed x). rewrite (forallb_In _ _ x block_perm_nonfixed Hx). reflexivity.
        + rewrite (forallb_In _ _ x HE2 Hx). reflexivity.
        + rewrite (forallb_In _ _ x HE1 Hx). reflexivity.
      - apply in_app_or in Hs. destruct Hs as [Hs|Hs]; [rewrite (forallb_In _ _ s HE1 Hs) in Hf; discriminate|].
        apply in_app_or in Hs. destruct Hs as [Hs|Hs]; [exact (Permutation_in _ (Permutation_sym P) Hs)|].
        rewrite (forallb_In _ _ s HE2 Hs) in Hf. discriminate. }
    (* hence an entry of the block is absent from the wire exactly when it must be *)
    assert (Hmiss : filter (fun s => negb (mem_N (sext_id s) (map fst ws))) NF = filter (mustnot c) NF).
    { apply filter_ext_in. intros s Hs.
      assert (Hin : In (sext_id s) (map fst ws) <-> mustnot c s = false).
      { transitivity (In s (filter (fun s => negb (mustnot c s)) NF')).
        - rewrite <- Hseen, In_picked. tauto.
        - rewrite filter_In, negb_true_iff. pose proof (Permutation_in _ P Hs). tauto. }
      destruct (mustnot c s); [apply negb_true_iff, not_true_iff_false; rewrite mem_N_In, Hin; discriminate|].
      apply negb_false_iff, mem_N_In, Hin. reflexivity. }
    unfold arrange. change (fun s : sext => negb (fixedb s)) with nonfixed.
    rewrite (nonfixed_block F1 NF F2 HF1 HNF HF2), Hseen, Hmiss. fold pool.
    apply refill_contig; try assumption.
    unfold pool. rewrite app_length, <- (Permutation_length (filter_perm _ _ _ P)). apply partition_len.
  Qed.
End Blocks.

Lemma nodup_N_NoDup l : nodup_N l = true <-> NoDup l.
Proof.
  induction l as [|x l IH]; [split; [constructor|reflexivity]|]. cbn [nodup_N]. rewrite andb_true_iff, IH, negb_true_iff. split.
  - intros [H1 H2]. constructor; [|exact H2]. intros Hin. apply mem_N_In in Hin. congruence.
  - intros H. inversion H as [|? ? Hn Hd]; subst. split; [|exact Hd]. rewrite <- not_true_iff_false. intros Hm. apply Hn. apply mem_N_In. exact Hm.
Qed.

Theorem shuffle_match_sound c l l' ws :
  contigb l = true ->
  nodup_N (map sext_id (filter nonfixed l)) = true ->
  (forall s, In s (filter nonfixed l) -> fixed_id (sext_id s) = false) ->
  Permutation l l' -> kept l l' ->
  nodup_N (filter (fun i => negb (Grease.is_grease i)) (map fst ws)) = true ->
  seq_match c (expect_exts 0 l') ws = true -> shuffle_match c l ws = true.
Proof.
  intros Hcon Hndb Hids P K Hwn Hm.
  destruct (kept_blocks l l' Hcon P K) as (F1 & NF & NF' & F2 & -> & -> & PN & HF1 & HNF & HF2).
  unfold shuffle_match. change (fun s : sext => negb (fixedb s)) with nonfixed.
  rewrite (nonfixed_block F1 NF F2 HF1 HNF HF2) in *. rewrite Hndb, Hwn. cbn [andb].
  apply nodup_N_NoDup in Hndb.
  rewrite (arrange_block c F1 NF NF' F2 Hndb Hids PN HF1 HNF HF2 ws Hm).
  (* both lists are compared with the wire after the entries that must be absent are dropped: the same list *)
  rewrite <- Hm, (expect_block F1 _ F2 (pool_nonfixed c NF NF' PN HNF)), (expect_block F1 NF' F2 (block_perm_nonfixed NF NF' PN HNF)).
  rewrite (seq_match_drop c (_ ++ pool c NF NF' ++ _)), (seq_match_drop c (_ ++ NF' ++ _)), !filter_app, pool_present. reflexivity.
Qed.
