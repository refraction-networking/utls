(* C36 — the LRU client session cache behaves as a bounded LRU map.
   Sequential core: every history of Put/Put-nil/Get on NewLRUClientSessionCache(n)
   returns exactly what the abstract bounded LRU map (Model/Lru.v: s_put/s_get)
   returns, and the cache never holds more than its capacity. Concurrent calls
   each hold the mutex for their whole body, so a concurrent history is one of
   these sequential histories (the lock discipline itself is observed by the
   linearizability runs, not proved). *)
From UV Require Import Base.Common Model.Lru Proofs.LruP.

Theorem C36_refines : forall (n : Z) (ops : list op),
  run (new_lru n) ops = map obs_of_spec (s_run (cap (new_lru n)) [] ops).
Proof. intros n ops. apply (history ops (new_lru n) (new_inv n)). Qed.
Print Assumptions C36_refines.

(* never more than n entries, keys unique, no nil state stored — in every reachable state *)
Theorem C36_bounded : forall (n : Z) (ops : list op),
  let c := final (new_lru n) ops in
  (length (q c) <= cap c)%nat /\ NoDup (map fst (q c)) /\ (forall e, In e (q c) -> snd e <> None).
Proof.
  intros n ops c. destruct (history ops (new_lru n) (new_inv n)) as (_ & [A D] & B & _). auto.
Qed.
Print Assumptions C36_bounded.

Theorem C36_capacity : forall n : Z,
  cap (new_lru n) = if (n <? 1)%Z then 64%nat else Z.to_nat n.
Proof. reflexivity. Qed.

(* The abstract map really is a bounded map: size never exceeds n (sanity of the spec itself). *)
Theorem C36_spec_bounded : forall n s k v, (length s <= n)%nat -> (length (s_put n s k v) <= n)%nat.
Proof.
  intros n s k v H. unfold s_put. destruct v as [x|]; [apply firstn_le_length|].
  eapply Nat.le_trans; [apply filter_len_le|exact H].
Qed.

(* F-36, Put(a,s); Put(b,nil); Get(a) at capacity 1: a Put of a nil state on an absent key leaves the cache alone *)
Example C36_ex_former_witness :
  run (new_lru 1) [Put 1 (Some 7); Put 2 None; Get 1; Get 2] = [Some (Some 7); None].
Proof. vm_compute. reflexivity. Qed.
Example C36_ex_evict :
  run (new_lru 2) [Put 1 (Some 7); Put 2 (Some 8); Get 1; Put 3 (Some 9); Get 2; Get 1; Get 3]
  = [Some (Some 7); None; Some (Some 7); Some (Some 9)].
Proof. vm_compute. reflexivity. Qed.
