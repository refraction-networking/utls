(* Proofs about Model/FromRaw.v: the raw importer never panics, the extensions it produces can be
   marshalled (Model/Marshal.v) without a panic, and on the wire image of a hello (Model/Shape.v) it
   returns the normalised description. SetTLSVers (Model/SetVers.v) never panics either. *)
From UV Require Import Base.Common Model.Padding Model.Marshal.
From UV Require Import Model.Wire Model.Varint Model.Ext Model.ExtSpec Model.FromRaw Model.Shape Model.SetVers
  Proofs.WireP Proofs.ExtP.

Definition np {A} (r : res A) : Prop := is_panic r = false.

Lemma np_ok {A} (a : A) : np (Ok a). Proof. reflexivity. Qed.
Lemma np_err {A} c : np (@Err A c). Proof. reflexivity. Qed.
Lemma np_bind {A B} (r : res A) (f : A -> res B) :
  np r -> (forall a, r = Ok a -> np (f a)) -> np (bind r f).
Proof. destruct r as [a|c|c]; cbn; intros Hr Hf; auto; discriminate. Qed.
Lemma np_of_opt {A} c (o : option A) : np (of_opt c o).
Proof. destruct o; reflexivity. Qed.
Lemma np_neq {A} (r : res A) : np r <-> forall p, r <> Panic p.
Proof.
  unfold np. destruct r as [a|c|c]; cbn; split; try easy.
  intros H. elim (H c). reflexivity.
Qed.

(* The no-panic lemma of each function goes into the hint database [np]; a goal np t with t built from
   if / match / bind over such functions is then split by np_step down to calls the database closes. *)
Create HintDb np discriminated.
#[export] Hint Resolve np_of_opt : np.
Ltac np_step :=
  match goal with
  | |- np (Ok _) => reflexivity
  | |- np (Err _) => reflexivity
  | |- np (bind _ _) => apply np_bind; [ | intros ? ? ]
  | |- np (if ?c then _ else _) => destruct c eqn:?
  | |- np (match ?x with _ => _ end) => destruct x eqn:?
  | |- np (let '(_, _) := ?x in _) => destruct x eqn:?
  end.
Ltac np_auto := repeat first [np_step | solve [auto with np]].

(* the constructor of an extension value = its Go type *)
Definition ext_kind (e : ext) : N :=
  match e with
  | ESNI _ => 0 | EStatusRequest => 1 | EStatusRequestV2 => 2 | ESupportedCurves _ => 3
  | ESupportedPoints _ => 4 | ESignatureAlgorithms _ => 5 | ESignatureAlgorithmsCert _ => 6
  | EALPN _ => 7 | EApplicationSettings _ => 8 | EApplicationSettingsNew _ => 9 | ESCT => 10
  | EGeneric _ _ => 11 | EExtendedMasterSecret => 12 | EGREASE _ _ => 13 | EPadding _ _ _ => 14
  | ECompressCert _ => 15 | EKeyShare _ => 16 | EQUICTransportParameters _ => 17
  | EPSKKeyExchangeModes _ => 18 | ESupportedVersions _ => 19 | ECookie _ => 20 | ENPN _ => 21
  | ERenegotiationInfo _ _ => 22 | EFakeChannelID _ => 23 | EFakeRecordSizeLimit _ => 24
  | EFakeTokenBinding _ _ _ => 25 | EFakeDelegatedCredentials _ => 26 | ESessionTicket _ => 27
  | EUtlsPreSharedKey _ _ _ _ _ => 28 | EFakePreSharedKey _ _ _ => 29 | EGREASEECH _ _ _ _ _ => 30
  end.

(* "applying" a spec (ApplyPreset, u_parrots.go) fills per-connection fields of the
   extension objects in place (server name, GREASE values, key-share keys, session
   ticket / PSK material, padding state) and never replaces an object by one of another
   type: any kind-preserving update of the list. *)
Definition applied (es es' : list ext) : Prop :=
  Forall2 (fun a b => ext_kind a = ext_kind b) es es'.

Definition no_quic (e : ext) : bool := negb (ext_kind e =? 17).

(* the TLSExtension handed to MarshalClientHello, in the vocabulary of Model/Marshal.v;
   [padto]: the argument of AlwaysPadToLen when the functor is neither nil nor Boring *)
Definition aext_of (padto : Z) (e : ext) : aext :=
  match e with
  | EPadding l w pol =>
      APad (match pol with PadNone => PolNone | PadBoring => PolBoring | PadOther => PolAlways padto end)
           {| p_len := l; p_will := w |}
  | _ => AExt (is_psk e) (ext_len e) (fun b => ext_read e (len b))
  end.

(* r does not panic and, if it returns a value, the value satisfies P. The importer is walked
   once with this predicate: "no panic" (np) and "no QUIC transport-parameter extension among
   the results" (what makes the result marshallable) come out of the same case analysis. *)
Definition sat {A} (P : A -> Prop) (r : res A) : Prop :=
  match r with Ok a => P a | Err _ => True | Panic _ => False end.

Lemma sat_np {A} (P : A -> Prop) r : sat P r -> np r.
Proof. destruct r; cbn; [reflexivity | reflexivity | contradiction]. Qed.
Lemma np_sat {A} (r : res A) : np r -> sat (fun _ => True) r.
Proof. destruct r; cbn; [trivial | trivial | discriminate]. Qed.
Lemma sat_bind {A B} (P : A -> Prop) (Q : B -> Prop) r f :
  sat P r -> (forall a, P a -> sat Q (f a)) -> sat Q (bind r f).
Proof. destruct r; cbn; auto. Qed.

Ltac sat_step :=
  match goal with
  | |- sat _ (Ok _) => cbn [sat]
  | |- sat _ (Err _) => exact I
  | |- sat _ (if ?c then _ else _) => destruct c eqn:?
  | |- sat _ (match ?x with _ => _ end) => destruct x eqn:?
  | |- sat _ (let '(_, _) := ?x in _) => destruct x eqn:?
  end.

Definition tls_ext (e : ext) : Prop := no_quic e = true.

Lemma sni_names_np fuel : forall s acc, np (sni_names fuel s acc).
Proof.
  induction fuel as [|k IH]; intros s acc; destruct s as [|x s]; cbn [sni_names]; try reflexivity.
  np_auto.
Qed.

Lemma u16_list_write_sat code mk norm b : (forall l, tls_ext (mk l)) -> sat tls_ext (u16_list_write code mk norm b).
Proof. intros Hk. unfold u16_list_write. repeat sat_step. apply Hk. Qed.
Lemma protos_write_sat mk b : (forall l, tls_ext (mk l)) -> sat tls_ext (protos_write mk b).
Proof. intros Hk. unfold protos_write. repeat sat_step. apply Hk. Qed.
Lemma fake_psk_write_sat b : sat tls_ext (fake_psk_write b).
Proof. unfold fake_psk_write. repeat sat_step. reflexivity. Qed.
Lemma ech_write_sat b : sat tls_ext (ech_write b).
Proof. unfold ech_write. repeat sat_step. reflexivity. Qed.

Lemma ext_write_sat id b : sat tls_ext (ext_write id b).
Proof.
  unfold ext_write.
  repeat match goal with
  | |- sat _ (u16_list_write _ _ _ _) => apply u16_list_write_sat; intros; reflexivity
  | |- sat _ (protos_write _ _) => apply protos_write_sat; intros; reflexivity
  | |- sat _ (fake_psk_write _) => apply fake_psk_write_sat
  | |- sat _ (ech_write _) => apply ech_write_sat
  | |- sat _ (bind (sni_names _ _ _) _) =>
      apply (sat_bind (fun _ => True)); [apply np_sat, sni_names_np | intros _ _]
  | _ => sat_step
  end; reflexivity.
Qed.

Lemma ext_write_realpsk_sat id b : sat tls_ext (ext_write_realpsk id b).
Proof. unfold ext_write_realpsk. destruct (id =? ID_PSK); [reflexivity | apply ext_write_sat]. Qed.

Lemma read_one_ext_sat blunt real id data : sat tls_ext (read_one_ext blunt real id data).
Proof.
  unfold read_one_ext.
  pose proof (ext_write_sat id data) as H1. pose proof (ext_write_realpsk_sat id data) as H2.
  destruct real; [destruct (ext_write_realpsk id data) | destruct (ext_write id data)];
    try assumption; repeat sat_step; reflexivity.
Qed.

Lemma read_tls_extensions_sat fuel blunt real : forall s,
  sat (fun r => forallb no_quic (fst r) = true) (read_tls_extensions fuel blunt real s).
Proof.
  induction fuel as [|k IH]; intros s; destruct s as [|x s]; cbn [read_tls_extensions]; try reflexivity.
  repeat sat_step.
  apply (sat_bind tls_ext); [apply read_one_ext_sat | intros e He].
  eapply sat_bind; [apply IH | intros rest Hr]. cbn. rewrite He, Hr. reflexivity.
Qed.

Lemma read_cipher_suites_np b : np (read_cipher_suites b).
Proof. unfold read_cipher_suites. np_auto. Qed.

(* AlwaysAddPadding: the index it slices at is in range *)
Lemma aap_scan_bound es : forall i j k, aap_scan es i = Some (j, k) -> i <= j < i + N.of_nat (length es).
Proof.
  induction es as [|e r IH]; intros i j k H; cbn [aap_scan] in H; [discriminate|].
  cbn [length]. destruct (is_padding e); [inversion H; subst; lia|].
  destruct (is_psk e); [inversion H; subst; lia|].
  apply IH in H. lia.
Qed.

Lemma always_add_padding_sat es :
  sat (fun es' => forallb no_quic es = true -> forallb no_quic es' = true) (always_add_padding es).
Proof.
  unfold always_add_padding. destruct (aap_scan es 0) as [[idx [|]]|] eqn:Hs; cbn [sat]; auto.
  - apply aap_scan_bound in Hs. unfold go_slice_from, go_slice_to.
    replace (idx <=? N.of_nat (length es)) with true by lia. cbn. intros Hq.
    rewrite forallb_app. cbn [forallb]. rewrite <- (firstn_skipn (N.to_nat idx) es), forallb_app in Hq.
    apply andb_prop in Hq as [H1 H2]. rewrite H1, H2. reflexivity.
  - intros Hq. rewrite forallb_app, Hq. reflexivity.
Qed.

Lemma install_pad_to_no_quic es : forallb no_quic es = true -> forallb no_quic (fst (install_pad_to es)) = true.
Proof.
  induction es as [|e r IH]; [reflexivity|]. cbn [forallb]. intros H. apply andb_prop in H as [He Hr].
  destruct e; cbn [install_pad_to]; try (destruct (install_pad_to r) eqn:Hi; cbn [fst forallb] in *;
    rewrite He; cbn; apply IH; exact Hr).
  cbn [fst forallb]. rewrite Hr. reflexivity.
Qed.

Lemma from_raw_sat blunt real raw : sat (fun s => forallb no_quic (sp_exts s) = true) (from_raw blunt real raw).
Proof.
  unfold from_raw.
  repeat match goal with
  | |- sat _ (bind (read_cipher_suites _) _) =>
      apply (sat_bind (fun _ => True)); [apply np_sat, read_cipher_suites_np | intros ? _]
  | |- sat _ (bind (read_tls_extensions _ _ _ _) _) =>
      eapply sat_bind; [apply read_tls_extensions_sat | intros ? Hr]
  | _ => sat_step
  end; cbn [sp_exts]; [reflexivity|].
  match goal with
  | Hi : install_pad_to ?es = (?es', _) |- _ =>
      apply install_pad_to_no_quic in Hr; cbn [fst] in Hr; rewrite Hi in Hr; exact Hr
  end.
Qed.

Lemma fingerprint_sat f raw : sat (fun s => forallb no_quic (sp_exts s) = true) (fingerprint f raw).
Proof.
  unfold fingerprint. eapply sat_bind; [apply from_raw_sat | intros s Hs].
  destruct (f_always_pad f); [|exact Hs].
  eapply sat_bind; [apply always_add_padding_sat | intros es He]. exact (He Hs).
Qed.

Lemma ext_write_np id b : np (ext_write id b).
Proof. exact (sat_np _ _ (ext_write_sat id b)). Qed.
Lemma always_add_padding_np es : np (always_add_padding es).
Proof. exact (sat_np _ _ (always_add_padding_sat es)). Qed.

Lemma ext_read_le e n b : ext_read e n = Ok b -> blen b <= n.
Proof.
  intros H. destruct (state_ok e) eqn:Hs.
  - pose proof (len_read e n b Hs H) as Hl.
    destruct (N.ltb_spec n (ext_len e)) as [Hlt|Hge]; [|lia].
    rewrite (read_short e n Hs Hlt) in H. discriminate.
  - destruct e; try discriminate Hs; cbn [ext_read] in H.
    (* fake PSK with a binder of a non-hash size: Read refuses *)
    cbn [state_ok] in Hs. rewrite Hs in H. cbn [negb] in H.
    destruct (negb omit && (psk_ext_len ids binders =? 0)); discriminate.
Qed.

Definition read_bounded (e : aext) : Prop :=
  forall buf, np (a_read e buf) /\ forall b, a_read e buf = Ok b -> len b <= len buf.

Lemma len_app' {A} (a b : list A) : len (a ++ b) = len a + len b.
Proof. unfold len. rewrite app_length. lia. Qed.
Lemma len_take_le {A} n (l : list A) : len (take n l) <= n.
Proof. unfold len, take. pose proof (firstn_le_length (N.to_nat n) l). lia. Qed.

Lemma pad_bounded pol st : read_bounded (APad pol st).
Proof.
  intros buf. cbn [a_read]. unfold pad_read. split.
  - unfold np. destruct (negb (p_will st)); [reflexivity|]. destruct (len buf <? pad_len st); reflexivity.
  - intros b H. destruct (negb (p_will st)) eqn:Hw; [inversion H; cbn; lia|].
    destruct (N.ltb_spec (len buf) (pad_len st)) as [Hlt|Hge]; [discriminate|].
    inversion H; subst. unfold pad_len in Hge. destruct (p_will st); [|discriminate].
    pose proof (len_take_le (p_len st) (drop 4 buf)) as Ht.
    unfold len in *. cbn [length]. lia.
Qed.

Lemma aext_of_bounded padto e : no_quic e = true -> read_bounded (aext_of padto e).
Proof.
  intros Hq. destruct e; try apply pad_bounded; try discriminate Hq;
  (intros buf; cbn [aext_of a_read]; split;
   [ apply (read_no_panic _ (len buf)); intros tps; discriminate
   | intros b H; exact (ext_read_le _ _ _ H) ]).
Qed.

Lemma len_zeros' (n : N) : len (Padding.zeros n) = n.
Proof. unfold len, Padding.zeros. rewrite repeat_length. lia. Qed.

Lemma bounded_read_np {A} e buf cap (f : bytes -> A) : read_bounded e -> len buf <= cap ->
  np (do b <- a_read e buf; if cap <? len b then Panic P_SLICE else Ok (f b)).
Proof.
  intros Hb Hc. destruct (Hb buf) as [Hnp Hle]. apply np_bind; [exact Hnp|]. intros b Hr. specialize (Hle b Hr).
  destruct (N.ltb_spec cap (len b)); [lia | reflexivity].
Qed.

Lemma bw_read_from_np bbs e w : read_bounded e -> np (bw_read_from bbs e w).
Proof.
  intros Hb. unfold bw_read_from. destruct (w_n _ =? 0); apply bounded_read_np; try exact Hb; [rewrite len_zeros'|]; lia.
Qed.

Lemma bw_read_all_np bbs es : Forall read_bounded es -> forall w, np (bw_read_all bbs es w).
Proof.
  induction 1 as [|e es He Hes IH]; intros w; cbn [bw_read_all]; [reflexivity|].
  apply np_bind; [apply bw_read_from_np; exact He | intros w' _; apply IH].
Qed.

Lemma find_padding_np es : forall found, np (find_padding es found).
Proof.
  induction es as [|e es IH]; intros found; cbn [find_padding]; [reflexivity|].
  destruct e; [apply IH|]. destruct found; [reflexivity | apply IH].
Qed.

Lemma update_padding_bounded u es : Forall read_bounded es -> Forall read_bounded (update_padding u es).
Proof.
  induction 1 as [|e es He Hes IH]; cbn [update_padding map]; constructor; [|exact IH].
  destruct e; [exact He | apply pad_bounded].
Qed.

Lemma marshal_np bbs h es : Forall read_bounded es -> np (marshal_client_hello bbs h es).
Proof.
  intros Hb. unfold marshal_client_hello, marshal_prepare.
  pose proof (find_padding_np es None) as Hf.
  destruct (find_padding es None) as [pe|c|c]; cbn [bind]; [|reflexivity|discriminate Hf].
  cbn [pr_exts pr_hello_len pr_extensions_len].
  apply np_bind.
  - destruct es as [|e0 es0]; [reflexivity|].
    apply bw_read_all_np. destruct pe; [apply update_padding_bounded|]; exact Hb.
  - intros w _. np_auto.
Qed.

Lemma applied_no_quic es es' : applied es es' -> forallb no_quic es = true -> Forall (fun e => no_quic e = true) es'.
Proof.
  induction 1 as [|a b es es' Hk _ IH]; intros H; [constructor|].
  cbn [forallb] in H. apply andb_prop in H as [Ha Hr]. constructor; [|apply IH; exact Hr].
  unfold no_quic in *. rewrite <- Hk. exact Ha.
Qed.

(* Whatever the importer accepts can be applied and marshalled without a panic. *)
Lemma usable f raw s es' bbs h padto :
  fingerprint f raw = Ok s -> applied (sp_exts s) es' ->
  np (marshal_client_hello bbs h (map (aext_of padto) es')).
Proof.
  intros Hf Ha. apply marshal_np.
  pose proof (fingerprint_sat f raw) as Hs. rewrite Hf in Hs. pose proof (applied_no_quic _ _ Ha Hs) as Hq.
  rewrite Forall_map. eapply Forall_impl; [|exact Hq].
  intros e He. apply aext_of_bounded. exact He.
Qed.

Lemma skip_app (a r : bytes) : skip (blen a) (a ++ r) = Some r.
Proof. unfold skip. rewrite read_bytes_app. reflexivity. Qed.

Lemma read_cipher_suites_flat l : all_u16b l = true ->
  read_cipher_suites (flat_map enc_u16 l) = Ok (map ungrease l).
Proof. intros H. unfold read_cipher_suites. rewrite (read_u16s_flat l H). reflexivity. Qed.

Lemma ext_wire_present e : rt_ok e = true -> ext_wire e = enc_u16 (ext_id e) ++ enc_u16lp (ext_body e).
Proof. intros H. destruct (rt_parts e H) as [_ Ha]. unfold ext_wire. rewrite Ha. reflexivity. Qed.

Lemma rt_body_lt e : rt_ok e = true -> blen (ext_body e) < 65536 /\ ext_id e < 65536.
Proof.
  intros H. destruct (rt_parts e H) as [Hwf Ha]. destruct (wf_parts e Hwf) as (_ & Hf & Hl).
  pose proof (read_layout e Hwf) as HL. rewrite Ha in HL. destruct HL as [_ HB].
  split; [lia | apply ext_id_u16; exact Hf].
Qed.

Lemma read_one_ext_rt blunt real e : rt_ok e = true ->
  read_one_ext blunt real (ext_id e) (ext_body e) = Ok (fp_norm real e).
Proof.
  intros H. unfold read_one_ext, fp_norm, ext_write_realpsk.
  destruct real; cbn [andb].
  - destruct (ext_id e =? ID_PSK); [reflexivity|]. rewrite (write_read e H). reflexivity.
  - rewrite (write_read e H). reflexivity.
Qed.

Lemma length_exts_block es : forallb rt_ok es = true -> (length es <= length (exts_block es))%nat.
Proof.
  induction es as [|e r IH]; cbn [forallb exts_block flat_map length]; intros H; [lia|].
  apply andb_prop in H as [He Hr]. specialize (IH Hr).
  rewrite app_length, (ext_wire_present e He). unfold exts_block in IH. cbn [enc_u16 app length]. lia.
Qed.

Lemma read_tls_extensions_block blunt real : forall es fuel,
  forallb rt_ok es = true -> (length es <= fuel)%nat ->
  read_tls_extensions fuel blunt real (exts_block es) = Ok (map (fp_norm real) es, has_versions es).
Proof.
  induction es as [|e r IH]; intros fuel H Hf.
  - destruct fuel; reflexivity.
  - cbn [forallb] in H. apply andb_prop in H as [He Hr].
    destruct fuel as [|k]; [cbn in Hf; lia|].
    destruct (rt_body_lt e He) as [Hb Hi].
    cbn [exts_block flat_map]. rewrite (ext_wire_present e He).
    change (flat_map ext_wire r) with (exts_block r).
    rewrite <- app_assoc.
    assert (Hnz : exists x t, enc_u16 (ext_id e) ++ enc_u16lp (ext_body e) ++ exts_block r = x :: t)
      by (eexists; eexists; reflexivity).
    destruct Hnz as (x & t & Hxt).
    cbn [read_tls_extensions]. rewrite Hxt. rewrite <- Hxt.
    rewrite (read_enc_u16 (ext_id e) _ Hi).
    rewrite (read_enc_u16lp (ext_body e) (exts_block r) Hb).
    rewrite (read_one_ext_rt blunt real e He). cbn [bind].
    rewrite (IH k Hr ltac:(cbn in Hf; lia)). cbn [bind fst snd map has_versions existsb]. reflexivity.
Qed.

Lemma from_raw_record blunt real h : hello_ok h = true ->
  from_raw blunt real (hello_record h) = Ok (fp_spec real h).
Proof.
  unfold hello_ok. rewrite !andb_true_iff.
  intros [[[[[[[Hv Hr] Hsid] Hsu] Hsl] Hc] He] Hb].
  unfold from_raw, fp_spec.
  set (L := blen (hello_record h)).
  unfold hello_record.
  cbn [app read_u8 obind read_u16]. rewrite (skip_app (enc_u16 _)). cbn [obind].
  replace (3 * 256 + 1 =? recordTypeHandshake) with false by reflexivity.
  replace (22 =? recordTypeHandshake) with true by reflexivity. cbn [negb].
  cbn [app read_u8 obind]. rewrite (skip_app (enc_u24 _)). cbn [obind].
  unfold hello_body. rewrite (read_enc_u16 (h_vers h) _ ltac:(lia)). cbn [obind].
  replace 32 with (blen (h_random h)) by lia. rewrite skip_app. cbn [obind].
  replace (1 =? typeClientHello) with true by reflexivity. cbn [negb].
  rewrite (read_enc_u8lp (h_sid h) _ ltac:(lia)).
  rewrite (read_enc_u16lp (flat_map enc_u16 (h_suites h)) _ ltac:(rewrite blen_flat_u16; lia)).
  rewrite (read_cipher_suites_flat _ Hsu). cbn [bind].
  rewrite (read_enc_u8lp (h_comp h) _ ltac:(lia)).
  destruct (h_exts h) as [|e0 es0] eqn:Hes.
  - cbn [empty map install_pad_to has_versions existsb]. reflexivity.
  - rewrite <- Hes in *.
    assert (Hne : empty (enc_u16lp (exts_block (h_exts h))) = false) by reflexivity.
    rewrite Hne. rewrite (read_enc_u16lp_nil (exts_block (h_exts h)) ltac:(lia)).
    rewrite (read_tls_extensions_block blunt real (h_exts h) _ He (length_exts_block _ He)). cbn [bind].
    destruct (install_pad_to (map (fp_norm real) (h_exts h))) as [es' padded]. reflexivity.
Qed.

Lemma install_pad_to_mask es :
  map ech_mask (fst (install_pad_to es)) = fst (install_pad_to (map ech_mask es))
  /\ snd (install_pad_to es) = snd (install_pad_to (map ech_mask es)).
Proof.
  induction es as [|e r [IH1 IH2]]; [split; reflexivity|].
  destruct e; cbn [install_pad_to map ech_mask];
    try (destruct (install_pad_to r) as [r1 f1]; destruct (install_pad_to (map ech_mask r)) as [r2 f2];
         cbn [fst snd map ech_mask] in *; split; [f_equal; exact IH1 | exact IH2]).
  split; reflexivity.
Qed.

Lemma blen_exts_block_eq es1 es2 :
  Forall2 (fun a b => blen (ext_wire a) = blen (ext_wire b)) es1 es2 -> blen (exts_block es1) = blen (exts_block es2).
Proof.
  induction 1 as [|a b r1 r2 Hab _ IH]; [reflexivity|].
  cbn [exts_block flat_map]. rewrite !blen_app. unfold exts_block in IH. lia.
Qed.

Lemma go_make_np_nonneg n : (0 <= n)%Z -> np (go_make n).
Proof. intros H. unfold go_make. destruct (Z.ltb_spec n 0); [lia | reflexivity]. Qed.

Lemma make_supported_versions_np mn mx : np (make_supported_versions mn mx).
Proof.
  unfold make_supported_versions. apply np_bind; [|intros; reflexivity].
  apply go_make_np_nonneg. lia.
Qed.

Lemma msv_fill_length len : forall i mx, length (msv_fill len i mx) = len.
Proof. induction len as [|k IH]; intros i mx; cbn [msv_fill length]; [reflexivity | rewrite IH; reflexivity]. Qed.

(* the list has the length Go computes in uint16: max - min + 1 wrapped *)
Lemma make_supported_versions_len mn mx l : make_supported_versions mn mx = Ok l ->
  N.of_nat (length l) = (mx + 65536 - mn + 1) mod 65536.
Proof.
  unfold make_supported_versions, go_make.
  destruct (Z.ltb_spec (Z.of_N ((mx + 65536 - mn + 1) mod 65536)) 0); [lia|]. cbn [bind]. intros [= <-].
  rewrite msv_fill_length. lia.
Qed.

Lemma scan_sv_np es : forall c mm, np (scan_sv es c mm).
Proof.
  induction es as [|e r IH]; intros c mm; cbn [scan_sv]; [reflexivity|].
  destruct e; try apply IH.
  destruct ((fst (find_versions versions 0 0) =? 0) && (snd (find_versions versions 0 0) =? 0)); [reflexivity | apply IH].
Qed.

Lemma set_tls_vers_np mn mx es : np (set_tls_vers mn mx es).
Proof. pose proof scan_sv_np. pose proof make_supported_versions_np. unfold set_tls_vers. np_auto. Qed.
