(* The any-length theorems of C20: induction over the history on top of the finite invariant of Proofs/SessionP.v. *)
From UV Require Import Base.Common Model.Session Proofs.SessionP.

Definition ctl (s : st) : cstate * gstate := (st_c s, st_g s).
Definition no_panic (rs : list (res unit)) : Prop := Forall (fun r => is_panic r = false) rs.
Definition ik (i : inj) : injk := match i with InjTicket _ _ => ITicket | InjPsk _ _ => IPsk end.

Lemma step_ctl w o s :
  ctl (fst (step w o s)) = fst (cstep (cworld_of w) (kind o) (st_c s) (st_g s)) /\
  snd (step w o s) = snd (cstep (cworld_of w) (kind o) (st_c s) (st_g s)).
Proof.
  unfold step, cstep.
  destruct (run_split w o (stepk (cworld_of w) (kind o)) (st_c s) (st_g s) (st_d s)) as [A B].
  split; [|exact B]. rewrite <- A. unfold ctl, st_c, st_g.
  destruct (runF w o (stepk (cworld_of w) (kind o)) (fst (fst s)) (snd (fst s)) (st_d s)) as [[[c g] d] r]; reflexivity.
Qed.

Lemma Dinv_step i w o s : (injecting (kind o) = true -> arg_datum o = inj_d i) ->
  Dinv i (st_g s) (st_d s) -> Dinv i (st_g (fst (step w o s))) (st_d (fst (step w o s))).
Proof. intros HA D. unfold step. apply Dinv_run; assumption. Qed.

(* from here on a step is used through step_ctl and Dinv_step only: no cbn or inversion on a history may run the
   interpreter *)
Opaque step cstep stepk.

Lemma inj_of_some o i : inj_of o = Some i ->
  arg_datum o = inj_d i /\ injecting (kind o) = true /\ inj_kind (kind o) = ik i.
Proof.
  destruct o as [| |[[[[] d] se]|]|[[[[] d] se]|]|[[d se]|]| | |[d se]|[d se]|]; cbn; intros E; try discriminate E;
    injection E as <-; auto.
Qed.
Lemma inj_of_none o : inj_of o = None -> injecting (kind o) = false /\ inj_kind (kind o) = INone.
Proof.
  destruct o as [| |[[[[] d] se]|]|[[[[] d] se]|]|[[d se]|]| | |[d se]|[d se]|]; cbn; intros E; try discriminate E; auto.
Qed.

Lemma legal_stepk_facts cw l k l1 : legal_stepk cw l k = Some l1 ->
  l_inj l1 = (match l_inj l with INone => inj_kind k | x => x end) /\
  (injecting k = true -> l_set l = false /\ l_set l1 = true) /\
  (l_set l = true -> l_set l1 = true).
Proof.
  destruct l as [a b c d e]. destruct cw. destruct k as [| |[]|[]| | | | | |];
    destruct a, b, c, d, cw_disabled; cbn;
    intros E; try discriminate E; injection E as <-; cbn; repeat split; intros; try discriminate; auto;
    destruct e; auto.
Qed.

Lemma linj_keep w ops : forall l lf, legal_from w l ops = Some lf -> l_inj l <> INone -> l_inj lf = l_inj l.
Proof.
  induction ops as [|o r IH]; intros l lf L N; cbn [legal_from] in L.
  - injection L as <-. reflexivity.
  - destruct (legal_step w l o) as [l1|] eqn:E; [|discriminate].
    destruct (legal_stepk_facts _ _ _ _ E) as [A _].
    assert (l_inj l1 = l_inj l) as Q by (rewrite A; destruct (l_inj l); congruence).
    rewrite <- Q. apply IH; [exact L | congruence].
Qed.

Lemma linj_first w ops : forall l lf, legal_from w l ops = Some lf -> l_inj l = INone ->
  l_inj lf = match injected ops with Some i => ik i | None => INone end.
Proof.
  induction ops as [|o r IH]; intros l lf L N; cbn [legal_from injected] in L |- *.
  - injection L as <-. exact N.
  - destruct (legal_step w l o) as [l1|] eqn:E; [|discriminate].
    destruct (legal_stepk_facts _ _ _ _ E) as [A _]. rewrite N in A.
    destruct (inj_of o) as [i|] eqn:J.
    + destruct (inj_of_some o i J) as [_ [_ K]]. rewrite K in A.
      rewrite (linj_keep w r l1 lf L) by (rewrite A; destruct i; discriminate). exact A.
    + destruct (inj_of_none o J) as [_ K]. rewrite K in A. exact (IH l1 lf L A).
Qed.

Lemma run_ctl w : forall ops l s lf, inR (cworld_of w) (l, ctl s) -> legal_from w l ops = Some lf ->
  no_panic (run w s ops) /\ inR (cworld_of w) (lf, ctl (final w s ops)).
Proof.
  induction ops as [|o r IH]; intros l s lf I L; cbn [legal_from run final] in L |- *.
  - injection L as <-. split; [constructor | exact I].
  - destruct (legal_step w l o) as [l1|] eqn:E; [|discriminate].
    destruct (proj2 (inR_call _ _ _ _ (kind o) I) l1 E) as (P & _ & R).
    destruct (step_ctl w o s) as [C S]. rewrite <- C in R. rewrite <- S in P.
    destruct (step w o s) as [s1 x]. destruct (IH l1 s1 lf R L) as [A B].
    split; [constructor; [exact P | exact A] | exact B].
Qed.

(* the data invariant needs no hypothesis on the world: every initialized session a legal history hands over is [i] *)
Lemma run_data w i : forall ops l s lf, Dinv i (st_g s) (st_d s) ->
  (l_set l = false -> forall i', injected ops = Some i' -> i' = i) ->
  legal_from w l ops = Some lf -> Dinv i (st_g (final w s ops)) (st_d (final w s ops)).
Proof.
  induction ops as [|o r IH]; intros l s lf D J L; cbn [legal_from final] in L |- *; [exact D|].
  destruct (legal_step w l o) as [l1|] eqn:E; [|discriminate].
  destruct (legal_stepk_facts _ _ _ _ E) as [_ [F1 F2]].
  apply (IH l1 _ lf); [apply Dinv_step; [|exact D] | | exact L].
  - intros Q. destruct (inj_of o) as [i'|] eqn:K.
    + destruct (inj_of_some o i' K) as [A _]. rewrite A. f_equal.
      apply J; [exact (proj1 (F1 Q)) | cbn [injected]; rewrite K; reflexivity].
    + destruct (inj_of_none o K) as [B _]. congruence.
  - intros Q i' K. destruct (inj_of o) as [i0|] eqn:K0.
    + destruct (inj_of_some o i0 K0) as [_ [B _]]. destruct (F1 B) as [_ T]. congruence.
    + apply J; [destruct (l_set l) eqn:T; [rewrite (F2 eq_refl) in Q; discriminate | reflexivity]
               | cbn [injected]; rewrite K0; exact K].
Qed.

Lemma Dinv_init i : Dinv i ginit dinit.
Proof. unfold Dinv, ginit; cbn. repeat split; intros E; discriminate E. Qed.

Lemma legal_lf w ops : legal w ops = true -> exists lf, legal_from w (linit (w_cache0 w)) ops = Some lf.
Proof. unfold legal. destruct (legal_from w (linit (w_cache0 w)) ops) as [lf|]; [eauto | discriminate]. Qed.

(* every legal history, of any length, in a world that passes the check ([check_ok]: every [world_ok] one) *)
Theorem legal_history w ops lf : check (cworld_of w) = true -> legal_from w (linit (w_cache0 w)) ops = Some lf ->
  no_panic (run w (init w) ops) /\ inR (cworld_of w) (lf, ctl (final w (init w) ops)).
Proof. intros W L. exact (run_ctl w ops (linit (w_cache0 w)) (init w) lf (inR_init _ W) L). Qed.

Theorem legal_data w ops lf i : legal_from w (linit (w_cache0 w)) ops = Some lf -> injected ops = Some i ->
  Dinv i (st_g (final w (init w) ops)) (st_d (final w (init w) ops)).
Proof. intros L J. apply (run_data w i ops (linit (w_cache0 w)) (init w) lf (Dinv_init i)); [congruence | exact L]. Qed.

Lemma andb3 a b c : a && b && c = true -> a = true /\ b = true /\ c = true.
Proof. destruct a, b, c; auto. Qed.

Lemma keys_p_utls cw c : cw_golang cw = false -> keys_p cw c = true ->
  (status c = ByUtls -> applied c = true) /\
  (applied c = true -> cw_tls13 cw = true -> share_some c = true /\ keys_some c = true /\ keys_match c = true).
Proof.
  unfold keys_p. intros -> K. apply andb_prop in K. destruct K as [K1 K2]. split.
  - intros St. rewrite St in K1. exact K1.
  - intros A T. rewrite A, T in K2. exact (andb3 _ _ _ K2).
Qed.

Lemma keys_p_go cw c : cw_golang cw = true -> keys_p cw c = true -> status c = ByGo ->
  share_some c = true /\ keys_some c = true /\ keys_match c = true.
Proof. unfold keys_p. intros -> K St. rewrite St in K. exact (andb3 _ _ _ K). Qed.

Lemma is_inj_eq x : is_inj x = true -> x = GInj.
Proof. destruct x; [reflexivity | discriminate]. Qed.

Lemma wire_p_utls cw l c g : cw_golang cw = false -> status c = ByUtls -> wire_p cw l c g = true ->
  match l_inj l with
  | ITicket => g_hs_sess g = GInj /\ g_hs_ticket g = GInj /\ g_raw_t g = GInj
  | IPsk => g_hs_sess g = GInj /\ g_raw_p g = GInj
  | INone => True
  end.
Proof.
  unfold wire_p. intros -> -> Wp. cbn [orb negb bstatus_eqb] in Wp. destruct (l_inj l); [exact I | |].
  - destruct (andb3 _ _ _ Wp) as (A & B & C). auto using is_inj_eq.
  - apply andb_prop in Wp. destruct Wp. auto using is_inj_eq.
Qed.

Lemma final_node w ops lf : check (cworld_of w) = true -> legal_from w (linit (w_cache0 w)) ops = Some lf ->
  let s := final w (init w) ops in
  keys_p (cworld_of w) (st_c s) = true /\ wire_p (cworld_of w) lf (st_c s) (st_g s) = true /\ herr (st_c s) = false.
Proof.
  intros W L s. destruct (andb3 _ _ _ (inR_node _ _ _ _ (proj2 (legal_history w ops lf W L)))) as (K & Wp & H).
  exact (conj K (conj Wp (proj1 (negb_true_iff _) H))).
Qed.

Lemma final_call w ops lf o : check (cworld_of w) = true -> legal_from w (linit (w_cache0 w)) ops = Some lf ->
  let s := final w (init w) ops in
  (w_golang w = false -> forbidden w lf o = true -> rejected (snd (step w o s)) = true) /\
  forall l2, legal_step w lf o = Some l2 -> binder_p (kind o) (ctl (fst (step w o s))) (snd (step w o s)) = true.
Proof.
  intros W L s. destruct (inR_call _ _ _ _ (kind o) (proj2 (legal_history w ops lf W L))) as (F & K).
  destruct (step_ctl w o s) as [C S]. rewrite C, S. split; [exact F | intros l2 E; apply (K l2 E)].
Qed.

(* an injected, initialized session is what HandshakeState and the marshaled hello carry once the hello is built *)
Theorem injected_on_wire w ops lf i : check (cworld_of w) = true -> w_golang w = false ->
  legal_from w (linit (w_cache0 w)) ops = Some lf -> injected ops = Some i ->
  let s := final w (init w) ops in
  status (st_c s) = ByUtls ->
  hs_sess (st_d s) = snd (inj_d i) /\
  match i with
  | InjTicket tk _ => hs_ticket (st_d s) = tk /\ exists p, raw (st_d s) = Some ([tk], p)
  | InjPsk lb _ => exists t, raw (st_d s) = Some (t, Some lb)
  end.
Proof.
  intros W G L J s St. destruct (final_node w ops lf W L) as (_ & Wp & _).
  apply (wire_p_utls (cworld_of w) _ _ _ G St) in Wp. rewrite (linj_first w ops _ lf L eq_refl), J in Wp.
  destruct (legal_data w ops lf i L J) as (_ & _ & _ & _ & D5 & D6 & _ & D8 & D9).
  destruct i; cbn [ik] in Wp.
  - destruct Wp as (A & B & C). exact (conj (D5 A) (conj (D6 B) (D8 C))).
  - destruct Wp as (A & B). exact (conj (D5 A) (D9 B)).
Qed.
