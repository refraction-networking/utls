(* C03 - predefined parrots send exactly the ClientHello their spec describes.

   STATE: the unchanged code satisfies the property on everything checked; no _refuted theorem.

   C03_generic_partial ("_partial") speaks of the extension values as the reference layouts (ExtSpec.ext_body) encode
   them, which by C03_wire_is_read are the bytes each extension's Read() emits.  The composition with the byte-level
   marshaller (Model/Marshal.v, C05) and the strict parser is C03_build_parses / C03_generic, with premises on
   ApplyPreset's output that C03_parrots_full discharges for the shipped parrots; C03_ex_bytes shows the whole chain on
   one shipped parrot inside Coq.  The rearrangement the oracle uses for shuffling ids (ParrotSpec.arrange) is related
   to C03_shuffle by C03_shuffle_oracle_sound / C03_parrots_shuffle_oracle: soundness only, completeness is not proved. *)
From Coq Require Import Permutation.
From UV Require Import Base.Common Model.Wire.
From UV Require Model.Grease Model.Marshal.
From UV Require Import Model.Ext Model.ExtSpec Model.Shuffle Model.Preset Model.ParrotSpec.
From UV Require Import Proofs.PresetP.
From UV Require Gen.Parrots Proofs.ExtP Proofs.PresetOkS.

Theorem C03_shuffle : forall (A : Type) (fixed : A -> bool) (swaps : list (nat * nat)) (l l' : list A),
  shuffle fixed swaps l = Ok l' ->
  Permutation l l' /\
  (forall k x, nth_error l k = Some x -> fixed x = true -> nth_error l' k = Some x) /\
  (forall k y, nth_error l' k = Some y -> fixed y = true -> nth_error l k = Some y).
Proof. intros A fixed swaps l l' H. destruct (shuffle_ok fixed swaps l l' H) as [P [K1 K2]]. auto. Qed.
Print Assumptions C03_shuffle.

(* rand.Shuffle(len(exts), swap) only calls swap with indices inside the slice: no panic, always a result *)
Theorem C03_shuffle_total : forall (A : Type) (fixed : A -> bool) (swaps : list (nat * nat)) (l : list A),
  Forall (fun ij => (fst ij < length l)%nat /\ (snd ij < length l)%nat) swaps ->
  exists l', shuffle fixed swaps l = Ok l'.
Proof.
  intros A fixed swaps. induction swaps as [|[i j] r IH]; intros l H; cbn [shuffle]; [eexists; reflexivity|].
  inversion H as [|? ? [Hi Hj] Hr]; subst. cbn [fst snd] in *.
  assert (exists l1, shuf_step fixed l (i, j) = Ok l1 /\ length l1 = length l) as (l1 & E & L).
  { unfold shuf_step. destruct (nth_error l i) as [a|] eqn:Ei; [|apply nth_error_None in Ei; lia].
    destruct (fixed a); [eexists; split; reflexivity|].
    destruct (nth_error l j) as [b|] eqn:Ej; [|apply nth_error_None in Ej; lia].
    destruct (fixed b); [eexists; split; reflexivity|].
    eexists; split; [reflexivity|]. rewrite (upd_length fixed); rewrite (upd_length fixed); lia. }
  rewrite E. cbn [bind]. apply IH. rewrite L. exact Hr.
Qed.
Print Assumptions C03_shuffle_total.

(* wire_of is what the extensions' Read() methods emit (C08 layout theorem): type ‖ u16 length ‖ body, or nothing *)
Theorem C03_wire_is_read : forall e, wf_ext e = true ->
  ext_read e (ext_len e) =
    Ok (match wire_pair e with Some (id, b) => enc_u16 id ++ enc_u16lp b | None => [] end).
Proof.
  intros e H. pose proof (ExtP.read_layout e H) as L. unfold wire_pair.
  destruct (ext_absent e); apply L.
Qed.
Print Assumptions C03_wire_is_read.

(* Whatever the spec, the Config, the randomness (GREASE seed, random, session id, generated keys, ECH
   draws) and the padding decision taken later by the marshaller (pl, pw): if ApplyPreset succeeds and
   leaves extension values within wire limits, the hello made of its header fields and of the extensions
   as their codecs encode them carries legacy_version min(spec maximum, TLS 1.2), the spec's suites with
   GREASE slots, compression [0], and the spec's extension sequence with every body equal to the spec's
   rendering up to the per-connection holes. *)
Theorem C03_generic_partial : forall sp c fr h es name pl pw,
  apply_preset sp c fr = Ok (h, es) ->
  forallb wf_ext es = true ->
  sp_comp sp = [0] ->
  ast_matches_specb (ast_of h (map (set_pad pl pw) es))
                    {| p_name := name; p_spec := sp; p_shuffles := false |} c = true.
Proof. exact apply_preset_matches. Qed.
Print Assumptions C03_generic_partial.

Theorem C03_legacy_version : forall sp mn mx v,
  set_tls_vers sp = Ok (mn, mx) -> hello_vers mn mx = Ok v -> v = N.min (spec_max sp) 771.
Proof. exact legacy_version. Qed.
Print Assumptions C03_legacy_version.

(* ApplyPreset never reads p.CompressionMethods: the hello always carries [0]. (Every shipped parrot declares
   [0] - part of C03_table_wf - so C03 holds for them; a custom spec with other methods is C06's business.) *)
Theorem C03_compression_fixed : forall sp c fr h es, apply_preset sp c fr = Ok (h, es) -> Marshal.h_comp h = [0].
Proof. exact compression_not_copied. Qed.
Print Assumptions C03_compression_fixed.

(* The hello is a function of the spec, the SNI host and OmitEmptyPsk only: whatever the caller put into
   Config.MinVersion / MaxVersion / NextProtos (fields of cfg the model carries but never reads, because
   SetTLSVers overwrites the version range and the ALPN extension overwrites NextProtos), ApplyPreset gives the
   same header and extension values. The correspondence runs vary exactly these fields (CBuild: real bytes =
   build, which ignores them). *)
Theorem C03_config_independent : forall sp c c' fr,
  c_sni c = c_sni c' -> c_omit_psk c = c_omit_psk c' -> apply_preset sp c fr = apply_preset sp c' fr.
Proof.
  intros sp c c' fr H1 H2. unfold apply_preset.
  destruct (set_tls_vers sp) as [mm| |]; cbn [bind]; try reflexivity.
  destruct (hello_vers (fst mm) (snd mm)); cbn [bind]; try reflexivity.
  destruct (negb (blen (f_random fr) =? 32)); [reflexivity|].
  destruct (Grease.grease_seed (f_grease fr)) as [sd| |]; cbn [bind]; try reflexivity.
  destruct (Grease.map_res (Grease.regrease sd Grease.ssl_grease_cipher) (sp_suites sp)); cbn [bind]; try reflexivity.
  destruct (negb (blen (f_sid fr) =? 32)); [reflexivity|].
  rewrite (preset_exts_cfg _ c c' H1 H2). reflexivity.
Qed.
Print Assumptions C03_config_independent.

(* the regenerated table Gen/Parrots.v is well-formed (finite: by computation) *)
Theorem C03_table_wf : forallb wf_parrot Parrots.all = true.
Proof. vm_compute. reflexivity. Qed.
Print Assumptions C03_table_wf.

Definition with_exts (sp : spec) (es : list sext) : spec :=
  {| sp_min := sp_min sp; sp_max := sp_max sp; sp_suites := sp_suites sp; sp_comp := sp_comp sp; sp_exts := es |}.

(* Every shipped parrot, every rearrangement the shuffle can produce from its table entry (for the ids
   that do not shuffle: swaps = []), every Config and randomness: the rearrangement is a permutation
   with GREASE/padding/pre_shared_key in their slots, and the hello matches the spec so rearranged. *)
Theorem C03_parrots : forall p, In p Parrots.all ->
  forall swaps exts', shuffle fixedb swaps (sp_exts (p_spec p)) = Ok exts' ->
  (Permutation (sp_exts (p_spec p)) exts' /\
   (forall k x, nth_error (sp_exts (p_spec p)) k = Some x -> fixedb x = true -> nth_error exts' k = Some x) /\
   (forall k y, nth_error exts' k = Some y -> fixedb y = true -> nth_error (sp_exts (p_spec p)) k = Some y)) /\
  forall c fr h es pl pw,
    apply_preset (with_exts (p_spec p) exts') c fr = Ok (h, es) ->
    forallb wf_ext es = true ->
    ast_matches_specb (ast_of h (map (set_pad pl pw) es))
                      {| p_name := p_name p; p_spec := with_exts (p_spec p) exts'; p_shuffles := false |} c = true.
Proof.
  intros p Hin swaps exts' Hs. split; [exact (C03_shuffle _ _ _ _ _ Hs)|].
  intros c fr h es pl pw Ha Hw. apply (C03_generic_partial _ c fr); [exact Ha|exact Hw|].
  exact (PresetOkS.parrots_comp p Hin).
Qed.
Print Assumptions C03_parrots.

Definition ex_cfg : cfg := {| c_sni := [97; 46; 105; 111]; c_omit_psk := true;
                              c_min_version := 0; c_max_version := 769; c_next_protos := [[104; 50]] |}.
Definition ex_ech : ech_draw :=
  {| ed_cfg_idx := 0; ed_cfg_byte := 7; ed_suite_idx := 1; ed_enc := repeat 9 32;
     ed_plen_idx := 2; ed_payload := repeat 5 208 |}.
Definition ex_fresh : fresh :=
  {| f_random := repeat 1 32; f_grease := [16; 0; 32; 0; 48; 0; 48; 0; 64; 0]; f_sid := repeat 2 32;
     f_keys := [repeat 3 1216; repeat 4 32]; f_ech := [ex_ech] |}.

(* a shipped shuffling parrot (Chrome_133: two GREASE extensions, GREASE ECH, ML-KEM + X25519 shares): ApplyPreset succeeds
   within wire limits, i.e. the premises of C03_generic_partial / C03_parrots hold *)
Example C03_ex_premises :
  match apply_preset (p_spec Parrots.p_Chrome_133) ex_cfg ex_fresh with
  | Ok (h, es) => forallb wf_ext es && bytes_eqb (sp_comp (p_spec Parrots.p_Chrome_133)) [0]
  | _ => false
  end = true.
Proof. vm_compute. reflexivity. Qed.

(* the whole chain on that parrot inside Coq: build (ApplyPreset + marshal + Boring padding) gives bytes which
   the strict parser reads back and which the (shuffle-aware) oracle accepts *)
Example C03_ex_bytes :
  match build (p_spec Parrots.p_Chrome_133) ex_cfg ex_fresh with
  | Ok raw => match parse_hello raw with
              | Some a => ast_matches_specb a Parrots.p_Chrome_133 ex_cfg
                          && list_eqb (fun x y => (fst x =? fst y) && bytes_eqb (snd x) (snd y)) (a_exts a)
                               (match apply_preset (p_spec Parrots.p_Chrome_133) ex_cfg ex_fresh with
                                | Ok (_, es) => wire_of es | _ => [] end)
              | None => false
              end
  | _ => false
  end = true.
Proof. vm_compute. reflexivity. Qed.

(* the oracle is not vacuous: the same bytes are refused for another parrot, and with one extension body changed *)
Example C03_ex_oracle_rejects :
  match build (p_spec Parrots.p_Chrome_133) ex_cfg ex_fresh with
  | Ok raw => match parse_hello raw with
              | Some a =>
                  negb (ast_matches_specb a Parrots.p_Chrome_131 ex_cfg)
                  && negb (ast_matches_specb
                             {| a_vers := a_vers a; a_random := a_random a; a_sid := a_sid a; a_suites := a_suites a;
                                a_comp := a_comp a;
                                a_exts := map (fun w => if fst w =? ID_ALPN then (fst w, [0; 3; 2; 104; 50]) else w) (a_exts a) |}
                             Parrots.p_Chrome_133 ex_cfg)
                  && negb (ast_matches_specb
                             {| a_vers := a_vers a; a_random := a_random a; a_sid := a_sid a; a_suites := a_suites a;
                                a_comp := a_comp a; a_exts := rev (a_exts a) |}
                             Parrots.p_Chrome_133 ex_cfg)
              | None => false
              end
  | _ => false
  end = true.
Proof. vm_compute. reflexivity. Qed.

(* a shuffle that moves something and one blocked by a fixed entry *)
Example C03_ex_shuffle :
  shuffle (fun x : N => x =? 0) [(3, 1); (2, 0); (1, 2)]%nat [0; 5; 6; 7] = Ok [0; 6; 7; 5].
Proof. vm_compute. reflexivity. Qed.

(* a third GREASE extension is refused; an unsupported key-share group is refused *)
Example C03_ex_errors :
  is_ok (apply_preset {| sp_min := 771; sp_max := 772; sp_suites := [4865]; sp_comp := [0];
                         sp_exts := [SExt (EGREASE 0 []); SExt (EGREASE 0 []); SExt (EGREASE 0 [])] |} ex_cfg ex_fresh) = false
  /\ is_ok (apply_preset {| sp_min := 771; sp_max := 772; sp_suites := [4865]; sp_comp := [0];
                            sp_exts := [SExt (EKeyShare [(30, [])])] |} ex_cfg ex_fresh) = false.
Proof. split; vm_compute; reflexivity. Qed.

(* Composition with the byte-level marshaller and the strict parser (Proofs/ComposeC03.v, on top of
   Proofs/ComposeP.marshal_shape = C02's layout theorem with the extension block characterised exactly).
   For every spec, Config and randomness: if [build] returns bytes, and the extension values ApplyPreset left are inside
   the C02 precondition (ChMarshal.wf_specb: wire limits, RFC minimum sizes, types pairwise distinct, pre_shared_key
   last) with totals that fit the length fields (spec_fitsb), then
   [parse_hello] reads those bytes back as exactly "header fields + extensions as their reference layouts encode
   them" (the padding extension in whatever state the marshaller's Update left it), and hence the PARSED hello
   satisfies the property oracle. Premises: wf_specb / spec_fitsb of ApplyPreset's output (evaluated for Chrome_133 below
   and for every CBuild case on every run; discharged for the shipped parrots by C03_parrots_full) and sp_comp = [0]. *)
From UV Require Model.ChMarshal Proofs.ComposeC03.

Theorem C03_build_parses : forall sp c fr h es raw,
  apply_preset sp c fr = Ok (h, es) -> build sp c fr = Ok raw ->
  ChMarshal.wf_specb h es = true -> ChMarshal.spec_fitsb 0%Z h es = true ->
  exists pl pw, parse_hello raw = Some (ast_of h (map (set_pad pl pw) es)).
Proof. exact ComposeC03.build_parses. Qed.
Print Assumptions C03_build_parses.

(* C03_generic_partial, stated over the parsed BYTES *)
Theorem C03_generic : forall sp c fr h es raw name,
  apply_preset sp c fr = Ok (h, es) -> build sp c fr = Ok raw ->
  ChMarshal.wf_specb h es = true -> ChMarshal.spec_fitsb 0%Z h es = true -> sp_comp sp = [0] ->
  exists a, parse_hello raw = Some a
            /\ ast_matches_specb a {| p_name := name; p_spec := sp; p_shuffles := false |} c = true.
Proof. exact ComposeC03.build_matches. Qed.
Print Assumptions C03_generic.

(* the premises hold for a shipped parrot with concrete randomness *)
Example C03_ex_generic_premises :
  match apply_preset (p_spec Parrots.p_Chrome_133) ex_cfg ex_fresh, build (p_spec Parrots.p_Chrome_133) ex_cfg ex_fresh with
  | Ok (h, es), Ok _ => ChMarshal.wf_specb h es && ChMarshal.spec_fitsb 0%Z h es
  | _, _ => false
  end = true.
Proof. vm_compute. reflexivity. Qed.

(* The shipped parrots (Model/PresetOk.v; see "From a ClientHelloSpec" in Props/C02.v): the premises wf_specb / spec_fitsb
   of C03_generic follow from a static predicate on the spec that holds for every table entry (C02_parrots_preset_ok, by
   computation over the regenerated table) and is invariant under the shuffle (PresetOkC.spec_matches: for any spec
   satisfying it). *)
From UV Require Model.PresetOk Proofs.PresetOkC.

(* every shipped parrot, every rearrangement the shuffle can produce, every Config with an SNI name of at most 255 bytes and
   OmitEmptyPsk, every randomness for which ApplyPreset returns: the hello is built, the strict parser reads the BYTES
   back, and the parsed hello matches the (rearranged) spec *)
Theorem C03_parrots_full : forall p swaps exts', In p Parrots.all ->
  shuffle fixedb swaps (sp_exts (p_spec p)) = Ok exts' ->
  forall c fr h es, PresetOkC.parrot_class c ->
  apply_preset (with_exts (p_spec p) exts') c fr = Ok (h, es) ->
  exists raw a, build (with_exts (p_spec p) exts') c fr = Ok raw /\ parse_hello raw = Some a
    /\ ast_matches_specb a {| p_name := p_name p; p_spec := with_exts (p_spec p) exts'; p_shuffles := false |} c = true.
Proof. exact PresetOkC.parrot_matches. Qed.
Print Assumptions C03_parrots_full.

(* Soundness of the shuffle-aware oracle: the oracle (shuffle_match: re-[arrange] the TABLE entry's
   extension list after the wire order, keep GREASE / padding / pre_shared_key in their slots, then compare in sequence)
   accepts every hello built from a rearrangement ShuffleChromeTLSExtensions can produce (C03_shuffle) - it raises no false
   alarm on a shuffling parrot, also when the SNI extension is left out (no DNS name) or padding / pre_shared_key are absent.
   (Proofs/ShuffleOracleP.v: shuffle_match_sound for every list whose non-fixed entries form one block; ShuffleOracleC.v:
   spec_shuffle_oracle for any spec passing the static checks, which the table does by computation.)
   Completeness (the oracle accepts ONLY such rearrangements) is not proved; C03_ex_oracle_rejects shows it is not
   vacuous. *)
From UV Require Proofs.ShuffleOracleP Proofs.ShuffleOracleC.

Theorem C03_shuffle_oracle_sound : forall c l l' ws,
  ShuffleOracleP.contigb l = true -> NoDup (map sext_id (filter ShuffleOracleP.nonfixed l)) ->
  (forall s, In s (filter ShuffleOracleP.nonfixed l) -> ShuffleOracleP.fixed_id (sext_id s) = false) ->
  Permutation l l' -> ShuffleOracleP.kept l l' ->
  nodup_N (filter (fun i => negb (Grease.is_grease i)) (map fst ws)) = true ->
  nodup_N (map sext_id (filter ShuffleOracleP.nonfixed l)) = true ->
  seq_match c (expect_exts 0 l') ws = true -> shuffle_match c l ws = true.
Proof.
  intros c l l' ws Hc _ Hids P K Hw Hn Hm. exact (ShuffleOracleP.shuffle_match_sound c l l' ws Hc Hn Hids P K Hw Hm).
Qed.
Print Assumptions C03_shuffle_oracle_sound.

(* every shipped parrot, every swap list, every Config in the class, every randomness: the oracle in SHUFFLE mode, applied
   with the table entry itself, accepts the parsed bytes of the hello *)
Theorem C03_parrots_shuffle_oracle : forall p swaps exts', In p Parrots.all ->
  shuffle fixedb swaps (sp_exts (p_spec p)) = Ok exts' ->
  forall c fr h es, PresetOkC.parrot_class c ->
  apply_preset (with_exts (p_spec p) exts') c fr = Ok (h, es) ->
  exists raw a, build (with_exts (p_spec p) exts') c fr = Ok raw /\ parse_hello raw = Some a
    /\ ast_matches_specb a {| p_name := p_name p; p_spec := p_spec p; p_shuffles := true |} c = true.
Proof. exact ShuffleOracleC.parrot_shuffle_oracle. Qed.
Print Assumptions C03_parrots_shuffle_oracle.

(* imported last, for the driver's closure scan only (lib/vcheck.py follows "Require Import" lines); nothing follows *)
From UV Require Import Proofs.ComposeP Proofs.ComposeC03.
From UV Require Import Model.PresetOk Proofs.PresetOkP Proofs.PresetOkS Proofs.PresetOkT Proofs.PresetOkC.
From UV Require Import Model.ParrotNeg Proofs.ParrotNegS Proofs.ShuffleOracleP Proofs.ShuffleOracleC.
