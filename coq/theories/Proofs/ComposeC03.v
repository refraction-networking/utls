(* Composition for C03: the bytes Preset.build produces are
   read back by the strict parser of Model/ParrotSpec.v as exactly the hello "header fields + the extensions as their
   reference layouts encode them", so the oracle theorem about that abstract hello (PresetP.apply_preset_matches) is a
   theorem about the parsed bytes.  Uses Proofs/ComposeP.marshal_shape (C02's layout theorem with the extension block
   characterised exactly) and nothing of C12/C13. *)
From UV Require Import Base.Common Model.Wire Model.Varint Model.Ext Model.ExtSpec Model.Strict.
From UV Require Import Proofs.WireP Proofs.ExtP Proofs.StrictP.
From UV Require Import Model.Padding Model.Marshal Model.ChMarshal Proofs.MarshalP Proofs.ChMarshalP.
From UV Require Import Proofs.ComposeP.
From UV Require Model.Preset Model.ParrotSpec Proofs.PresetP.

Lemma wlist_is_wire_of es : wlist es = ParrotSpec.wire_of es.
Proof. reflexivity. Qed.
Lemma setpad_is_set_pad l w e : setpad l w e = ParrotSpec.set_pad l w e.
Proof. reflexivity. Qed.

(* the oracle's extension loop is the strict parser's *)
Lemma parse_exts_items : forall fuel s, ParrotSpec.parse_exts fuel s = items ext_item fuel s.
Proof.
  induction fuel as [|k IH]; intros [|b s]; try reflexivity.
  cbn [ParrotSpec.parse_exts items]. unfold ext_item.
  destruct (read_u16 (b :: s)) as [[id s1]|]; [|reflexivity]. cbn [obind].
  destruct (read_u16lp s1) as [[body s2]|]; [|reflexivity]. cbn [obind]. rewrite IH. reflexivity.
Qed.

Lemma parse_exts_flat (l : list (N * bytes)) : forall fuel, Forall present_ok l ->
  (length (flat_map enc_ext l) <= fuel)%nat -> ParrotSpec.parse_exts fuel (flat_map enc_ext l) = Some l.
Proof.
  intros fuel Hall Hfuel.
  rewrite parse_exts_items, (items_flat enc_ext ext_item (fun x => x) _ ext_item_enc);
    [rewrite map_id; reflexivity | intros x _; unfold enc_ext, enc_u16; discriminate | exact Hall | exact Hfuel].
Qed.

Definition to_ast (a : ch_ast) : ParrotSpec.ast :=
  {| ParrotSpec.a_vers := c_vers a; ParrotSpec.a_random := c_random a; ParrotSpec.a_sid := c_sid a;
     ParrotSpec.a_suites := c_suites a; ParrotSpec.a_comp := c_comp a; ParrotSpec.a_exts := c_exts a |}.

Lemma parse_hello_layout a : ast_ok a -> ParrotSpec.parse_hello (hello_layout a) = Some (to_ast a).
Proof.
  intros (Hv & Hr & Hsid & Hsne & Hsu & Hslen & Hcne & Hclen & Hx).
  destruct a as [vers random sid suites comp has exts]. cbn [c_vers c_random c_sid c_suites c_comp c_has_exts c_exts] in *.
  unfold hello_layout, to_ast. cbn [c_vers c_random c_sid c_suites c_comp c_has_exts c_exts].
  set (tailb := if has then enc_u16lp (flat_map enc_ext exts) else []).
  assert (Htail : blen tailb < 65536 + 2).
  { unfold tailb. destruct has; [rewrite blen_enc_u16lp; lia | rewrite blen_nil; lia]. }
  set (body := enc_u16 vers ++ random ++ enc_u8lp sid ++ enc_u16lp (flat_map enc_u16 suites) ++ enc_u8lp comp ++ tailb).
  assert (Hbody : blen body < 16777216).
  { unfold body. rewrite !blen_app, blen_enc_u16, !blen_enc_u8lp, blen_enc_u16lp, blen_flat_u16. lia. }
  unfold ParrotSpec.parse_hello. cbn [app read_u8 obind]. change (1 =? 1) with true. cbn [negb].
  rewrite read_enc_u24lp_nil by exact Hbody. cbn [obind empty negb].
  unfold body. rewrite read_enc_u16 by exact Hv. cbn [obind].
  match goal with |- context [read_bytes 32 (random ++ ?x)] => pose proof (read_bytes_app random x) as Hrb end.
  rewrite Hr in Hrb. rewrite Hrb. cbn [obind].
  rewrite read_enc_u8lp by lia. cbn [obind].
  rewrite read_enc_u16lp by (rewrite blen_flat_u16; lia). cbn [obind].
  rewrite read_u16s_flat by exact Hsu. cbn [obind].
  rewrite read_enc_u8lp by exact Hclen. cbn [obind].
  unfold tailb. destruct has.
  - destruct Hx as (Hall & Hok & Hlen).
    assert (Hne : empty (enc_u16lp (flat_map enc_ext exts)) = false) by reflexivity.
    rewrite Hne. rewrite read_enc_u16lp_nil by exact Hlen. cbn [obind empty negb].
    rewrite parse_exts_flat; [reflexivity | exact Hall | apply le_n].
  - subst exts. reflexivity.
Qed.

Lemma build_is_marshal_hello sp c fr h es raw :
  Preset.apply_preset sp c fr = Ok (h, es) -> Preset.build sp c fr = Ok raw -> spec_fitsb 0%Z h es = true ->
  marshal_hello Preset.bbs512 0%Z h es = Ok raw.
Proof.
  intros Ha Hb Hfit. unfold Preset.build in Hb. rewrite Ha in Hb. cbn [bind fst snd] in Hb.
  destruct (existsb Preset.pad_other es) eqn:Ep; [discriminate|].
  rewrite (PresetP.map_to_aext_same 0%Z es Ep) in Hb.
  unfold spec_fitsb in Hfit. unfold marshal_hello.
  destruct (marshal_prepare h (map (to_aext 0%Z) es)) as [p|c0|c0]; try discriminate. cbn [bind]. rewrite Hfit. cbn [negb]. exact Hb.
Qed.

(* parse (build ..) = the abstract hello of the model's values *)
Theorem build_parses sp c fr h es raw :
  Preset.apply_preset sp c fr = Ok (h, es) -> Preset.build sp c fr = Ok raw ->
  wf_specb h es = true -> spec_fitsb 0%Z h es = true ->
  exists pl pw, ParrotSpec.parse_hello raw = Some (ParrotSpec.ast_of h (map (ParrotSpec.set_pad pl pw) es)).
Proof.
  intros Ha Hb Hwf Hfit. pose proof (build_is_marshal_hello sp c fr h es raw Ha Hb Hfit) as Hm.
  destruct (marshal_shape Preset.bbs512 0%Z h es raw Hwf Hm) as (present & -> & Hok & _ & _ & _ & (pl & pw & Hex)).
  exists pl, pw. rewrite (parse_hello_layout _ Hok). subst present. reflexivity.
Qed.

(* C03_generic, full: the PARSED bytes of the hello built for a spec satisfy the property oracle against that spec *)
Theorem build_matches sp c fr h es raw name :
  Preset.apply_preset sp c fr = Ok (h, es) -> Preset.build sp c fr = Ok raw ->
  wf_specb h es = true -> spec_fitsb 0%Z h es = true -> Preset.sp_comp sp = [0] ->
  exists a, ParrotSpec.parse_hello raw = Some a
            /\ ParrotSpec.ast_matches_specb a {| Preset.p_name := name; Preset.p_spec := sp; Preset.p_shuffles := false |} c = true.
Proof.
  intros Ha Hb Hwf Hfit Hcomp. destruct (build_parses sp c fr h es raw Ha Hb Hwf Hfit) as (pl & pw & Hp).
  eexists; split; [exact Hp|]. apply (PresetP.apply_preset_matches sp c fr h es name pl pw Ha); [|exact Hcomp].
  destruct (wf_spec_parts h es Hwf) as (_ & _ & _ & _ & _ & _ & Hall & _).
  apply forallb_forall. intros e He. rewrite Forall_forall in Hall. apply (Hall e He).
Qed.
