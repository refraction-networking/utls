(* C25 — application data arrives intact and tampering is detected.
   Record layer: Model/Record.v (conn.go halfConn encrypt/decrypt, Write incl. the 1/n-1 split and
   dynamic record sizing, readRecord, Read; UConn.Read/Write are the same model with cn_uconn = true).
   Primitives are premises (prims_ok); the tamper statement additionally uses an ideal-AEAD premise
   (labelled). Partial proof: see notes/C25.md for what is only observed by the runner. *)
From UV Require Import Base.Common Model.Record Model.Forge Model.KuLock
  Proofs.RecordP Proofs.RecordRT Proofs.RecordStream Proofs.RecordRead Proofs.TamperP Proofs.KuLockP.
Open Scope N_scope.

(* one record, every cipher construction (RC4+HMAC, CBC+HMAC with implicit or explicit IV, TLS 1.2 GCM,
   ChaCha20, TLS 1.3): what encrypt emits, the matched read half decrypts to the same payload and type,
   and both advance to matched states *)
Theorem C25_record_roundtrip : forall P, prims_ok P ->
  forall (tx rx : half) (typ v1 v2 : N) (payload rnd : bytes),
  synced tx rx -> typ <> 0 -> len payload <= maxPlaintext ->
  h_seq tx + 1 < 18446744073709551616 -> (explicit_nonce_len tx <= length rnd)%nat ->
  exists body tx' rx',
    encrypt P tx (hdr5 typ v1 v2 (len payload)) payload rnd
      = Ok (hdr5 (outer_typ (h_vers tx) typ) v1 v2 (len body) ++ body, tx') /\
    decrypt P rx (hdr5 (outer_typ (h_vers tx) typ) v1 v2 (len body) ++ body) = Ok (payload, typ, rx') /\
    synced tx' rx' /\ len payload <= len body <= len payload + body_slack (h_vers tx).
Proof.
  intros P HP tx rx typ v1 v2 payload rnd Hs Ht Hl Hq Hr.
  destruct (encrypt_decrypt P HP tx rx typ v1 v2 payload rnd Hs Ht Hl Hq Hr) as (b & c2 & c2' & H).
  eauto.
Qed.
Print Assumptions C25_record_roundtrip.

Lemma rchain_forall P v t : forall recs rx rx_end, rchain P v t rx recs rx_end ->
  Forall (fun pr => 0 < len (fst pr) <= maxPlaintext /\ rec_wf v (snd pr)) recs.
Proof.
  induction recs as [|[p r] recs IH]; intros rx rx_end H; constructor.
  - cbn [rchain] in H. cbn. tauto.
  - cbn [rchain] in H. destruct H as (_ & _ & rx' & _ & H). eapply IH. exact H.
Qed.

(* a Write of any size is cut into records each carrying between 1 and 2^14 plaintext
   bytes, whose concatenation is the input, each within the ciphertext limit of the version *)
Theorem C25_fragment_bounds : forall P, prims_ok P ->
  forall (c : conn) (rx : half) (b : bytes) (rnd : N -> bytes),
  wconn_ok c -> synced (cn_out c) rx -> rnd_ok rnd -> h_seq (cn_out c) + len b < 18446744073709551616 ->
  exists recs c',
    conn_write P c b rnd = Ok (concat (map snd recs), len b, c') /\
    concat (map fst recs) = b /\
    Forall (fun pr => 0 < len (fst pr) <= maxPlaintext /\ rec_wf (cn_vers c) (snd pr)) recs.
Proof.
  intros P HP c rx b rnd Hw Hs Hr Hq.
  destruct (conn_write_ok P HP c b rnd rx Hw Hs Hr Hq) as (recs & c' & rx_end & A & B & _ & C & _).
  exists recs, c'. split; [exact A|]. split; [exact C|]. eapply rchain_forall. exact B.
Qed.
Print Assumptions C25_fragment_bounds.

(* stream_integrity: writer and reader start matched (what the handshake establishes: same keys, IVs, MAC
   keys, sequence numbers in that direction). Then for ANY interleaving of Write calls of any sizes and Read
   calls with any positive buffer sizes, no call fails and at every moment
       bytes written = bytes read ++ bytes still buffered or in flight;
   the statement is per direction and applies to both (the two directions use disjoint state). *)
Theorem C25_stream_integrity : forall P, prims_ok P ->
  forall (rnd : N -> bytes), rnd_ok rnd ->
  forall (ops : list (op)) (w : world),
  inv P w -> recvs_positive ops ->
  h_seq (cn_out (w_tx w)) + send_total ops < 18446744073709551616 ->
  exists w', run P rnd w ops = Ok w' /\ inv P w' /\ exists pending, w_sent w' = w_got w' ++ pending.
Proof. intros P HP rnd Hr ops w. exact (stream_integrity P HP rnd Hr ops w). Qed.
Print Assumptions C25_stream_integrity.

(* ... and nothing is withheld: while written bytes are outstanding every Read returns at least one *)
Theorem C25_read_progress : forall P, prims_ok P ->
  forall rnd w n, rnd_ok rnd -> inv P w -> (0 < n)%nat -> (length (w_got w) < length (w_sent w))%nat ->
  exists w', step P rnd w (Recv n) = Ok w' /\ inv P w' /\ (length (w_got w) < length (w_got w'))%nat.
Proof.
  intros P HP rnd w n Hrnd Hi Hn Hlt. destruct (step_inv P HP rnd w (Recv n) Hi Hrnd Hn) as (w' & A & B & _ & C).
  exists w'. auto.
Qed.

(* key update: the ratchet applied by the sender after its KeyUpdate record and by the receiver in
   handleKeyUpdate keeps the two halves matched (same next secret, same derived key and IV, sequence 0) *)
Theorem C25_key_update_keeps_sync : forall P (tx rx : half) (suite : N),
  synced tx rx -> h_mac tx = None ->
  synced (set_traffic_secret P tx suite (next_secret P suite (h_secret tx)))
         (set_traffic_secret P rx suite (next_secret P suite (h_secret rx))).
Proof.
  intros P tx rx suite (Hv & Hm & Hq & Hsec & Hwf & Hc) Hmac.
  unfold set_traffic_secret. rewrite <- Hsec.
  destruct (traffic_key P suite (next_secret P suite (h_secret tx))) as [k iv].
  unfold synced, half_wf, cipher_match. cbn. rewrite <- Hm, Hmac. repeat split; auto; try discriminate.
Qed.

(* what setTrafficSecret (conn.go:232) leaves behind: the stored secret IS the secret the installed key and IV
   were derived from (so the next update ratchets from the current generation, not an older one), seq = 0 *)
Theorem C25_secret_tracks_keys : forall P (h : half) (suite : N) (secret : bytes),
  let h' := set_traffic_secret P h suite secret in
  h_secret h' = secret /\ h_seq h' = 0 /\
  exists ci, h_cipher h' = Some ci /\ c_kind ci = KAeadXor /\ (c_key ci, c_iv ci) = traffic_key P suite secret.
Proof.
  intros P h suite secret. cbv zeta. unfold set_traffic_secret.
  destruct (traffic_key P suite secret) as [k iv]. cbn. repeat split. eexists. repeat split.
Qed.

(* ... and so does any number of generations: after n key updates in one direction (whoever started them,
   whatever update_requested said) writer and reader hold the n-th secret, its key and IV, sequence 0 *)
Fixpoint ratchet_n (P : prims) (suite : N) (n : nat) (h : half) : half :=
  match n with
  | O => h
  | S k => ratchet_n P suite k (set_traffic_secret P h suite (next_secret P suite (h_secret h)))
  end.

Theorem C25_key_update_generations : forall P (suite : N) (n : nat) (tx rx : half),
  synced tx rx -> h_mac tx = None -> synced (ratchet_n P suite n tx) (ratchet_n P suite n rx).
Proof.
  intros P suite n. induction n as [|k IH]; intros tx rx Hs Hm; [exact Hs|].
  cbn [ratchet_n]. apply IH.
  - apply C25_key_update_keeps_sync; assumption.
  - unfold set_traffic_secret. destruct (traffic_key P suite (next_secret P suite (h_secret tx))). exact Hm.
Qed.

(* the generations differ from each other only through next_secret: generation n holds next_secret^n *)
Theorem C25_generation_secret : forall P (suite : N) (n : nat) (h : half),
  h_secret (ratchet_n P suite n h) = Nat.iter n (next_secret P suite) (h_secret h).
Proof.
  intros P suite n. induction n as [|k IH]; intros h; [reflexivity|].
  cbn [ratchet_n]. rewrite IH. unfold set_traffic_secret.
  destruct (traffic_key P suite (next_secret P suite (h_secret h))). cbn [h_secret].
  (* ratchet_n steps at the head, Nat.iter at the tail: iter (S k) f x = iter k f (f x) *)
  clear IH. induction k as [|j IHj]; [reflexivity|]. simpl. simpl in IHj. rewrite IHj. reflexivity.
Qed.

(* a KeyUpdate(update_requested) that cannot be answered (local send side broken) still moves the READ half to
   the next generation, and the failure of the answer is not an error of the Read that processed the request:
   the peer's following records stay readable (handleKeyUpdate, conn.go:1349-1366) *)
Theorem C25_key_update_reads_on : forall P (c : conn) (req : bool) (rnd : N -> bytes) (w : bytes) (c' : conn),
  handle_key_update P c req rnd = Ok (w, c') ->
  cn_in c' = set_traffic_secret P (cn_in c) (cn_suite c) (next_secret P (cn_suite c) (h_secret (cn_in c))).
Proof.
  intros P c req rnd w c' H. unfold handle_key_update in H.
  destruct (negb (is_suite13 (cn_suite c))); [discriminate|].
  destruct req; [|inversion H; subst; reflexivity].
  match type of H with context [send_key_update P ?c1 false rnd] =>
    destruct (send_key_update P c1 false rnd) as [[w1 c2]| |] eqn:E end; try discriminate.
  - inversion H; subst. apply send_key_update_keeps_in in E. rewrite E. reflexivity.
  - inversion H; subst. reflexivity.
Qed.
Print Assumptions C25_key_update_reads_on.

Theorem C25_key_update_answer_failure_is_not_fatal : forall P (c : conn) (rnd : N -> bytes) (e : N),
  is_suite13 (cn_suite c) = true ->
  send_key_update P (with_in c (set_traffic_secret P (cn_in c) (cn_suite c) (next_secret P (cn_suite c) (h_secret (cn_in c))))
                             (cn_input c) (cn_hand c) (cn_retry c)) false rnd = Err e ->
  exists c', handle_key_update P c true rnd = Ok ([], c').
Proof.
  intros P c rnd e Hs H. unfold handle_key_update. rewrite Hs. cbn [negb]. rewrite H. eexists. reflexivity.
Qed.

(* concurrency: the write key switch is atomic with sending the KeyUpdate answer. Model/KuLock.v is the
   interleaving model of c.out (mutex), the goroutine answering in handleKeyUpdate and any number of
   concurrent Write calls. For every schedule: the wire is one the peer can follow (each data record sealed
   under the generation = number of KeyUpdate records before it), and from the answer until the switch
   the answering goroutine holds c.out, so no Write runs in between (lock-held fact). *)
Theorem C25_key_switch_atomic : forall (tr : list label) (s : st),
  ku_run true ku_init tr = Some s ->
  wire_ok 0 (wire s) = true /\
  (pcA s = A2 -> lock s = ByAnswerer) /\
  (inWrite s = true -> pcA s = A0).
Proof.
  intros tr s H. pose proof (ku_run_inv tr ku_init s ku_inv_init H) as (Hw & Hp & Hl).
  split; [exact Hw|]. split.
  - intros E. rewrite E in Hp. tauto.
  - intros E. apply Hl in E. destruct (pcA s); try reflexivity; try (destruct Hp as [_ Hk]; congruence); contradiction.
Qed.
Print Assumptions C25_key_switch_atomic.

(* ... and it is needed: if c.out is released between the answer and the switch, a schedule exists in which
   a Write seals a record under the old key after the answer went out (the peer answers bad_record_mac) *)
Example C25_ex_unlocked_switch_breaks :
  match ku_run false ku_init
          [ALock; ASend; AUnlockMid; WLock; WEmit; WUnlock;
           ARelock; ASwitch; AUnlock] with
  | Some s => negb (wire_ok 0 (wire s))
  | None => false
  end = true.
Proof. vm_compute. reflexivity. Qed.

(* tamper_detected (AEAD suites; IDEAL premise: Open only accepts what a key holder sealed): the receiver
   accepts a record only if the triple (nonce of ITS sequence number, additional data carrying sequence
   number / type / version / length — in TLS 1.3 the whole header —, entire body) was sealed. A record with a
   flipped or missing byte gives a triple the honest peer never sealed: error, no plaintext. *)
Theorem C25_tamper_detected : forall P (sealed : N -> bytes -> bytes -> bytes -> bytes -> Prop),
  (forall a k n ad c p, aead_open P a k n ad c = Some p -> sealed a k n ad c) ->
  forall (rx : half) (ci : cipher) (r : bytes),
  h_cipher rx = Some ci -> c_kind ci = KAeadPrefix \/ c_kind ci = KAeadXor ->
  (h_vers rx = V13 -> nth 0 r 0 <> rtCCS) ->
  let enl := explicit_nonce_len rx in
  let body := skipn enl (skipn recordHeaderLen r) in
  let nonce := match firstn enl (skipn recordHeaderLen r) with [] => seq8 (h_seq rx) | e => e end in
  let ad := if h_vers rx =? V13 then firstn recordHeaderLen r
            else seq8 (h_seq rx) ++ firstn 3 r ++ be16 (N.of_nat (length body - aead_overhead)) in
  ~ sealed (c_alg ci) (c_key ci) (aead_nonce ci nonce) ad body ->
  forall p t rx', decrypt P rx r <> Ok (p, t, rx').
Proof. intros P sealed H rx ci r. exact (tamper_detected P sealed H rx ci r). Qed.
Print Assumptions C25_tamper_detected.

Definition ex_half (v : N) (seq : N) : half :=
  mkHalf v (Some (mkCipher KAeadXor algCHACHA (zeros 32) (zeros 12) false 0 0)) None seq None None [].
Definition ex_tx : conn := mkConn V13 true 4867 half0 (ex_half V13 0) [] [] 0 0 0 false.
Definition ex_rx : conn := mkConn V13 true 4867 (ex_half V13 0) half0 [] [] 0 0 0 false.
Definition ex_world : world := mkWorld ex_tx ex_rx [] [] [].

Example C25_ex_inv : inv toy ex_world.
Proof.
  exists [], (ex_half V13 0). unfold ex_world, ex_tx, ex_rx, wconn_ok, rconn_ok, synced, half_wf, cipher_match, vers_ok; cbn.
  repeat split; auto; try discriminate.
Qed.

(* two writes (one of 3000 bytes: two records under dynamic sizing) and reads with buffers 1, 2000, 5000, 7 *)
Example C25_ex_run :
  match run toy (fun _ => zeros 16) ex_world [Send (repeat 65 3000%nat); Recv 1; Send [1; 2; 3]; Recv 2000; Recv 5000; Recv 7] with
  | Ok w => bytes_eqb (w_got w) (repeat 65 3000%nat ++ [1; 2; 3]) && bytes_eqb (w_sent w) (w_got w)
  | _ => false
  end = true.
Proof. vm_compute. reflexivity. Qed.
