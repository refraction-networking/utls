(* Proofs for Model/GoCH.v, the parser side.  The invariant: whatever unmarshal accepts has well-formed field
   values (wf_msgb), for all 19 known extensions; unknown extensions are skipped as in the Go code.  With it:
   parse -> clear Raw -> marshal -> parse needs no well-formedness premise; and the one family of accepted inputs
   whose re-marshal fails (SCSV + a full extension block). *)
From UV Require Import Base.Common Model.Public Model.GoCH Proofs.PublicP Proofs.GoCHP Proofs.GoCHP2 Proofs.GoCHP3.
Open Scope N_scope.

Lemma bytes_ok_firstn n : forall s, bytes_ok s -> bytes_ok (firstn n s).
Proof. induction n as [|n IH]; intros s H; [constructor|]. destruct s; [constructor|]. inversion H; subst. cbn. constructor; auto. apply IH; assumption. Qed.
Lemma bytes_ok_skipn n : forall s, bytes_ok s -> bytes_ok (skipn n s).
Proof. induction n as [|n IH]; intros s H; [exact H|]. destruct s; [constructor|]. inversion H; subst. cbn. apply IH; assumption. Qed.

Lemma rd_bytes_ok n s a r : rd_bytes n s = Some (a, r) -> bytes_ok s -> bytes_ok a /\ bytes_ok r.
Proof.
  unfold rd_bytes. destruct (length s <? n)%nat; [discriminate|]. intros E H. injection E as <- <-.
  split; [now apply bytes_ok_firstn|now apply bytes_ok_skipn].
Qed.
Lemma rd_u8_ok s x r : rd_u8 s = Some (x, r) -> bytes_ok s -> x < 256 /\ bytes_ok r.
Proof. destruct s as [|a s]; [discriminate|]. cbn. intros E H. injection E as <- <-. inversion H; subst. auto. Qed.
Lemma rd_u16_ok s x r : rd_u16 s = Some (x, r) -> bytes_ok s -> x < 65536 /\ bytes_ok r.
Proof.
  destruct s as [|a [|b s]]; try discriminate. cbn. intros E H. injection E as <- <-.
  inversion H as [|? ? Ha H']; subst. inversion H' as [|? ? Hb H'']; subst. split; [lia|assumption].
Qed.
Lemma rd_u32_ok s x r : rd_u32 s = Some (x, r) -> bytes_ok s -> x < 4294967296 /\ bytes_ok r.
Proof.
  destruct s as [|a [|b [|c [|d s]]]]; try discriminate. cbn. intros E H. injection E as <- <-.
  inversion H as [|? ? Ha H1]; subst. inversion H1 as [|? ? Hb H2]; subst. inversion H2 as [|? ? Hc H3]; subst.
  inversion H3 as [|? ? Hd H4]; subst. split; [lia|assumption].
Qed.
Lemma rd_u8lp_ok s d r : rd_u8lp s = Some (d, r) -> bytes_ok s -> bytes_ok d /\ bytes_ok r.
Proof.
  unfold rd_u8lp. intros E H. apply obind_some in E as ([n s'] & E1 & E2).
  exact (rd_bytes_ok _ _ _ _ E2 (proj2 (rd_u8_ok _ _ _ E1 H))).
Qed.
Lemma rd_u16lp_ok s d r : rd_u16lp s = Some (d, r) -> bytes_ok s -> bytes_ok d /\ bytes_ok r.
Proof.
  unfold rd_u16lp. intros E H. apply obind_some in E as ([n s'] & E1 & E2).
  exact (rd_bytes_ok _ _ _ _ E2 (proj2 (rd_u16_ok _ _ _ E1 H))).
Qed.

Lemma list_ind2 (P : bytes -> Prop) : P [] -> (forall a, P [a]) -> (forall a b r, P r -> P (a :: b :: r)) -> forall l, P l.
Proof. intros H0 H1 H2. fix F 1. intros [|a [|b r]]; [exact H0|apply H1|apply H2, F]. Qed.

Lemma rd_u16s_ok : forall s l, rd_u16s s = Some l -> bytes_ok s -> forallb u16_okb l = true.
Proof.
  intros s. induction s as [|a|a b r IH] using list_ind2; intros l E H.
  - injection E as <-. reflexivity.
  - discriminate.
  - cbn [rd_u16s] in E. apply obind_some in E as (l' & E' & E). injection E as <-.
    inversion H as [|? ? Ha H1]; subst. inversion H1 as [|? ? Hb H2]; subst.
    cbn [forallb]. rewrite (IH _ E' H2). unfold u16_okb. rewrite andb_true_r. apply N.ltb_lt. lia.
Qed.
Lemma rd_u16s_nonnil s l : rd_u16s s = Some l -> is_nil s = false -> nonnilb l = true.
Proof.
  destruct s as [|a [|b r]]; [discriminate 2|discriminate 1|]. cbn [rd_u16s]. destruct (rd_u16s r); [|discriminate].
  cbn [obind]. intros E _. injection E as <-. reflexivity.
Qed.

Lemma nonempty_u16s_ok d xs r : nonempty_u16s d = Some (xs, r) -> bytes_ok d ->
  nonnilb xs && forallb u16_okb xs = true /\ bytes_ok r.
Proof.
  unfold nonempty_u16s. destruct (rd_u16lp d) as [[l r']|] eqn:E; [|discriminate]. cbn [obind].
  destruct (is_nil l) eqn:En; [discriminate|]. destruct (rd_u16s l) as [xs'|] eqn:Ex; [|discriminate]. cbn [obind].
  intros E2 H. injection E2 as <- <-. destruct (rd_u16lp_ok _ _ _ E H) as [Hl Hr].
  split; [|exact Hr]. rewrite (rd_u16s_nonnil _ _ Ex En), (rd_u16s_ok _ _ Ex Hl). reflexivity.
Qed.

Lemma nonnilb_of_is_nil {A} (l : list A) : is_nil l = false -> nonnilb l = true.
Proof. unfold nonnilb. now intros ->. Qed.

Lemma dec_alpn_ok : forall fuel s l, dec_alpn fuel s = Some l ->
  forallb nonnilb l = true /\ (is_nil s = false -> nonnilb l = true).
Proof.
  induction fuel as [|fuel IH]; intros s l E; cbn [dec_alpn] in E; destruct (is_nil s); try (injection E as <-; now split); try discriminate.
  apply obind_some in E as ([p r] & _ & E). destruct (is_nil p) eqn:Ep; [discriminate|].
  apply obind_some in E as (l' & E' & E). injection E as <-. split; [|reflexivity].
  cbn [forallb]. rewrite (nonnilb_of_is_nil _ Ep), (proj1 (IH _ _ E')). reflexivity.
Qed.

Lemma dec_shares_ok : forall fuel s l, dec_shares fuel s = Some l -> bytes_ok s -> forallb share_okb l = true.
Proof.
  induction fuel as [|fuel IH]; intros s l E H; cbn [dec_shares] in E; destruct (is_nil s); try (injection E as <-; reflexivity); try discriminate.
  apply obind_some in E as ([g r] & Eg & E).
  apply obind_some in E as ([d r'] & Ed & E). destruct (is_nil d) eqn:En; [discriminate|].
  apply obind_some in E as (l' & E' & E). injection E as <-.
  destruct (rd_u16_ok _ _ _ Eg H) as [Hg Hr]. destruct (rd_u16lp_ok _ _ _ Ed Hr) as [_ Hr'].
  cbn [forallb]. rewrite (IH _ _ E' Hr'). unfold share_okb. cbn [ks_group ks_data].
  rewrite (nonnilb_of_is_nil _ En). rewrite !andb_true_r. apply N.ltb_lt. exact Hg.
Qed.

Lemma dec_ids_ok : forall fuel s l, dec_ids fuel s = Some l -> bytes_ok s ->
  forallb id_okb l = true /\ (is_nil s = false -> nonnilb l = true).
Proof.
  induction fuel as [|fuel IH]; intros s l E H; cbn [dec_ids] in E; destruct (is_nil s); try (injection E as <-; now split); try discriminate.
  apply obind_some in E as ([lab r] & El & E).
  apply obind_some in E as ([age r'] & Ea & E). destruct (is_nil lab) eqn:En; [discriminate|].
  apply obind_some in E as (l' & E' & E). injection E as <-. split; [|reflexivity].
  destruct (rd_u16lp_ok _ _ _ El H) as [_ Hr]. destruct (rd_u32_ok _ _ _ Ea Hr) as [Hage Hr'].
  cbn [forallb]. rewrite (proj1 (IH _ _ E' Hr')). unfold id_okb. cbn [pi_label pi_obfuscatedTicketAge].
  rewrite (nonnilb_of_is_nil _ En). rewrite !andb_true_r. apply N.ltb_lt. exact Hage.
Qed.

Lemma dec_sni_ok : forall fuel s cur n, sni_pre cur = true -> dec_sni_names fuel s cur = Some n -> sni_pre n = true.
Proof.
  induction fuel as [|fuel IH]; intros s cur n Hc E; cbn [dec_sni_names] in E; destruct (is_nil s); try (injection E as <-; exact Hc); try discriminate.
  apply obind_some in E as ([ty r] & _ & E).
  apply obind_some in E as ([name r'] & _ & E).
  destruct (is_nil name) eqn:En; [discriminate|]. destruct (negb (ty =? 0)); [exact (IH _ _ _ Hc E)|].
  destruct (negb (is_nil cur)); [discriminate|]. destruct (last name 0 =? 46) eqn:El; [discriminate|].
  apply (IH r' name n); [|exact E]. unfold sni_pre. rewrite El. now rewrite orb_true_r.
Qed.

Definition oall {A} (P : A -> Prop) (o : option A) : Prop := match o with Some a => P a | None => True end.
Lemma oall_bind {A B} (P : B -> Prop) (o : option A) (f : A -> option B) :
  (forall a, o = Some a -> oall P (f a)) -> oall P (obind o f).
Proof. destruct o as [a|]; [intros H; exact (H a eq_refl)|intros _; exact I]. Qed.

Lemma dec_body_pre id d : bytes_ok d -> oall (fun p => pre_wfb (fst p) = true) (dec_body id d).
Proof.
  intros H. unfold dec_body. repeat destruct (id =? _).
  (* ten kinds carry no obligation, whatever they read first *)
  all: try (repeat (apply oall_bind; intros [] _); reflexivity).
  all: apply oall_bind.
  - (* server_name *) intros [nl r] _. destruct (is_nil nl); [exact I|]. apply oall_bind. intros n En.
    exact (dec_sni_ok _ _ [] _ eq_refl En).
  - (* supported_groups *) intros [xs r] E. exact (proj1 (nonempty_u16s_ok _ _ _ E H)).
  - (* ec_point_formats *) intros [p r] _. destruct (is_nil p) eqn:E; [exact I|exact (nonnilb_of_is_nil _ E)].
  - (* signature_algorithms *) intros [xs r] E. exact (proj1 (nonempty_u16s_ok _ _ _ E H)).
  - (* signature_algorithms_cert *) intros [xs r] E. exact (proj1 (nonempty_u16s_ok _ _ _ E H)).
  - (* alpn *) intros [pl r] _. destruct (is_nil pl) eqn:E1; [exact I|]. apply oall_bind. intros l El.
    destruct (dec_alpn_ok _ _ _ El) as [P1 P2]. cbn [oall fst pre_wfb]. rewrite P1, (P2 E1). reflexivity.
  - (* supported_versions *) intros [vl r] E0. destruct (is_nil vl) eqn:E1; [exact I|]. apply oall_bind. intros xs Ex.
    cbn [oall fst pre_wfb]. rewrite (rd_u16s_nonnil _ _ Ex E1), (rd_u16s_ok _ _ Ex (proj1 (rd_u8lp_ok _ _ _ E0 H))). reflexivity.
  - (* cookie *) intros [p r] _. destruct (is_nil p) eqn:E; [exact I|exact (nonnilb_of_is_nil _ E)].
  - (* key_share *) intros [cs r] E0. apply oall_bind. intros l El.
    exact (dec_shares_ok _ _ _ El (proj1 (rd_u16lp_ok _ _ _ E0 H))).
  - (* pre_shared_key *) intros [il r] E0. destruct (is_nil il) eqn:E1; [exact I|]. apply oall_bind. intros ids Ei.
    apply oall_bind. intros [bl r2] _. destruct (is_nil bl) eqn:E3; [exact I|]. apply oall_bind. intros bs Eb.
    rewrite dec_binders_alpn in Eb. destruct (dec_ids_ok _ _ _ Ei (proj1 (rd_u16lp_ok _ _ _ E0 H))) as [I1 I2].
    destruct (dec_alpn_ok _ _ _ Eb) as [B1 B2]. cbn [oall fst pre_wfb]. rewrite I1, (I2 E1), B1, (B2 E3). reflexivity.
Qed.

Lemma dec_ext_pre id d x : dec_ext id d = Some x -> bytes_ok d -> pre_wfb x = true.
Proof.
  unfold dec_ext. intros E H. pose proof (dec_body_pre id d H) as P.
  destruct (dec_body id d) as [[x' r]|]; [|discriminate]. cbn [obind] in E.
  destruct (is_nil r); [|discriminate]. injection E as <-. exact P.
Qed.

Lemma parse_exts_pre : forall fuel s seen l, parse_exts fuel s seen = Some l -> bytes_ok s -> forallb pre_wfb l = true.
Proof.
  induction fuel as [|fuel IH]; intros s seen l E H; cbn [parse_exts] in E; destruct (is_nil s); try (injection E as <-; reflexivity); try discriminate.
  apply obind_some in E as ([id r] & Ei & E).
  apply obind_some in E as ([d r'] & Ed & E).
  destruct (existsb (N.eqb id) seen); [discriminate|]. destruct ((id =? 41) && negb (is_nil r')); [discriminate|].
  apply obind_some in E as (x & Ex & E).
  apply obind_some in E as (l' & El & E). injection E as <-.
  destruct (rd_u16_ok _ _ _ Ei H) as [_ Hr]. destruct (rd_u16lp_ok _ _ _ Ed Hr) as [Hd Hr'].
  cbn [forallb]. rewrite (dec_ext_pre _ _ _ Ex Hd), (IH _ _ _ El Hr'). reflexivity.
Qed.

Lemma find_map_pre {B} (f : ext -> option B) l v : forallb pre_wfb l = true -> find_map f l = Some v ->
  exists x, f x = Some v /\ pre_wfb x = true.
Proof.
  induction l as [|y l IH]; cbn [forallb find_map fold_right]; [discriminate 2|]. intros H. apply andb_true_iff in H as [Hy Hl].
  destruct (f y) eqn:E; [|exact (IH Hl)]. intros [= <-]. eauto.
Qed.

Lemma elems_slice_of {A} (l : list A) : elems (slice_of l) = l.
Proof. destruct l; reflexivity. Qed.
Lemma slice_of_not_some_nil {A} (l : list A) : is_some_nil (slice_of l) = false.
Proof. destruct l; reflexivity. Qed.

Section Getters.
  Variable l : list ext.
  Hypothesis Hl : forallb pre_wfb l = true.

  (* the getters of the list-valued extensions that must not be empty: [f] selects the constructor, [Q] is what its
     decoder guarantees about the elements *)
  Lemma g_list_pre {A} (f : ext -> option (list A)) (Q : list A -> bool) :
    (forall x n, f x = Some n -> pre_wfb x = nonnilb n && Q n) ->
    nonnilb (match find_map f l with Some n => n | None => [] end) = true ->
    Q (match find_map f l with Some n => n | None => [] end) = true.
  Proof.
    intros Hf. destruct (find_map f l) as [n|] eqn:E; [|discriminate]. intros _.
    destruct (find_map_pre _ _ _ Hl E) as (x & Hx & P). rewrite (Hf _ _ Hx) in P. now apply andb_true_iff in P.
  Qed.

  Lemma g_sni_pre : sni_pre (g_sni l) = true.
  Proof.
    unfold g_sni. destruct (find_map _ l) as [n|] eqn:E; [|reflexivity].
    destruct (find_map_pre _ _ _ Hl E) as (x & Hx & P). destruct x; try discriminate. now injection Hx as <-.
  Qed.
  Lemma g_shares_pre : forallb share_okb (g_shares l) = true.
  Proof.
    unfold g_shares. destruct (find_map _ l) as [n|] eqn:E; [|reflexivity].
    destruct (find_map_pre _ _ _ Hl E) as (x & Hx & P). destruct x; try discriminate. now injection Hx as <-.
  Qed.
  Lemma g_psk_pre : nonnilb (fst (g_psk l)) = true ->
    forallb id_okb (fst (g_psk l)) = true /\ nonnilb (snd (g_psk l)) = true /\ forallb nonnilb (snd (g_psk l)) = true.
  Proof.
    unfold g_psk. destruct (find_map _ l) as [[a b]|] eqn:E; [|discriminate]. intros _. cbn [fst snd].
    destruct (find_map_pre _ _ _ Hl E) as (x & Hx & P). destruct x; try discriminate. injection Hx as -> ->. cbn [pre_wfb] in P.
    apply andb_true_iff in P as [P P4]. apply andb_true_iff in P as [P P3]. apply andb_true_iff in P as [P1 P2]. auto.
  Qed.
  Lemma g_psk_default : nonnilb (fst (g_psk l)) = false -> is_nil (snd (g_psk l)) = true.
  Proof.
    unfold g_psk. destruct (find_map _ l) as [[a b]|] eqn:E; [|reflexivity]. cbn [fst snd]. intros Ha.
    destruct (find_map_pre _ _ _ Hl E) as (x & Hx & P). destruct x; try discriminate. injection Hx as -> ->. cbn [pre_wfb] in P.
    apply andb_true_iff in P as [P _]. apply andb_true_iff in P as [P _]. apply andb_true_iff in P as [P1 _]. congruence.
  Qed.
End Getters.

Lemma forallb_present (P : ext -> bool) (sl : list (bool * ext)) :
  Forall (fun e => fst e = true -> P (snd e) = true) sl -> forallb P (map snd (filter fst sl)) = true.
Proof.
  induction 1 as [|[c x] sl Hx _ IH]; [reflexivity|]. cbn [filter fst]. destruct c; [|exact IH].
  cbn [map snd forallb]. cbn [fst snd] in Hx. rewrite (Hx eq_refl). exact IH.
Qed.

Lemma negb_is_nil_nonnilb {A} (l : list A) : negb (is_nil l) = nonnilb l. Proof. reflexivity. Qed.

Theorem project_wf data vers random sid suites comp l :
  vers < 65536 -> forallb u16_okb suites = true -> forallb pre_wfb l = true ->
  wf_msgb (project data vers random sid suites comp l) = true.
Proof.
  intros Hv Hs Hl. unfold wf_msgb.
  assert (Hcanon : canonb (project data vers random sid suites comp l) = true).
  { unfold canonb, project.
    cbn [ch_ticketSupported ch_sessionTicket ch_secureRenegotiationSupported ch_secureRenegotiation ch_cipherSuites
         ch_pskIdentities ch_pskBinders ch_keyShares ch_nextProtoNeg].
    repeat (apply andb_true_iff; split).
    - destruct (g_ticket l); reflexivity.
    - destruct (g_reneg l); [rewrite orb_true_r; reflexivity|apply orb_true_r].
    - destruct (existsb (N.eqb scsv) suites); reflexivity.
    - rewrite elems_slice_of. destruct (nonnilb (fst (g_psk l))) eqn:E; [reflexivity|]. exact (g_psk_default l Hl E).
    - now rewrite slice_of_not_some_nil.
    - now rewrite slice_of_not_some_nil.
    - reflexivity. }
  rewrite Hcanon. cbn [andb].
  assert (Hpres : forallb wf_extb (present (project data vers random sid suites comp l)) = true).
  { unfold present. apply forallb_present. unfold slots, project.
    cbn [ch_serverName ch_supportedPoints ch_ticketSupported ch_sessionTicket ch_secureRenegotiationSupported ch_secureRenegotiation
         ch_extendedMasterSecret ch_scts ch_earlyData ch_quicTransportParameters ch_encryptedClientHello ch_ocspStapling
         ch_supportedCurves ch_supportedSignatureAlgorithms ch_supportedSignatureAlgorithmsCert ch_alpnProtocols ch_supportedVersions
         ch_cookie ch_keyShares ch_pskModes ch_pskIdentities ch_pskBinders].
    rewrite !elems_slice_of.
    repeat apply Forall_cons. all: try apply Forall_nil.
    all: cbn [fst snd]; rewrite ?negb_is_nil_nonnilb; intros Hc; cbn [wf_extb]; rewrite ?Hc; try reflexivity.
    - (* server_name *) pose proof (g_sni_pre l Hl) as P. unfold sni_pre in P.
      unfold nonnilb in Hc. destruct (is_nil (g_sni l)); [discriminate|]. exact P.
    - (* supported_groups *) apply (g_list_pre l Hl); [now intros [] n [= <-]|exact Hc].
    - (* signature_algorithms *) apply (g_list_pre l Hl); [now intros [] n [= <-]|exact Hc].
    - (* signature_algorithms_cert *) apply (g_list_pre l Hl); [now intros [] n [= <-]|exact Hc].
    - (* alpn *) apply (g_list_pre l Hl); [now intros [] n [= <-]|exact Hc].
    - (* supported_versions *) apply (g_list_pre l Hl); [now intros [] n [= <-]|exact Hc].
    - (* key_share *) exact (g_shares_pre l Hl).
    - (* pre_shared_key *) destruct (g_psk_pre l Hl Hc) as (P1 & P2 & P3). rewrite P1, P2, P3. reflexivity. }
  rewrite Hpres. cbn [andb]. unfold project. cbn [ch_vers ch_cipherSuites].
  rewrite Hs, andb_true_r. apply N.ltb_lt. exact Hv.
Qed.

Theorem unmarshal_shape b m : unmarshal b = Some m -> bytes_ok b ->
  exists vers random sid suites comp l,
    m = project b vers random sid suites comp l /\
    vers < 65536 /\ forallb u16_okb suites = true /\ forallb pre_wfb l = true.
Proof.
  unfold unmarshal. intros E H.
  apply obind_some in E as ([h s0] & E0 & E).
  apply obind_some in E as ([vers s1] & E1 & E).
  apply obind_some in E as ([random s2] & E2 & E).
  apply obind_some in E as ([sid s3] & E3 & E).
  apply obind_some in E as ([cs s4] & E4 & E).
  apply obind_some in E as (suites & E5 & E).
  apply obind_some in E as ([comp s5] & E6 & E).
  destruct (rd_bytes_ok _ _ _ _ E0 H) as [_ H0]. destruct (rd_u16_ok _ _ _ E1 H0) as [Hv H1].
  destruct (rd_bytes_ok _ _ _ _ E2 H1) as [_ H2]. destruct (rd_u8lp_ok _ _ _ E3 H2) as [_ H3].
  destruct (rd_u16lp_ok _ _ _ E4 H3) as [Hcs H4]. pose proof (rd_u16s_ok _ _ E5 Hcs) as Hs.
  destruct (rd_u8lp_ok _ _ _ E6 H4) as [_ H5].
  destruct (is_nil s5).
  - injection E as <-. exists vers, random, sid, suites, comp, []. auto.
  - apply obind_some in E as ([exts s6] & E7 & E).
    destruct (negb (is_nil s6)); [discriminate|].
    apply obind_some in E as (l & E8 & E). injection E as <-.
    destruct (rd_u16lp_ok _ _ _ E7 H5) as [He _].
    exists vers, random, sid, suites, comp, l.
    repeat split; auto. exact (parse_exts_pre _ _ _ _ E8 He).
Qed.

(* clientHelloMsg with original cleared (what Marshal sees after `Raw = nil`) *)
Definition ch_clear_raw (m : clientHelloMsg) : clientHelloMsg :=
  {| ch_original := None; ch_vers := ch_vers m; ch_random := ch_random m; ch_sessionId := ch_sessionId m;
     ch_cipherSuites := ch_cipherSuites m; ch_compressionMethods := ch_compressionMethods m; ch_serverName := ch_serverName m;
     ch_ocspStapling := ch_ocspStapling m; ch_supportedCurves := ch_supportedCurves m; ch_supportedPoints := ch_supportedPoints m;
     ch_ticketSupported := ch_ticketSupported m; ch_sessionTicket := ch_sessionTicket m;
     ch_supportedSignatureAlgorithms := ch_supportedSignatureAlgorithms m;
     ch_supportedSignatureAlgorithmsCert := ch_supportedSignatureAlgorithmsCert m;
     ch_secureRenegotiationSupported := ch_secureRenegotiationSupported m; ch_secureRenegotiation := ch_secureRenegotiation m;
     ch_extendedMasterSecret := ch_extendedMasterSecret m; ch_alpnProtocols := ch_alpnProtocols m; ch_scts := ch_scts m;
     ch_supportedVersions := ch_supportedVersions m; ch_cookie := ch_cookie m; ch_keyShares := ch_keyShares m;
     ch_earlyData := ch_earlyData m; ch_pskModes := ch_pskModes m; ch_pskIdentities := ch_pskIdentities m;
     ch_pskBinders := ch_pskBinders m; ch_quicTransportParameters := ch_quicTransportParameters m;
     ch_encryptedClientHello := ch_encryptedClientHello m; ch_extensions := ch_extensions m; ch_nextProtoNeg := ch_nextProtoNeg m |}.

Lemma fields_clear_raw m : ch_fields (ch_clear_raw m) = ch_fields m.
Proof. reflexivity. Qed.
Lemma wf_msgb_fields m n : ch_fields m = ch_fields n -> wf_msgb m = wf_msgb n.
Proof.
  unfold wf_msgb, canonb, present, slots, ch_fields.
  (* one equation per field; random, sessionId and compressionMethods are not read *)
  intros [= -> _ _ -> _ -> -> -> -> -> -> -> -> -> -> -> -> -> -> -> -> -> -> -> -> -> -> ->]. reflexivity.
Qed.

(* private level: every accepted input whose re-marshal succeeds re-parses to the same field values *)
Theorem reparse_stable b m b' : bytes_ok b -> unmarshal b = Some m -> marshalMsg (ch_clear_raw m) = Ok b' ->
  exists m', unmarshal b' = Some m' /\ ch_fields m' = ch_fields m /\ ch_original m' = Some b'.
Proof.
  intros Hb E Em. destruct (unmarshal_shape _ _ E Hb) as (vers & random & sid & suites & comp & l & -> & Hv & Hs & Hl).
  assert (W : wf_msgb (ch_clear_raw (project b vers random sid suites comp l)) = true)
    by (rewrite (wf_msgb_fields _ _ (fields_clear_raw _)); now apply project_wf).
  destruct (marshal_unmarshal _ _ (wf_msgb_sound _ W) Em) as (m' & Hu & Hf & Ho & _).
  exists m'. split; [exact Hu|]. split; [|exact Ho]. now rewrite Hf, fields_clear_raw.
Qed.

Lemma slice_of_ne {A} (l : list A) : slice_of l <> Some [].
Proof. destruct l; discriminate. Qed.

(* public level: a view that is cleared and converted back has the field values of the struct it was made from,
   unless a rebuilt slice was empty but not nil *)
Lemma private_of_cleared_public m c : ch_keyShares m <> Some [] -> ch_pskIdentities m <> Some [] ->
  ch_getPublicPtr (Some m) = Some c -> ch_fields (CH_private_of (CH_clear_raw c)) = ch_fields m.
Proof.
  intros H1 H2 [= <-]. change (CH_private_of (CH_clear_raw ?c)) with (ch_clear_raw (CH_private_of c)).
  rewrite fields_clear_raw. unfold ch_fields, CH_private_of.
  cbn -[KeyShares_ToPrivate keyShares_ToPublic PskIdentities_ToPrivate pskIdentities_ToPublic].
  now rewrite (keyShares_priv_exact _ H1), (pskIdentities_priv_exact _ H2).
Qed.

Theorem unmarshal_public_wf b c : bytes_ok b -> UnmarshalClientHello b = Some c ->
  wf_msgb (CH_private_of (CH_clear_raw c)) = true.
Proof.
  unfold UnmarshalClientHello. intros Hb E. destruct (unmarshal b) as [m|] eqn:Em; [|discriminate].
  destruct (unmarshal_shape _ _ Em Hb) as (vers & random & sid & suites & comp & l & -> & Hv & Hs & Hl).
  rewrite (wf_msgb_fields _ (project b vers random sid suites comp l)); [now apply project_wf|].
  apply (private_of_cleared_public _ _) with (3 := E); apply slice_of_ne.
Qed.

(* The exception, an accepted ClientHello whose re-marshal fails:
   unmarshal sets secureRenegotiationSupported when the cipher suites contain TLS_EMPTY_RENEGOTIATION_INFO_SCSV
   (handshake_messages.go:470), and marshalMsg then emits a renegotiation_info extension (5 bytes) that the input did
   not have (:144).  With an extension block that is already 65535 bytes long the block no longer fits its 2-byte
   length prefix and the builder fails.  Witness: suites = [SCSV], one cookie extension with a 65529-byte cookie. *)
Definition scsv_witness : bytes :=
  let exts := [0; 44] ++ enc_u16 65531 ++ enc_u16 65529 ++ repeat 7 (N.to_nat 65529) in
  let body := [3; 3] ++ repeat 0 32 ++ [0] ++ [0; 2; 0; 255] ++ [1; 0] ++ enc_u16 65535 ++ exts in
  1 :: enc_u24 (len body) ++ body.

Lemma bytes_ok_repeat x n : x < 256 -> bytes_ok (repeat x n).
Proof. intros H. apply Forall_forall. intros y Hy. apply repeat_spec in Hy. now subst. Qed.

(* nothing is evaluated over the 65582 bytes: the padding is [repeat], the digits of the two lengths are remainders *)
Lemma scsv_witness_bytes : bytes_ok scsv_witness.
Proof.
  assert (M : forall x, x mod 256 < 256) by (intros x; now apply N.mod_lt).
  unfold scsv_witness, bytes_ok. cbv zeta. apply Forall_cons; [reflexivity|].
  repeat (apply Forall_app; split).
  all: try (apply bytes_ok_repeat; reflexivity).
  all: unfold enc_u24, enc_u16; repeat (constructor; [first [apply M|reflexivity]|]); constructor.
Qed.

(* [return bool]: left to find the type of the branches, the elaborator evaluates the scrutinee *)
Lemma scsv_witness_fact :
  match unmarshal scsv_witness return bool with
  | Some m => negb (is_ok (marshalMsg (ch_clear_raw m)))
  | None => false end = true.
Proof. vm_compute. reflexivity. Qed.
