From UV Require Import Base.Common Model.Wire.
(* lia with this hook also reasons about / and mod by literals, and the clean-up pass the hook ends with
   leaves it smaller certificates throughout; the default is put back at the end of the file *)
Ltac Zify.zify_post_hook ::= Z.div_mod_to_equations.

(* byte arithmetic stays folded under cbn, here and in every file built on the codec *)
Arguments N.modulo : simpl never.
Arguments N.div : simpl never.
Arguments N.mul : simpl never.
Arguments N.add : simpl never.
Arguments N.sub : simpl never.

Lemma blen_nil : blen [] = 0. Proof. reflexivity. Qed.
Lemma blen_cons x (l : bytes) : blen (x :: l) = 1 + blen l.
Proof. unfold blen. cbn [length]. lia. Qed.
Lemma blen_app (a b : bytes) : blen (a ++ b) = blen a + blen b.
Proof. unfold blen. rewrite app_length. lia. Qed.
Lemma blen_enc_u8 x : blen (enc_u8 x) = 1. Proof. reflexivity. Qed.
Lemma blen_enc_u16 x : blen (enc_u16 x) = 2. Proof. reflexivity. Qed.
Lemma blen_enc_u24 x : blen (enc_u24 x) = 3. Proof. reflexivity. Qed.
Lemma blen_enc_u32 x : blen (enc_u32 x) = 4. Proof. reflexivity. Qed.
Lemma blen_zbytes n : blen (zbytes n) = N.of_nat n.
Proof. induction n as [|n IH]; [reflexivity|]. cbn [zbytes]. rewrite blen_cons, IH. lia. Qed.
Lemma length_zbytes n : length (zbytes n) = n.
Proof. induction n as [|n IH]; [reflexivity|]. cbn [zbytes length]. now rewrite IH. Qed.
Lemma blen_enc_u8lp b : blen (enc_u8lp b) = 1 + blen b.
Proof. unfold enc_u8lp. now rewrite blen_app, blen_enc_u8. Qed.
Lemma blen_enc_u16lp b : blen (enc_u16lp b) = 2 + blen b.
Proof. unfold enc_u16lp. now rewrite blen_app, blen_enc_u16. Qed.
Lemma blen_enc_u24lp b : blen (enc_u24lp b) = 3 + blen b.
Proof. unfold enc_u24lp. now rewrite blen_app, blen_enc_u24. Qed.

(* every `for x := range l { write f(x) }` loop: total size is the sum of the element sizes *)
Lemma blen_flat_map {A} (f : A -> bytes) (l : list A) :
  blen (flat_map f l) = sum_map (fun x => blen (f x)) l.
Proof.
  induction l as [|x l IH]; [reflexivity|].
  cbn [flat_map sum_map]. now rewrite blen_app, IH.
Qed.
Lemma sum_map_ext {A} (f g : A -> N) l : (forall x, f x = g x) -> sum_map f l = sum_map g l.
Proof. intros H. induction l as [|x l IH]; [reflexivity|]. cbn [sum_map]. now rewrite H, IH. Qed.
Lemma sum_map_ge {A} (f : A -> N) l x : In x l -> f x <= sum_map f l.
Proof. induction l as [|y l IH]; [intros []|]. cbn [sum_map]. intros [->|Hin]; [lia|]. specialize (IH Hin). lia. Qed.
Lemma sum_map_const {A} (c : N) (l : list A) : sum_map (fun _ => c) l = c * N.of_nat (length l).
Proof. induction l as [|x l IH]; [cbn; lia|]. cbn [sum_map length]. rewrite IH. lia. Qed.
Lemma blen_flat_u16 (l : list N) : blen (flat_map enc_u16 l) = 2 * blen l.
Proof. rewrite blen_flat_map. unfold blen. rewrite (sum_map_const 2). reflexivity. Qed.

Lemma read_enc_u8 x r : x < 256 -> read_u8 (enc_u8 x ++ r) = Some (x, r).
Proof. intros H. cbn. f_equal. f_equal. lia. Qed.
Lemma read_enc_u16 x r : x < 65536 -> read_u16 (enc_u16 x ++ r) = Some (x, r).
Proof. intros H. cbn. f_equal. f_equal. lia. Qed.
Lemma read_enc_u24 x r : x < 16777216 -> read_u24 (enc_u24 x ++ r) = Some (x, r).
Proof. intros H. cbn. f_equal. f_equal. lia. Qed.
Lemma read_enc_u32 x r : x < 4294967296 -> read_u32 (enc_u32 x ++ r) = Some (x, r).
Proof. intros H. cbn. f_equal. f_equal. lia. Qed.

Lemma read_bytes_app b r : read_bytes (blen b) (b ++ r) = Some (b, r).
Proof.
  unfold read_bytes. rewrite blen_app.
  destruct (blen b <=? blen b + blen r) eqn:E; [|lia].
  unfold blen. rewrite Nat2N.id.
  rewrite firstn_app, skipn_app, Nat.sub_diag, firstn_all, skipn_all. cbn. now rewrite app_nil_r.
Qed.
Lemma read_bytes_blen n s a r : read_bytes n s = Some (a, r) -> blen a = n /\ s = a ++ r.
Proof.
  unfold read_bytes. destruct (n <=? blen s) eqn:E; [|discriminate].
  intros H. inversion H; subst. split.
  - unfold blen in *. rewrite firstn_length. lia.
  - now rewrite firstn_skipn.
Qed.

(* a length-prefixed vector parses back to exactly its content, for any reader/encoder pair of the
   prefix (read_uNlp and enc_uNlp unfold to this shape) *)
Lemma read_enc_lp (enc : N -> bytes) rd bound :
  (forall x r, x < bound -> rd (enc x ++ r) = Some (x, r)) ->
  forall b r, blen b < bound ->
  match rd ((enc (blen b) ++ b) ++ r) with Some (n, r') => read_bytes n r' | None => None end = Some (b, r).
Proof. intros Hrd b r H. rewrite <- app_assoc, Hrd by exact H. apply read_bytes_app. Qed.

Lemma read_enc_u8lp b r : blen b < 256 -> read_u8lp (enc_u8lp b ++ r) = Some (b, r).
Proof. exact (read_enc_lp enc_u8 read_u8 256 read_enc_u8 b r). Qed.
Lemma read_enc_u16lp b r : blen b < 65536 -> read_u16lp (enc_u16lp b ++ r) = Some (b, r).
Proof. exact (read_enc_lp enc_u16 read_u16 65536 read_enc_u16 b r). Qed.
Lemma read_enc_u24lp b r : blen b < 16777216 -> read_u24lp (enc_u24lp b ++ r) = Some (b, r).
Proof. exact (read_enc_lp enc_u24 read_u24 16777216 read_enc_u24 b r). Qed.
Lemma read_enc_u8lp_nil b : blen b < 256 -> read_u8lp (enc_u8lp b) = Some (b, []).
Proof. intros H. rewrite <- (app_nil_r (enc_u8lp b)). now apply read_enc_u8lp. Qed.
Lemma read_enc_u16lp_nil b : blen b < 65536 -> read_u16lp (enc_u16lp b) = Some (b, []).
Proof. intros H. rewrite <- (app_nil_r (enc_u16lp b)). now apply read_enc_u16lp. Qed.
Lemma read_enc_u24lp_nil b : blen b < 16777216 -> read_u24lp (enc_u24lp b) = Some (b, []).
Proof. intros H. rewrite <- (app_nil_r (enc_u24lp b)). now apply read_enc_u24lp. Qed.

Definition all_u16 (l : list N) : bool := forallb (fun x => x <? 65536) l.

Lemma read_u16s_flat l : all_u16 l = true -> read_u16s (flat_map enc_u16 l) = Some l.
Proof.
  induction l as [|x l IH]; [reflexivity|].
  cbn [all_u16 forallb]. intros H. apply andb_true_iff in H. destruct H as [Hx Hl].
  cbn [flat_map]. cbn [enc_u16 app read_u16s]. fold (all_u16 l) in Hl. rewrite (IH Hl).
  f_equal. f_equal. lia.
Qed.

Lemma empty_false_iff (s : bytes) : empty s = false <-> blen s <> 0.
Proof.
  destruct s as [|x s]; cbn [empty].
  - rewrite blen_nil. split; [discriminate|congruence].
  - rewrite blen_cons. split; [lia|reflexivity].
Qed.
Lemma empty_true_iff (s : bytes) : empty s = true <-> s = [].
Proof. destruct s; cbn; split; congruence. Qed.

Definition all_u8lp (nonempty : bool) (ps : list bytes) : bool :=
  forallb (fun p => (blen p <? 256) && (negb nonempty || negb (empty p))) ps.

Lemma read_u8lps_flat ne ps fuel :
  all_u8lp ne ps = true -> (length (flat_map enc_u8lp ps) <= fuel)%nat ->
  read_u8lps ne fuel (flat_map enc_u8lp ps) = Some ps.
Proof.
  revert fuel. induction ps as [|p ps IH]; intros fuel Hall Hfuel.
  - destruct fuel; reflexivity.
  - cbn [all_u8lp forallb] in Hall. apply andb_true_iff in Hall. destruct Hall as [Hp Hps].
    apply andb_true_iff in Hp. destruct Hp as [Hlen Hne].
    cbn [flat_map] in *. rewrite app_length in Hfuel. cbn [enc_u8lp enc_u8 app length] in Hfuel.
    destruct fuel as [|fuel]; [lia|].
    (* the encoding starts with the length byte, so the loop takes a step; then back to the encoder's form *)
    cbn [enc_u8lp enc_u8 app read_u8lps].
    change (read_u8lp (_ :: _)) with (read_u8lp (enc_u8lp p ++ flat_map enc_u8lp ps)). rewrite read_enc_u8lp by lia.
    assert (Hgo : ne && empty p = false) by (destruct ne, (empty p); cbn in *; congruence).
    rewrite Hgo. fold (all_u8lp ne ps) in Hps. rewrite IH; [reflexivity|exact Hps|lia].
Qed.

Ltac Zify.zify_post_hook ::= idtac.
