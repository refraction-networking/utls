(* C28 — GetOutKeystream returns the keystream of the next record.
   Model: Model/Keystream.v on the record layer of Model/Record.v. The AEAD is not modelled; its laws
   (prims_ok: stream form ciphertext = plaintext xor keystream(key, nonce) ++ tag, keystream independent of
   the requested length) are premises, so this is a partial proof. *)
From UV Require Import Base.Common Model.Record Model.Forge Model.Keystream
  Proofs.RecordP Proofs.RecordRT Proofs.RecordStream Proofs.KeystreamP.
Open Scope N_scope.

(* ks_next: in every state of the write side that a reader can follow — the state after the handshake and,
   by C28_history, after any history of writes — and for every n up to the number of plaintext bytes the next
   record will carry: the bytes returned by GetOutKeystream(n), XORed with the next n plaintext bytes written,
   are the n ciphertext bytes that follow the header and explicit nonce of the next application data record. *)
Theorem C28_ks_next : forall P, prims_ok P ->
  forall (c : conn) (rx : half) (ci : cipher) (b : bytes) (rnd : N -> bytes) (n : nat),
  wconn_ok c -> synced (cn_out c) rx -> aead_out c ci -> rnd_ok rnd ->
  h_seq (cn_out c) + len b < 18446744073709551616 ->
  (n <= N.to_nat (next_record_payload c b))%nat ->
  exists ks wire c2,
    get_out_keystream P c n = Ok (ks, c) /\
    conn_write P c b rnd = Ok (wire, len b, c2) /\
    firstn n (skipn (recordHeaderLen + explicit_nonce_len (cn_out c)) wire) = bxor (firstn n b) (firstn n ks).
Proof. intros P HP c rx ci b rnd n. exact (ks_next P HP c rx ci b rnd n). Qed.
Print Assumptions C28_ks_next.

(* ks_pure: the call leaves the connection exactly as it was (same cipher state, nonce mask restored, same
   sequence number), hence what is sent afterwards and whether the peer accepts it cannot depend on it. *)
Theorem C28_ks_pure : forall P (c : conn) (ci : cipher) (n : nat) (out : bytes) (c' : conn),
  aead_out c ci -> get_out_keystream P c n = Ok (out, c') -> c' = c.
Proof. exact ks_pure. Qed.
Print Assumptions C28_ks_pure.

(* the premises of C28_ks_next survive every Write: the statement holds at every sequence position *)
Theorem C28_history : forall P, prims_ok P ->
  forall (c : conn) (rx : half) (b : bytes) (rnd : N -> bytes),
  wconn_ok c -> synced (cn_out c) rx -> rnd_ok rnd -> h_seq (cn_out c) + len b < 18446744073709551616 ->
  exists wire c2 rx2, conn_write P c b rnd = Ok (wire, len b, c2) /\ wconn_ok c2 /\ synced (cn_out c2) rx2.
Proof.
  intros P HP c rx b rnd Hw Hs Hr Hq.
  destruct (conn_write_ok P HP c b rnd rx Hw Hs Hr Hq) as (recs & c2 & rx2 & A & _ & B & _ & C & _).
  eauto 6.
Qed.
Print Assumptions C28_history.

(* a connection without an AEAD gets an error, not bytes *)
Theorem C28_non_aead : forall P (c : conn) (n : nat) (ci : cipher),
  h_cipher (cn_out c) = Some ci -> c_kind ci = KCbc \/ c_kind ci = KStream ->
  get_out_keystream P c n = Err e_not_aead.
Proof. intros P c n ci H [K | K]; unfold get_out_keystream; rewrite H, K; reflexivity. Qed.

Definition ex_conn (vers : N) (ci : cipher) (seq : N) : conn :=
  mkConn vers true 4865 half0 (mkHalf vers (Some ci) None seq None None []) [] [] 0 0 0 false.
Definition ex_gcm := mkCipher KAeadPrefix algGCM (zeros 16) [1; 2; 3; 4] false 0 0.
Definition ex_xor := mkCipher KAeadXor algCHACHA (zeros 32) [1; 2; 3; 4; 5; 6; 7; 8; 9; 10; 11; 12] false 0 0.

Example C28_ex_premises_gcm :
  wconn_ok (ex_conn V12 ex_gcm 7) /\ synced (cn_out (ex_conn V12 ex_gcm 7)) (cn_out (ex_conn V12 ex_gcm 7)) /\
  aead_out (ex_conn V12 ex_gcm 7) ex_gcm.
Proof.
  unfold wconn_ok, synced, half_wf, cipher_match, aead_out, vers_ok; cbn.
  repeat split; auto; try discriminate.
Qed.
Example C28_ex_premises_tls13 :
  wconn_ok (ex_conn V13 ex_xor 0) /\ synced (cn_out (ex_conn V13 ex_xor 0)) (cn_out (ex_conn V13 ex_xor 0)) /\
  aead_out (ex_conn V13 ex_xor 0) ex_xor.
Proof.
  unfold wconn_ok, synced, half_wf, cipher_match, aead_out, vers_ok; cbn.
  repeat split; auto; try discriminate.
Qed.
Example C28_ex_run :
  match get_out_keystream toy (ex_conn V12 ex_gcm 7) 5 with
  | Ok (ks, c) => (len ks =? 21) && (h_seq (cn_out c) =? 7)
  | _ => false
  end = true.
Proof. vm_compute. reflexivity. Qed.
