(* C34 — arbitrary client input never crashes or hangs the server.
   PARTIAL: what is proved is the uTLS-specific part a client can reach on a server — the message-type switch with
   its two extra types, the two uTLS unmarshalers (every index/slice expression with Go's bounds rule, down to
   cryptobyte's String.read), and the type assertion at each of the server's 11 read points.  The upstream
   unmarshalers of the standard messages are a Section variable ([std], any total boolean function) and the server
   state machine between the read points is not modelled; those are covered by the mutation runs of the runner. *)
From UV Require Import Base.Common Model.RobustSrv Proofs.RobustSrvP.
Open Scope N_scope.

(* the two uTLS unmarshalers return true or false on ALL byte strings: no panic, and the extension loop ends *)
Theorem C34_client_ee_unmarshal_no_panic : forall data, exists r, cee_unmarshal data = Ok r.
Proof. exact cee_unmarshal_total. Qed.
Print Assumptions C34_client_ee_unmarshal_no_panic.
Theorem C34_compressed_cert_unmarshal_no_panic : forall data, exists r, cc_unmarshal data = Ok r.
Proof. exact cc_unmarshal_total. Qed.
Print Assumptions C34_compressed_cert_unmarshal_no_panic.

(* readHandshake on whatever the handshake buffer holds, for either role, any version state and any behaviour of the
   standard unmarshalers: needs more input, sends an alert, or returns a message — never panics *)
Theorem C34_server_no_panic : forall std is_client haveVers vers hand,
  exists o, read_handshake std is_client haveVers vers hand = Ok o.
Proof. exact read_handshake_total. Qed.
Print Assumptions C34_server_no_panic.
Theorem C34_server_step_no_panic : forall std rp haveVers vers hand, exists o, server_step std rp haveVers vers hand = Ok o.
Proof.
  intros std rp haveVers vers hand. unfold server_step.
  destruct (read_handshake_total std false haveVers vers hand) as (o & ->). cbn [bind]. eauto.
Qed.
Print Assumptions C34_server_step_no_panic.

(* at every server read point a message whose type byte is 8 or 25 is never accepted *)
Theorem C34_server_rejects_utls_types : forall std rp haveVers vers hand o d0,
  server_step std rp haveVers vers hand = Ok o -> nth_error hand 0 = Some d0 -> d0 = 8 \/ d0 = 25 ->
  o = SNeedMore \/ o = SAlert alert_internal_error \/ o = SAlert alert_unexpected_message.
Proof. exact server_rejects_utls_types. Qed.
Print Assumptions C34_server_rejects_utls_types.
(* ... and once it is completely buffered and within maxHandshake the answer is exactly unexpected_message,
   whether or not its body parses *)
Theorem C34_server_rejects_complete_utls_message : forall std rp haveVers vers d0 d1 d2 d3 rest,
  d0 = 8 \/ d0 = 25 -> d1 * 65536 + d2 * 256 + d3 <= maxHandshake ->
  (N.to_nat (d1 * 65536 + d2 * 256 + d3) <= length rest)%nat ->
  server_step std rp haveVers vers (d0 :: d1 :: d2 :: d3 :: rest) = Ok (SAlert alert_unexpected_message).
Proof.
  intros std rp hv vers d0 d1 d2 d3 rest Hd Hn Hl. unfold server_step, read_handshake.
  assert (L : (length (d0 :: d1 :: d2 :: d3 :: rest) <? 4)%nat = false) by reflexivity. rewrite L.
  assert (Hc : (if hv then do d <- idx (d0 :: d1 :: d2 :: d3 :: rest) 0; Ok (d =? 11) else Ok false) = Ok false).
  { destruct hv; [|reflexivity]. cbn [idx nth_error bind]. destruct Hd as [-> | ->]; reflexivity. }
  rewrite Hc. cbn [bind idx nth_error].
  destruct (N.ltb_spec maxHandshake (d1 * 65536 + d2 * 256 + d3)) as [H|H]; [lia|].
  destruct (Nat.ltb_spec (length (d0 :: d1 :: d2 :: d3 :: rest)) (4 + N.to_nat (d1 * 65536 + d2 * 256 + d3))) as [H'|H'];
    [cbn [length] in H'; lia|].
  cbn [Nat.add firstn]. unfold unmarshal_handshake_message. cbn [idx nth_error bind].
  assert (Ht : exists t, type_of_byte false vers d0 = Some t /\ (t = T_utlsClientEncryptedExtensions \/ t = T_utlsCompressedCertificate)).
  { destruct Hd as [-> | ->]; cbn; eauto. }
  destruct Ht as (t & Ht & Htt). rewrite Ht.
  match goal with |- context [unmarshal_of ?s' ?t' ?d] => destruct (unmarshal_of_total s' t' d) as (b & ->) end.
  cbn [bind]. destruct b; cbn [bind]; [rewrite (dispatch_utls rp t Htt)|]; reflexivity.
Qed.
Print Assumptions C34_server_rejects_complete_utls_message.
(* the Go types behind the two type bytes are expected nowhere *)
Theorem C34_utls_types_expected_nowhere : forall rp t,
  t = T_utlsClientEncryptedExtensions \/ t = T_utlsCompressedCertificate -> dispatch rp t = SAlert alert_unexpected_message.
Proof. exact dispatch_utls. Qed.
Print Assumptions C34_utls_types_expected_nowhere.

(* non-vacuity: a well-formed client EncryptedExtensions with ALPS parses, and is refused when the server waits for Finished *)
Definition ex_cee : bytes := [8; 0; 0; 10; 0; 8; 68; 105; 0; 4; 1; 2; 3; 4].
Example C34_ex_parses : cee_unmarshal ex_cee = Ok (Some {| ee_codepoint := 17513; ee_settings := [1; 2; 3; 4] |}).
Proof. vm_compute. reflexivity. Qed.
Example C34_ex_refused : server_step (fun _ _ => true) RP_Finished13 true 772 ex_cee = Ok (SAlert alert_unexpected_message).
Proof. vm_compute. reflexivity. Qed.
Example C34_ex_need_more : server_step (fun _ _ => true) RP_ClientHello false 0 [25; 0; 1] = Ok SNeedMore.
Proof. vm_compute. reflexivity. Qed.
Example C34_ex_accepts_expected : server_step (fun _ _ => true) RP_Finished13 true 772 [20; 0; 0; 1; 7] = Ok (SAccept T_finished).
Proof. vm_compute. reflexivity. Qed.
