(* C29 — Roller prefers the last working fingerprint and tries each at most once.
   For every configured id list without duplicates, every outcome of the shuffle
   (any permutation), every remembered working id, every TCP connect latency (or refusal) and TCP dial timeout, every
   sequence of generated seeds, every handshake timeout, every starting time and
   every way the peer treats the fingerprints it sees (serve / refuse after any
   delay, or stay silent until the timeout). *)
From UV Require Import Base.Common Model.Roller Proofs.RollerP.
From Coq Require Import Permutation.

Section C29.
  Variables (ids sh : list hid) (working : option hid) (tcpd : nat -> tcp_beh) (Dt : N) (gen : nat -> N)
            (T : N) (peer : hid -> peer_beh) (now : N).
  Hypothesis ids_nodup : NoDup ids.
  Hypothesis sh_perm : Permutation ids sh.
  Notation r := (dial sh working tcpd Dt gen T peer now).

  (* starts with the remembered id; the fingerprint sent first is the one that id denotes *)
  Theorem C29_first : forall w, working = Some w ->
    tried r = [] \/ (hd_error (tried r) = Some w /\ hd_error (map fst (wire r)) = Some (conn_id gen 0 w)).
  Proof. exact (dial_first tcpd Dt gen T peer sh working now). Qed.

  (* each configured id (or the remembered one) at most once; one ClientHello per id tried *)
  Theorem C29_once : NoDup (tried r) /\ incl (tried r) (pool ids working) /\
                     map fst (wire r) = fps gen 0 (tried r).
  Proof.
    destruct (dial_spec tcpd Dt gen T peer sh working now) as [(W & _ & (rest & E & _) & _) _].
    pose proof (prioritise_pool ids sh working sh_perm) as P. rewrite E in P.
    split; [|split; [|exact W]].
    - apply (NoDup_app_l _ rest). apply (Permutation_NoDup (Permutation_sym P)), pool_nodup, ids_nodup.
    - intros x Hx. apply (Permutation_in x P), in_or_app. left. exact Hx.
  Qed.

  (* every attempt gets the full timeout: how it ends depends only on what the peer does with
     that fingerprint, not on the time earlier attempts took *)
  Theorem C29_own_deadline : Forall (fun a => snd a = hs_outcome T (peer (fst a))) (wire r).
  Proof. apply (dial_spec tcpd Dt gen T peer sh working now). Qed.

  (* returns the first connection whose handshake succeeds and records that connection's id
     (with the seed that defines its fingerprint) as working *)
  Theorem C29_result : forall f, result r = Connected f ->
    exists before, wire r = before ++ [(f, HsOk)] /\ would_succeed T (peer f) = true /\
                   Forall (fun a => would_succeed T (peer (fst a)) = false) before /\
                   working' r = Some f /\ unseeded f = false.
  Proof.
    intros f R. destruct (dial_spec tcpd Dt gen T peer sh working now) as [(_ & _ & (rest & _ & C) & _) Hw].
    rewrite R in C, Hw. destruct C as (before & E & Hf & Hs & Hu). exists before. auto.
  Qed.

  (* ... so that the next Dial, whatever its shuffle, seeds, peer and timeout, starts with the
     very fingerprint that worked *)
  Theorem C29_next_starts_with_working : forall f sh2 tcpd2 Dt2 gen2 T2 peer2 now2, result r = Connected f ->
    let r2 := dial sh2 (working' r) tcpd2 Dt2 gen2 T2 peer2 now2 in
    tried r2 = [] \/ hd_error (map fst (wire r2)) = Some f.
  Proof.
    intros f sh2 tcpd2 Dt2 gen2 T2 peer2 now2 R. destruct (C29_result f R) as (_ & _ & _ & _ & W & U).
    rewrite W. cbn zeta.
    destruct (dial_first tcpd2 Dt2 gen2 T2 peer2 sh2 (Some f) now2 f eq_refl) as [H|[_ H]]; [left; exact H|right].
    rewrite H, conn_id_idem by exact U. reflexivity.
  Qed.

  (* the TCP dial error is returned at once, and only when that dial fails on its own terms: the j-th connect is
     refused or takes at least TcpDialTimeout - time spent in earlier attempts does not count against it *)
  Theorem C29_tcp_error : forall j, result r = TcpError j ->
    tcp_connects Dt (tcpd j) = false /\ length (tried r) = j /\
    Forall (fun a => would_succeed T (peer (fst a)) = false) (wire r) /\ working' r = working.
  Proof.
    intros j R. destruct (dial_spec tcpd Dt gen T peer sh working now) as [(_ & _ & (rest & _ & C) & _) Hw].
    rewrite R in C, Hw. destruct C as (Hf & -> & Hj). auto.
  Qed.

  (* hence a TCP dial error against a peer that does accept connections takes at least the whole TcpDialTimeout
     on top of the whole TlsHandshakeTimeout of every handshake that timed out before *)
  Theorem C29_tcp_error_takes_time : forall j d, result r = TcpError j -> tcpd j = Connects d ->
    now + T * n_timeouts (wire r) + Dt <= t_end r.
  Proof.
    intros j d R E. destruct (dial_spec tcpd Dt gen T peer sh working now) as [(_ & _ & _ & D) _].
    rewrite R, E in D. exact D.
  Qed.

  Theorem C29_exhausted : result r = AllFailed \/ result r = NoIds ->
    Permutation (tried r) (pool ids working) /\
    Forall (fun a => would_succeed T (peer (fst a)) = false) (wire r) /\ working' r = working.
  Proof.
    intros R. destruct (dial_spec tcpd Dt gen T peer sh working now) as [(_ & _ & (rest & E & C) & _) Hw].
    pose proof (prioritise_pool ids sh working sh_perm) as P.
    destruct R as [R|R]; rewrite R in C, Hw; destruct C as [-> Hf]; rewrite E, app_nil_r in P; auto.
  Qed.

  (* the decidable observer check used against the implementation is sound for the model,
     provided generated seeds do not collide with configured ones *)
  Hypothesis gen_fresh : forall k y, In y (pool ids working) -> seed y <> Some (gen k).
  Theorem C29_trace_ok :
    trace_ok ids working T (map (fun a => (fst a, peer (fst a))) (wire r))
             (conn_of (result r)) (is_tcp_err (result r)) = true.
  Proof.
    destruct C29_once as (N & I & W). unfold trace_ok.
    rewrite map_map. cbn [fst]. rewrite <- (map_map fst (attr (pool ids working))), W, (attr_fps gen _ gen_fresh _ 0 I).
    destruct (dial_spec tcpd Dt gen T peer sh working now) as [(_ & _ & (rest & E & _) & _) _].
    rewrite (obs_fixed peer gen 0 _ _ W), (nodupb_spec _ N), (subsetb_spec _ _ I), (first_ok sh working _ rest E).
    cbn [andb]. destruct (result r) as [i|j| |] eqn:R; cbn [conn_of is_tcp_err negb andb orb].
    3,4: assert (X : result r = AllFailed \/ result r = NoIds) by auto.
    3,4: destruct (C29_exhausted X) as (P & Hf & _).
    3,4: rewrite (forallb_obs T peer _ Hf), map_length, <- (map_length fst), W, fps_length, (Permutation_length P).
    3,4: apply Nat.eqb_refl.
    - destruct (C29_result i R) as (before & -> & Hi & Hf & _). rewrite map_app. cbn [map fst]. rewrite rev_unit.
      cbn [fst snd]. rewrite hid_eqb_refl, Hi, <- map_rev. apply forallb_obs, Forall_rev, Hf.
    - destruct (C29_tcp_error j R) as (_ & _ & Hf & _). rewrite (forallb_obs T peer _ Hf). reflexivity.
  Qed.
  Theorem C29_time_ok : (forall k, tcpd k <> Refused) ->
    time_ok T Dt (map (fun a => (fst a, peer (fst a))) (wire r)) (is_tcp_err (result r)) true (t_end r - now) = true.
  Proof.
    intros Hl. unfold time_ok. destruct (result r) as [i|j| |] eqn:R; cbn [is_tcp_err andb]; try reflexivity.
    destruct (tcpd j) as [d|] eqn:E; [|destruct (Hl j E)].
    pose proof (C29_tcp_error_takes_time j d R E) as D. rewrite (n_timeouts_obs T peer _ C29_own_deadline).
    apply N.leb_le. clear - D. lia.
  Qed.
End C29.
Print Assumptions C29_first.
Print Assumptions C29_once.
Print Assumptions C29_own_deadline.
Print Assumptions C29_result.
Print Assumptions C29_next_starts_with_working.
Print Assumptions C29_tcp_error.
Print Assumptions C29_tcp_error_takes_time.
Print Assumptions C29_time_ok.
Print Assumptions C29_exhausted.
Print Assumptions C29_trace_ok.

(* ids 1 = a fixed parrot, 2 = an unseeded randomized id, 3 = a fixed parrot; the remembered id is
   the randomized one with seed 7.  The peer is silent towards that fingerprint, refuses parrot 3,
   serves everything else after 5 time units; timeout 300. *)
Definition ex_peer (f : hid) : peer_beh :=
  if hid_eqb f (mkHid true 2 (Some 7)) then Silent else if base f =? 3 then Refuse 1 else Serve 5.
Example C29_ex :
  let r := dial [mkHid false 3 None; mkHid false 1 None; mkHid true 2 None] (Some (mkHid true 2 (Some 7)))
                (fun _ => Connects 1) 200 (fun k => 100 + N.of_nat k) 300 ex_peer 0 in
  tried r = [mkHid true 2 (Some 7); mkHid false 3 None; mkHid false 1 None] /\
  wire r = [(mkHid true 2 (Some 7), HsTimeout); (mkHid false 3 None, HsRejected); (mkHid false 1 None, HsOk)] /\
  result r = Connected (mkHid false 1 None) /\ working' r = Some (mkHid false 1 None).
Proof. vm_compute. auto. Qed.
(* an unseeded randomized id is served: the recorded id carries the generated seed, and the next
   Dial (new seeds 200, 201, ...) sends that same fingerprint first *)
Example C29_ex_seed :
  let r := dial [mkHid true 2 None; mkHid false 3 None] None (fun _ => Connects 1) 200 (fun k => 100 + N.of_nat k) 300 ex_peer 0 in
  let r2 := dial [mkHid false 3 None; mkHid true 2 None] (working' r) (fun _ => Connects 1) 200 (fun k => 200 + N.of_nat k) 300 ex_peer 0 in
  working' r = Some (mkHid true 2 (Some 100)) /\ map fst (wire r2) = [mkHid true 2 (Some 100)].
Proof. vm_compute. auto. Qed.
Example C29_ex_hyp :
  let ids := [mkHid false 1 None; mkHid true 2 None; mkHid false 3 None] in
  let sh := [mkHid false 3 None; mkHid false 1 None; mkHid true 2 None] in
  NoDup ids /\ Permutation ids sh /\
  (forall k y, In y (pool ids (Some (mkHid true 2 (Some 7)))) -> seed y <> Some (100 + N.of_nat k)).
Proof.
  cbn zeta. split; [|split].
  - repeat constructor; cbn; intuition discriminate.
  - apply Permutation_sym.
    change [mkHid false 3 None; mkHid false 1 None; mkHid true 2 None] with ([mkHid false 3 None] ++ [mkHid false 1 None; mkHid true 2 None]).
    apply Permutation_app_comm.
  - intros k y Hy. vm_compute in Hy. destruct Hy as [<-|[<-|[<-|[<-|[]]]]]; cbn [seed]; try discriminate.
    intros H. assert (E : forall a b : N, Some a = Some b -> a = b) by (intros a b [= ->]; reflexivity).
    apply E in H. lia.
Qed.
