(* C21 over Model/Decompress.v. ReadFull on a reader that hands out its bytes in arbitrary non-empty chunks delivers
   the first [want] bytes (read_full_spec); decompress_spec then gives decompressCert in closed form, and the
   theorems read their cases off it. *)
From UV Require Import Base.Common Model.Decompress.

Lemma be_split x : x / 65536 * 65536 + u8 (x / 256) * 256 + u8 x = x.
Proof. unfold u8. pose proof (N.div_mod x 65536). pose proof (N.mod_mul_r x 256 256). lia. Qed.
Lemma be16_u8 x : x < 65536 -> u8 (x / 256) * 256 + u8 x = x.
Proof. intros H. rewrite <- (be_split x) at 3. rewrite (N.div_small x 65536 H). reflexivity. Qed.
Lemma be24_u8 x : x < 16777216 -> u8 (x / 65536) * 65536 + u8 (x / 256) * 256 + u8 x = x.
Proof.
  intros H. rewrite <- (be_split x) at 4. unfold u8 at 1. rewrite N.mod_small; [reflexivity|].
  apply N.div_lt_upper_bound; [discriminate|exact H].
Qed.

Lemma firstn_dlen_app (b r : bytes) : firstn (N.to_nat (dlen b)) (b ++ r) = b.
Proof. unfold dlen. rewrite Nat2N.id, firstn_app, Nat.sub_diag, firstn_all. apply app_nil_r. Qed.
Lemma dlen_le_app (b r : bytes) : (dlen b <=? dlen (b ++ r)) = true.
Proof. unfold dlen. rewrite app_length. lia. Qed.

(* unmarshal skips the four header bytes unread, so they stay variables: with the real length field
   [dlen body] in their place every step would carry the whole body three times *)
Lemma cc_unmarshal_enc t len alg ulen data trailing : alg < 65536 -> ulen < 16777216 -> dlen data < 16777216 ->
  cc_unmarshal ((t :: dbe24 len ++ dbe16 alg ++ dbe24 ulen ++ dbe24 (dlen data) ++ data) ++ trailing) = Some (mkCC alg ulen data).
Proof.
  intros Ha Hu Hd. unfold dbe16, dbe24. cbn [app]. unfold cc_unmarshal.
  rewrite be16_u8, !be24_u8, dlen_le_app, firstn_dlen_app by assumption. reflexivity.
Qed.

Definition sum (l : list nat) : nat := fold_right Nat.add 0%nat l.
Definition good_reader (out : bytes) (chunks : list nat) : Prop :=
  Forall (fun c => (0 < c)%nat) chunks /\ sum chunks = length out.
Definition wfr (r : reader) : Prop := good_reader (r_out r) (r_chunks r).

Lemma firstn_add {A} (a b : nat) (l : list A) : firstn (a + b) l = firstn a l ++ firstn b (skipn a l).
Proof. revert l. induction a as [|a IH]; intros l; [reflexivity|]. destruct l as [|x l]; cbn; [destruct b; reflexivity|]. rewrite IH. reflexivity. Qed.
Lemma skipn_add {A} (a b : nat) (l : list A) : skipn (a + b) l = skipn b (skipn a l).
Proof. revert l. induction a as [|a IH]; intros l; [reflexivity|]. destruct l as [|x l]; cbn; [destruct b; reflexivity|]. apply IH. Qed.

(* ReadFull on a well-formed reader, whatever the chunking: with enough bytes it delivers exactly the first [want]
   and leaves the rest; with fewer it reports an error, however the stream ends *)
Lemma read_full_spec ee : forall fuel r want, wfr r -> (length (r_chunks r) < fuel)%nat ->
  exists d e r', read_full ee fuel r want = (d, e, r') /\
    if (want <=? length (r_out r))%nat
    then d = firstn want (r_out r) /\ e = ENone /\ wfr r' /\ r_out r' = skipn want (r_out r) /\ r_end r' = r_end r
    else e <> ENone.
Proof.
  induction fuel as [|f IH]; intros r want [Hpos Hsum] Hf; [lia|].
  destruct want as [|w]; [exists [], ENone, r; cbn; repeat split; auto|].
  cbn [read_full]. unfold read1. destruct r as [out chunks e]. cbn [r_out r_chunks r_end] in *.
  destruct chunks as [|c cs].
  { destruct out; [|discriminate]. destruct e; eexists _, _, _; (split; [reflexivity | discriminate]). }
  inversion Hpos as [|? ? Hc Hcs]; subst. cbn [sum fold_right] in Hsum. fold (sum cs) in Hsum.
  assert (Hlen : length (firstn (Nat.min c (S w)) out) = Nat.min c (S w)) by (apply firstn_length_le; lia).
  rewrite Hlen. destruct (Nat.leb_spec (S w) (Nat.min c (S w))) as [Efull|Efull].
  - (* the first chunk fills the buffer *)
    replace (S w <=? length out)%nat with true by lia. rewrite Nat.min_r by lia.
    eexists _, _, _. split; [reflexivity|]. repeat split; cbn [r_out r_chunks].
    + destruct (Nat.leb_spec c (S w)); [exact Hcs | constructor; [lia | exact Hcs]].
    + rewrite skipn_length. destruct (Nat.leb_spec c (S w)); cbn [sum fold_right]; fold (sum cs); lia.
  - rewrite Nat.min_l by lia. replace (c <=? S w)%nat with true by lia.
    destruct (IH (mkR (skipn c out) cs e) (S w - c)%nat) as (d2 & e2 & r2 & Hr & H2).
    { split; cbn [r_chunks r_out]; [exact Hcs | rewrite skipn_length; lia]. }
    { cbn [r_chunks length] in *. lia. }
    cbn [r_out] in H2. rewrite skipn_length in H2.
    replace (S w - c <=? length out - c)%nat with (S w <=? length out)%nat in H2 by lia.
    destruct (S w <=? length out)%nat eqn:Ew.
    + (* more chunks follow, so this Read reports no error *)
      assert (He : match cs, e with [], REof => if ee then EEOF else ENone | _, _ => ENone end = ENone)
        by (destruct cs; [cbn in Hsum; lia | reflexivity]).
      rewrite He, Hr. destruct H2 as (-> & -> & Hwf & Hout & Hend).
      eexists _, _, _. split; [reflexivity|]. split; [|split; [reflexivity | split; [exact Hwf | split; [|exact Hend]]]].
      * replace (S w) with (c + (S w - c))%nat at 2 by lia. apply eq_sym, firstn_add.
      * rewrite Hout. replace (S w) with (c + (S w - c))%nat at 2 by lia. apply eq_sym, skipn_add.
    + destruct (match cs, e with [], REof => if ee then EEOF else ENone | _, _ => ENone end).
      * rewrite Hr. eexists _, _, _. split; [reflexivity | exact H2].
      * eexists _, _, _. split; [reflexivity|]. destruct (0 <? c)%nat; discriminate.
      * eexists _, _, _. split; [reflexivity | discriminate].
Qed.

Section Cert.
Variable C : Type.
Variable parse_cert : bytes -> option C.
Notation decompress_cert := (decompress_cert C parse_cert).
Notation decompress_cert_v0 := (decompress_cert_v0 C parse_cert).

Definition advertisedb (adv : list N) (alg : N) : bool := existsb (N.eqb alg) adv.

Lemma pre_checks_eq adv alg open_ok :
  pre_checks adv alg open_ok = if advertisedb adv alg && known_alg alg && open_ok then Ok tt else Err alertBadCertificate.
Proof. unfold pre_checks, advertisedb. destruct (existsb _ adv), (known_alg alg), open_ok; reflexivity. Qed.

(* closed form of the fixed decompressCert on a well-formed reader: every refusal is bad_certificate *)
Theorem decompress_spec ee adv alg declared open_ok r : wfr r ->
  decompress_cert ee adv alg declared open_ok r =
    if advertisedb adv alg && known_alg alg && open_ok
       && (declared <=? maxHandshakeCertificateMsg) && (N.to_nat declared =? length (r_out r))%nat
       && match r_end r with REof => true | RErr => false end
    then match parse_cert (header declared ++ r_out r) with Some c => Ok c | None => Err alertUnexpectedMessage end
    else Err alertBadCertificate.
Proof.
  intros Hwf. unfold Decompress.decompress_cert. rewrite pre_checks_eq.
  destruct (advertisedb adv alg && known_alg alg && open_ok); [|reflexivity]. cbn [bind andb].
  destruct (maxHandshakeCertificateMsg <? declared) eqn:Ecap.
  - replace (declared <=? maxHandshakeCertificateMsg) with false by lia. reflexivity.
  - replace (declared <=? maxHandshakeCertificateMsg) with true by lia. cbn [andb].
    set (want := N.to_nat declared).
    destruct (read_full_spec ee (S (length (r_chunks r))) r want Hwf (Nat.lt_succ_diag_r _)) as (d & e & r1 & -> & H).
    destruct (Nat.leb_spec want (length (r_out r))) as [Hle | Hgt].
    + destruct H as (-> & -> & Hwf1 & Hout1 & Hend1).
      destruct (want =? length (r_out r))%nat eqn:Eeq.
      * apply Nat.eqb_eq in Eeq. destruct Hwf1 as [Hpos1 Hsum1].
        assert (Hnil : r_out r1 = []) by (rewrite Hout1, Eeq; apply skipn_all).
        assert (Hch : r_chunks r1 = []).
        { rewrite Hnil in Hsum1. destruct (r_chunks r1) as [|c cs]; [reflexivity|].
          inversion Hpos1; subst. cbn in Hsum1. lia. }
        rewrite Hch. cbn [length read_full]. unfold read1. rewrite Hch. rewrite Hend1.
        rewrite Eeq, firstn_all. cbn [andb].
        destruct (r_end r); cbn; reflexivity.
      * apply Nat.eqb_neq in Eeq. cbn [andb].
        (* a byte is left, so the probe reads it *)
        destruct (read_full_spec ee _ r1 1 Hwf1 (Nat.lt_succ_diag_r _)) as (p & pe & r2 & -> & H).
        replace (1 <=? length (r_out r1))%nat with true in H by (rewrite Hout1, skipn_length; lia).
        destruct H as (-> & -> & _). destruct (r_out r1) eqn:Ho; [|reflexivity].
        apply (f_equal (@length _)) in Hout1. rewrite skipn_length in Hout1. cbn in Hout1. lia.
    + replace (want =? length (r_out r))%nat with false by lia. cbn [andb].
      destruct e; [congruence | reflexivity | reflexivity].
Qed.

Theorem cc_mismatch ee adv alg declared open_ok out chunks e :
  good_reader out chunks -> declared <> dlen out ->
  decompress_cert ee adv alg declared open_ok (mkR out chunks e) = Err alertBadCertificate.
Proof.
  intros Hg Hne. rewrite decompress_spec by exact Hg. cbn [r_out].
  replace (N.to_nat declared =? length out)%nat with false by (unfold dlen in Hne; lia).
  rewrite andb_false_r. reflexivity.
Qed.

Theorem cc_shorter ee adv alg declared out chunks e :
  good_reader out chunks -> dlen out < declared ->
  decompress_cert ee adv alg declared true (mkR out chunks e) = Err alertBadCertificate.
Proof. intros Hg Hlt. apply cc_mismatch; [exact Hg | lia]. Qed.

Theorem cc_unadvertised ee adv alg declared open_ok r :
  advertisedb adv alg = false -> decompress_cert ee adv alg declared open_ok r = Err alertBadCertificate.
Proof. intros Ha. unfold Decompress.decompress_cert. rewrite pre_checks_eq, Ha. reflexivity. Qed.

Theorem cc_only_the_compressed ee adv alg declared open_ok out chunks e c :
  good_reader out chunks ->
  decompress_cert ee adv alg declared open_ok (mkR out chunks e) = Ok c ->
  advertisedb adv alg = true /\ declared = dlen out /\ e = REof /\ declared <= maxHandshakeCertificateMsg /\
  parse_cert (header declared ++ out) = Some c.
Proof.
  intros Hg. rewrite decompress_spec by exact Hg. cbn [r_out r_end].
  destruct (_ && _) eqn:E; [|discriminate]. rewrite !andb_true_iff in E. destruct E as [[[[[Ha _] _] Hcap] Hlen] He].
  destruct (parse_cert _) eqn:P; [|discriminate]. intros [= <-].
  apply Nat.eqb_eq in Hlen. destruct e; [|discriminate]. unfold dlen. repeat split; auto; lia.
Qed.
End Cert.

Lemma cut_chunks_good cs : forall off, Forall (fun c => (0 < c)%nat) cs ->
  Forall (fun c => (0 < c)%nat) (cut_chunks off cs) /\ sum (cut_chunks off cs) = Nat.min off (sum cs).
Proof.
  induction cs as [|c cs IH]; intros off Hp.
  - cbn. split; [constructor | lia].
  - inversion Hp as [|? ? Hc Hcs]; subst. cbn [cut_chunks]. destruct off as [|o].
    + cbn. split; [constructor | reflexivity].
    + cbn [sum fold_right]. fold (sum cs). destruct (c <=? S o)%nat eqn:E.
      * apply Nat.leb_le in E. destruct (IH (S o - c)%nat Hcs) as [A B]. split; [constructor; assumption|].
        cbn [sum fold_right]. fold (sum (cut_chunks (S o - c) cs)). rewrite B. lia.
      * apply Nat.leb_gt in E. split; [constructor; [lia | constructor]|]. unfold sum at 1. cbn [fold_right]. lia.
Qed.

Lemma truncated_wfr off out chunks : good_reader out chunks ->
  wfr (mkR (firstn off out) (cut_chunks off chunks) RErr).
Proof.
  intros [Hp Hs]. destruct (cut_chunks_good chunks off Hp) as [A B]. split; cbn [r_chunks r_out]; [exact A|].
  rewrite B, firstn_length, Hs. reflexivity.
Qed.

Section Top.
Variable C : Type.
Variable parse_cert : bytes -> option C.
Notation top := (decompress_cert_top C parse_cert).

Definition windows_ok (alg : N) (fs : zframes) : Prop :=
  alg = CertCompressionZstd -> Forall (fun f => fst f <= maxCompressedCertZstdWindow) fs.

Lemma first_over_none cap fs : Forall (fun f => fst f <= cap) fs -> forall acc, first_over cap fs acc = None.
Proof.
  induction fs as [|[w n] fs IH]; intros H acc; [reflexivity|]. inversion H as [|? ? Hw Hr]; subst. cbn [first_over fst] in *.
  replace (cap <? w) with false by lia. apply IH. exact Hr.
Qed.

Lemma first_over_some cap fs : Exists (fun f => cap < fst f) fs -> forall acc, exists off, first_over cap fs acc = Some off.
Proof.
  induction fs as [|[w n] fs IH]; intros H acc; [inversion H|]. cbn [first_over].
  destruct (cap <? w) eqn:E; [eauto|]. inversion H as [? ? Hw | ? ? Hr]; subst; [cbn in Hw; lia | apply IH; exact Hr].
Qed.

(* decompressCert with the zstd window cap: refused once a frame declares a window over the cap (the reader then
   ends in an error, wherever that frame starts), and otherwise the capless function *)
Theorem top_spec ee adv alg declared open_ok fs out chunks e : good_reader out chunks ->
  top ee adv alg declared open_ok fs (mkR out chunks e) =
    match (if alg =? CertCompressionZstd then first_over maxCompressedCertZstdWindow fs O else None) with
    | Some _ => Err alertBadCertificate
    | None => decompress_cert C parse_cert ee adv alg declared open_ok (mkR out chunks e)
    end.
Proof.
  intros Hg. unfold decompress_cert_top, effective, zstd_effective. destruct (alg =? CertCompressionZstd); [|reflexivity].
  destruct (first_over _ fs O) as [off|]; [|reflexivity].
  rewrite decompress_spec by (apply truncated_wfr; exact Hg). cbn [r_end]. rewrite andb_false_r. reflexivity.
Qed.
End Top.

Definition valid_flight (f : list fmsg) : bool :=
  match f with
  | [FCert] | [FCompressed] | [FCertReq; FCert] | [FCertReq; FCompressed] => true
  | _ => false
  end.
