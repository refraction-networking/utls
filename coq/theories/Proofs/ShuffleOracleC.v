(* C03 for the shipped parrots: the shuffle-aware oracle, applied with the TABLE entry, accepts the hello built from
   every rearrangement ShuffleChromeTLSExtensions can produce - for every Config in the class and every randomness.
   (Proofs/ShuffleOracleP.shuffle_match_sound + Proofs/PresetOkC.spec_matches.) *)
From Coq Require Import Permutation.
From UV Require Import Base.Common Model.Wire Model.Ext Model.ExtSpec Model.Strict Proofs.StrictP.
From UV Require Import Model.Marshal Model.ChMarshal Model.Shuffle.
From UV Require Model.Grease Gen.Parrots Proofs.PresetP Proofs.ComposeP Proofs.ComposeC03.
From UV Require Import Model.Preset Model.ParrotSpec Model.PresetOk Model.ParrotNeg.
From UV Require Import Proofs.PresetOkS Proofs.PresetOkC Proofs.ParrotNegS Proofs.ShuffleOracleP.

Definition oracle_static (sp : spec) : bool :=
  contigb (sp_exts sp)
  && nodup_N (map sext_id (filter nonfixed (sp_exts sp)))
  && forallb (fun s => negb (fixed_id (sext_id s))) (filter nonfixed (sp_exts sp))
  && (writers s_versions (sp_exts sp) <=? 1)%nat.

Theorem parrots_oracle_static : forallb (fun p => oracle_static (p_spec p)) Parrots.all = true.
Proof. vm_compute. reflexivity. Qed.

Lemma spec_versions_vals l : spec_versions l = match vals s_versions l with [] => None | v :: _ => Some v end.
Proof.
  unfold spec_versions, vals. induction l as [|s r IH]; [reflexivity|]. cbn [find flat_map].
  destruct s as [e|]; [|cbn [s_versions app]; exact IH]. destruct e; cbn [s_versions app]; try exact IH. reflexivity.
Qed.

Lemma spec_max_perm sp exts' : Permutation (sp_exts sp) exts' -> (writers s_versions (sp_exts sp) <= 1)%nat ->
  spec_max (with_exts sp exts') = spec_max sp.
Proof.
  intros P H. unfold spec_max. cbn [with_exts sp_min sp_max sp_exts]. rewrite !spec_versions_vals.
  rewrite (perm_short _ _ (vals_perm s_versions _ _ P)) by (rewrite vals_length; exact H). reflexivity.
Qed.

(* for ANY spec that passes the static checks, not only a table entry *)
Theorem spec_shuffle_oracle sp snimax omit name swaps exts' c fr h es :
  preset_ok sp snimax omit = true -> sp_comp sp = [0] -> oracle_static sp = true ->
  shuffle fixedb swaps (sp_exts sp) = Ok exts' -> cfg_in_class c snimax omit ->
  apply_preset (with_exts sp exts') c fr = Ok (h, es) ->
  exists raw a, build (with_exts sp exts') c fr = Ok raw /\ parse_hello raw = Some a
    /\ ast_matches_specb a {| p_name := name; p_spec := sp; p_shuffles := true |} c = true.
Proof.
  intros Hok Hcomp T Hsh Hc Ha.
  destruct (spec_matches sp snimax omit name swaps exts' c fr h es Hok Hcomp Hsh Hc Ha) as (raw & a & Hb & Hm & Hwf & Hp & Hmatch).
  exists raw, a. split; [exact Hb|]. split; [exact Hp|].
  unfold oracle_static in T. rewrite !andb_true_iff in T. destruct T as [[[T1 T2] T3] T4]. apply Nat.leb_le in T4.
  destruct (PresetP.shuffle_ok _ _ _ _ Hsh) as [P K].
  (* the parsed extension list has pairwise distinct types *)
  destruct (ComposeP.marshal_shape _ _ _ _ _ Hwf Hm) as (present & Hraw & Hok' & Hnd & _).
  rewrite Hraw, (ComposeC03.parse_hello_layout _ Hok') in Hp. inversion Hp; subst a. clear Hp.
  unfold ast_matches_specb in *. cbn [p_spec p_shuffles ComposeC03.to_ast a_vers a_random a_sid a_suites a_comp a_exts ComposeP.mk_ast
    c_vers c_random c_sid c_suites c_comp c_exts] in *.
  rewrite (spec_max_perm _ _ P T4) in Hmatch. cbn [with_exts sp_suites sp_comp sp_exts] in Hmatch.
  rewrite !andb_true_iff in Hmatch. destruct Hmatch as [[[[[M1 M2] M3] M4] M5] M6].
  rewrite M1, M2, M3, M4, M5. cbn [andb].
  apply (shuffle_match_sound c (sp_exts sp) exts' present); try assumption.
  - intros s Hs. rewrite forallb_forall in T3. specialize (T3 s Hs). apply negb_true_iff in T3. exact T3.
  - apply nodup_N_NoDup. apply NoDup_filter. exact Hnd.
Qed.

Theorem parrot_shuffle_oracle p swaps exts' : In p Parrots.all ->
  shuffle fixedb swaps (sp_exts (p_spec p)) = Ok exts' ->
  forall c fr h es, parrot_class c -> apply_preset (with_exts (p_spec p) exts') c fr = Ok (h, es) ->
  exists raw a, build (with_exts (p_spec p) exts') c fr = Ok raw /\ parse_hello raw = Some a
    /\ ast_matches_specb a {| p_name := p_name p; p_spec := p_spec p; p_shuffles := true |} c = true.
Proof.
  intros Hin Hsh c fr h es Hc Ha.
  exact (spec_shuffle_oracle _ 255 true _ swaps exts' c fr h es (proj1 (forallb_forall _ _) parrots_preset_ok p Hin) (parrots_comp p Hin)
           (proj1 (forallb_forall _ _) parrots_oracle_static p Hin) Hsh Hc Ha).
Qed.
