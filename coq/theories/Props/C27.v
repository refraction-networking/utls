(* C27 — forged connections from shared secrets interoperate.
   MakeConnWithCompleteHandshake is modelled in Model/Forge.v (state: AFTER
   fixes/C27-forge-cbc-direction.diff and fixes/C27-weak-ciphers-keep-legacy-chacha.diff), the record
   layer in Model/Record.v. The primitives (AEAD, CBC, RC4, HMAC, PRF) are not modelled: their laws
   [prims_ok] are premises of every theorem (partial proof). *)
From UV Require Import Base.Common Model.Record Model.Forge Gen.Suites
  Proofs.RecordP Proofs.RecordRT Proofs.RecordStream Proofs.ForgeP.
Open Scope N_scope.

Definition supported_tables (tbl : list suite_row) : Prop := tbl = suites_default \/ tbl = suites_weak.

(* every row of the generated tables is one of the five constructions, with the parameters the
   constructors insist on (checked by computation over the generated data) *)
Lemma tables_ok : forall tbl, supported_tables tbl -> forall r, In r tbl -> row_okb r = true.
Proof.
  intros tbl [-> | ->]; apply forallb_forall; vm_compute; reflexivity.
Qed.

(* forge_dir: for every supported suite and version 1.0-1.2 and any secrets, both forged sides exist, and
   in both directions the writer's state matches the reader's: same keys, IVs, MAC keys, sequence
   number 1, and for CBC the writer holds an encrypter and the reader a decrypter. *)
Theorem C27_forge_dir : forall P, prims_ok P ->
  forall tbl, supported_tables tbl ->
  forall version suite ms cr sr, v12_ok version -> In suite (map s_id tbl) ->
  exists c s,
    forge P tbl version suite ms cr sr true = Ok (Some c) /\
    forge P tbl version suite ms cr sr false = Ok (Some s) /\
    synced (cn_out c) (cn_in s) /\ synced (cn_out s) (cn_in c) /\
    h_seq (cn_out c) = 1 /\ h_seq (cn_out s) = 1 /\ h_seq (cn_in c) = 1 /\ h_seq (cn_in s) = 1.
Proof.
  intros P HP tbl Ht version suite ms cr sr Hv Hin.
  destruct (suite_by_id_some tbl suite Hin) as (cs & Hs & Hr & _).
  destruct (forge_dir P HP tbl version suite ms cr sr cs Hv Hs (tables_ok tbl Ht cs Hr))
    as (c & s & A & B & C & D & _ & _ & _ & _ & E & F & G & H).
  exists c, s. tauto.
Qed.
Print Assumptions C27_forge_dir.

(* forge_interop: application data written by either side (any size below 2^63, any random source for
   explicit IVs) is cut into records that the peer's read half decrypts, in order, to exactly the bytes
   written; the pair is matched again afterwards. *)
Theorem C27_forge_interop : forall P, prims_ok P ->
  forall tbl, supported_tables tbl ->
  forall version suite ms cr sr, v12_ok version -> In suite (map s_id tbl) ->
  exists c s,
    forge P tbl version suite ms cr sr true = Ok (Some c) /\
    forge P tbl version suite ms cr sr false = Ok (Some s) /\
    (forall (w r : conn) (rnd : N -> bytes) (b : bytes),
        (w = c /\ r = s) \/ (w = s /\ r = c) ->
        rnd_ok rnd -> len b < 9223372036854775808 ->
        exists recs w' rx_end,
          conn_write P w b rnd = Ok (concat (map snd recs), len b, w') /\
          rchain P version rtAppData (cn_in r) recs rx_end /\
          concat (map fst recs) = b /\
          synced (cn_out w') rx_end /\ wconn_ok w').
Proof.
  intros P HP tbl Ht version suite ms cr sr Hv Hin.
  destruct (suite_by_id_some tbl suite Hin) as (cs & Hs & Hr & _).
  exact (forge_interop P HP tbl version suite ms cr sr cs Hv Hs (tables_ok tbl Ht cs Hr)).
Qed.
Print Assumptions C27_forge_interop.

(* forge_unsupported: a suite id that is not in the table yields nil, for every id (all of N, hence all
   65536 code points), version, role and secrets. *)
Theorem C27_forge_unsupported : forall P tbl version suite ms cr sr is_client,
  ~ In suite (map s_id tbl) -> forge P tbl version suite ms cr sr is_client = Ok None.
Proof.
  intros P tbl version suite ms cr sr is_client Hn. apply forge_unsupported.
  intros r Hr E. apply Hn. rewrite <- E. apply in_map. exact Hr.
Qed.
Print Assumptions C27_forge_unsupported.

(* EnableWeakCiphers only adds suites (after fixes/C27-weak-ciphers-keep-legacy-chacha.diff) *)
Theorem C27_weak_superset : forall id, In id (map s_id suites_default) -> In id (map s_id suites_weak).
Proof.
  intros id H.
  assert (forallb (fun i => existsb (N.eqb i) (map s_id suites_weak)) (map s_id suites_default) = true) as Hs
    by (vm_compute; reflexivity).
  rewrite forallb_forall in Hs. specialize (Hs id H). apply existsb_exists in Hs.
  destruct Hs as (x & Hx & E). apply N.eqb_eq in E. subst. exact Hx.
Qed.

(* the laws of the primitives are satisfiable: the toy instance obeys them *)
Example C27_ex_hypotheses_satisfiable : prims_ok toy.
Proof.
  constructor; cbn [aead_seal aead_open aead_ks aead_tag cbc_enc cbc_dec stream_ks hmac prf toy].
  - intros a k n ad p. unfold toy_open, toy_seal, toy_tag, toy_ks.
    unfold zeros. rewrite !app_length, bxor_length, !repeat_length, Nat.min_id.
    replace (length p + aead_overhead <? aead_overhead)%nat with false by (symmetry; apply Nat.ltb_ge; lia).
    replace (length p + aead_overhead - aead_overhead)%nat with (length p) by lia.
    rewrite firstn_app_exact by (rewrite bxor_length, repeat_length; lia).
    rewrite skipn_app_exact by (rewrite bxor_length, repeat_length; lia).
    rewrite bxor_length, repeat_length, Nat.min_id.
    rewrite bxor_invol by (rewrite repeat_length; reflexivity).
    replace (bytes_eqb _ _) with true by (symmetry; apply bytes_eqb_eq; reflexivity). reflexivity.
  - reflexivity.
  - intros. unfold toy_ks. apply repeat_length.
  - intros a k n l1 l2 Hl. unfold toy_ks, zeros. replace l2 with (l1 + (l2 - l1))%nat by lia.
    rewrite repeat_app. apply firstn_app_exact. rewrite repeat_length. reflexivity.
  - intros. unfold toy_tag. apply repeat_length.
  - reflexivity.
  - reflexivity.
  - intros. apply repeat_length.
  - intros. unfold zeros. rewrite <- repeat_app. reflexivity.
  - intros. apply repeat_length.
  - intros. rewrite firstn_length, !app_length. unfold zeros. rewrite repeat_length. lia.
Qed.

(* a concrete forged pair (AES-128-CBC-SHA, TLS 1.2): 100 bytes written by the client decrypt at the server *)
Example C27_ex_cbc_exchange :
  match forge toy suites_default V12 47 (repeat 7 48%nat) (repeat 1 32%nat) (repeat 2 32%nat) true,
        forge toy suites_default V12 47 (repeat 7 48%nat) (repeat 1 32%nat) (repeat 2 32%nat) false with
  | Ok (Some c), Ok (Some s) =>
    match conn_write toy c (repeat 65 100%nat) (fun _ => zeros 16) with
    | Ok (wire, n, _) =>
      match decrypt toy (cn_in s) wire with
      | Ok (p, t, _) => (n =? 100) && bytes_eqb p (repeat 65 100%nat) && (t =? rtAppData)
      | _ => false
      end
    | _ => false
    end
  | _, _ => false
  end = true.
Proof. vm_compute. reflexivity. Qed.

(* F-27, on [forge_prefix] (the construction without fixes/C27-forge-cbc-direction.diff): the client of a CBC
   suite writes with a CBC *decrypter* and reads with an *encrypter*, so neither direction matches *)
Example C27_ex_former_witness :
  match forge_prefix toy suites_default V12 47 [] [] [] true with
  | Ok (Some c) =>
    match h_cipher (cn_out c), h_cipher (cn_in c) with
    | Some o, Some i => c_read o && negb (c_read i)
    | _, _ => false
    end
  | _ => false
  end = true.
Proof. vm_compute. reflexivity. Qed.
