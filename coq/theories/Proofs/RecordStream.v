(* Stream level: Conn.Write fragments into records of bounded size that a matched reader decrypts in order. *)
From UV Require Import Base.Common Model.Record Proofs.RecordP Proofs.RecordRT.
Open Scope N_scope.

Definition vers_ok (v : N) : Prop := v = V10 \/ v = V11 \/ v = V12 \/ v = V13.
(* 16: the longest explicit IV a record draws from the random source (explicit_le_16) *)
Definition rnd_ok (rnd : N -> bytes) : Prop := forall s, (16 <= length (rnd s))%nat.
Definition vb1 (v : N) : N := (wire_vers v / 256) mod 256.
Definition vb2 (v : N) : N := wire_vers v mod 256.

Definition wconn_ok (c : conn) : Prop := h_vers (cn_out c) = cn_vers c /\ vers_ok (cn_vers c).

(* a record as it appears on the wire for protocol version [v] *)
Definition rec_wf (v : N) (r : bytes) : Prop :=
  exists t body, r = hdr5 t (vb1 v) (vb2 v) (len body) ++ body /\
                 len body <= (if v =? V13 then maxCiphertextTLS13 else maxCiphertext).

(* conn.go:1008-1012: the next fragment of a non-empty Write *)
Lemma fragment (data : bytes) (mp : N) :
  data <> [] -> 1 <= mp <= maxPlaintext ->
  let m := if mp <? len data then mp else len data in
  1 <= m <= maxPlaintext /\ m <= len data /\
  len (firstn (N.to_nat m) data) = m /\ len (skipn (N.to_nat m) data) = len data - m.
Proof.
  intros Hd Hmp. cbv zeta. unfold len. rewrite firstn_length, skipn_length.
  destruct data; [contradiction|]. cbn [length]. unfold maxPlaintext in *.
  destruct (mp <? _) eqn:E; lia.
Qed.

Section Stream.
Variable P : prims.
Hypothesis HP : prims_ok P.

(* records [recs] = (payload, wire bytes), all of content type [typ], take a reader from [rx] to [rx_end] *)
Fixpoint rchain (v typ : N) (rx : half) (recs : list (bytes * bytes)) (rx_end : half) : Prop :=
  match recs with
  | [] => rx = rx_end
  | (p, r) :: rest =>
    rec_wf v r /\ 0 < len p <= maxPlaintext /\
    exists rx', decrypt P rx r = Ok (p, typ, rx') /\ rchain v typ rx' rest rx_end
  end.

Lemma rchain_app v typ rx a mid b rx_end :
  rchain v typ rx a mid -> rchain v typ mid b rx_end -> rchain v typ rx (a ++ b) rx_end.
Proof.
  revert rx. induction a as [|[p r] a IH]; intros rx Ha Hb; cbn [rchain app] in *.
  - subst. exact Hb.
  - destruct Ha as (Hw & Hp & rx' & Hd & Hr). repeat split; try tauto. exists rx'. split; [exact Hd|]. apply IH; assumption.
Qed.

(* conn.go:897 maxPayloadSizeForWrite stays within [1, maxPlaintext] *)
Lemma max_payload_bounds c typ rx :
  wconn_ok c -> synced (cn_out c) rx ->
  1 <= fst (max_payload_size_for_write c typ) <= maxPlaintext.
Proof.
  intros [Hv Hvo] Hs. unfold max_payload_size_for_write, maxPlaintext.
  destruct (cn_dynoff c || negb (typ =? rtAppData)); [cbn; lia|].
  destruct (recordSizeBoostThreshold <=? cn_bytesSent c); [cbn; lia|].
  destruct (1000 <? cn_packetsSent c) eqn:Epk; [cbn; lia|].
  match goal with |- context [if ?b then _ else ?n] => set (nn := n) end.
  assert (Hn : 1 <= nn).
  { unfold nn. clear nn.
    destruct Hs as (_ & _ & _ & _ & Hwf & Hm). unfold half_wf in Hwf.
    destruct (h_cipher (cn_out c)) as [ci|] eqn:Eci; [|contradiction].
    destruct (h_cipher rx) as [ci'|]; [|contradiction].
    destruct Hm as (_ & _ & _ & _ & _ & _ & Hcbc).
    unfold explicit_nonce_len. rewrite Eci.
    unfold tcpMSSEstimate, recordHeaderLen, aead_overhead.
    assert (Hmul : forall a b, 1 <= a -> 1 <= a * (b + 1)) by (intros; nia).
    destruct (c_kind ci) eqn:Ek.
    - destruct Hwf as ([m Hm] & Hv13). rewrite Hm. pose proof (mac_len_le (m_alg m)). unfold m_size.
      apply Hmul. rewrite <- Hv. destruct (h_vers (cn_out c) =? V13); lia.
    - apply Hmul. destruct (cn_vers c =? V13); lia.
    - apply Hmul. destruct (cn_vers c =? V13); lia.
    - destruct Hwf as ([m Hm] & Hv13). rewrite Hm. pose proof (mac_len_le (m_alg m)). unfold m_size.
      destruct (Hcbc eq_refl) as (_ & _ & Hbs).
      apply Hmul. rewrite <- Hv.
      replace (h_vers (cn_out c) =? V13) with false by lia.
      destruct Hbs as [-> | ->]; destruct (V11 <=? h_vers (cn_out c));
        repeat match goal with |- context [N.ldiff ?a ?b] =>
          let v := eval vm_compute in (N.ldiff a b) in change (N.ldiff a b) with v end; lia. }
  cbn [fst]. destruct (16384 <? nn) eqn:E; lia.
Qed.

Lemma explicit_le_16 tx rx : synced tx rx -> (explicit_nonce_len tx <= 16)%nat.
Proof.
  intros (_ & _ & _ & _ & Hwf & Hm). unfold explicit_nonce_len, half_wf in *.
  destruct (h_cipher tx) as [ci|]; [|lia]. destruct (h_cipher rx) as [ci'|]; [|contradiction].
  destruct Hm as (_ & _ & _ & _ & _ & _ & Hcbc).
  destruct (c_kind ci); try lia. destruct (Hcbc eq_refl) as (_ & _ & [-> | ->]); destruct (V11 <=? h_vers tx); lia.
Qed.

Lemma write_loop_frame : forall fuel c typ data rnd wire n w n' c',
  write_loop P fuel c typ data rnd wire n = Ok (w, n', c') ->
  (exists rest, w = wire ++ rest) /\ cn_in c' = cn_in c /\ cn_suite c' = cn_suite c /\ cn_vers c' = cn_vers c.
Proof.
  induction fuel as [|f IH]; intros c typ data rnd wire n w n' c' H;
    (destruct data as [|d0 data'];
     [injection H as <- _ <-; split; [exists []; symmetry; apply app_nil_r|auto]|]).
  - discriminate.
  - cbn [write_loop] in H. destruct (max_payload_size_for_write c typ) as [mp ps].
    match type of H with context [encrypt P ?a ?b ?d ?e] => destruct (encrypt P a b d e) as [[rec o]| |] end;
      try discriminate.
    apply IH in H. destruct H as ((rest & ->) & H).
    split; [exists (rec ++ rest); symmetry; apply app_assoc|exact H].
Qed.

(* conn.go:1356-1369: sending a KeyUpdate leaves the read half alone *)
Lemma send_key_update_keeps_in c req rnd w c' :
  send_key_update P c req rnd = Ok (w, c') -> cn_in c' = cn_in c.
Proof.
  unfold send_key_update, write_record_locked. intros H.
  destruct (negb (is_suite13 (cn_suite c))); [discriminate|].
  destruct (write_loop P _ c rtHandshake _ rnd [] 0) as [[[w1 n1] c1]| |] eqn:E; try discriminate.
  apply write_loop_frame in E. destruct E as (_ & Ei & _).
  change (rtHandshake =? rtCCS) with false in H. injection H as _ <-. exact Ei.
Qed.

(* what writing [data] from [c] leaves: [recs] carry [data] in order and take the matched reader [rx] to
   [rx_end], which matches the new write state [c']. [recs] has the type RecordRead.inv infers for it, so that
   the equations rewrite there *)
Definition written (c : conn) (typ : N) (data : bytes) (rx : half) (recs : list (bytes * list N)) (c' : conn) (rx_end : half) : Prop :=
  rchain (cn_vers c) typ rx recs rx_end /\ synced (cn_out c') rx_end /\
  concat (map fst recs) = data /\ wconn_ok c' /\ cn_vers c' = cn_vers c /\
  h_seq (cn_out c') <= h_seq (cn_out c) + len data.

(* conn.go:1006-1033: the loop of writeRecordLocked *)
Lemma write_loop_ok : forall (fuel : nat) c typ data rnd wire n rx,
  wconn_ok c -> synced (cn_out c) rx -> typ <> 0 -> rnd_ok rnd ->
  (length data <= fuel)%nat -> h_seq (cn_out c) + len data < 18446744073709551616 ->
  exists recs c' rx_end,
    write_loop P fuel c typ data rnd wire n = Ok (wire ++ concat (map snd recs), n + len data, c') /\
    written c typ data rx recs c' rx_end.
Proof.
  unfold written. induction fuel as [|f IH]; intros c typ data rnd wire n rx Hw Hs Htyp Hrnd Hfuel Hseq;
    (destruct data as [|d0 data'];
     [exists [], c, rx; cbn; rewrite app_nil_r, N.add_0_r;
      split; [reflexivity|]; split; [reflexivity|]; split; [exact Hs|]; split; [reflexivity|];
      split; [exact Hw|]; split; [reflexivity|lia]|]).
  - cbn in Hfuel. lia.
  - set (data := d0 :: data') in *.
    cbn [write_loop]. fold data.
    pose proof (max_payload_bounds c typ rx Hw Hs) as Hmp.
    destruct (max_payload_size_for_write c typ) as [maxPayload ps] eqn:Emp. cbn [fst] in Hmp.
    destruct (fragment data maxPayload ltac:(discriminate) Hmp) as (Hm & Hmd & Lp & Lsk).
    set (m := if maxPayload <? len data then maxPayload else len data) in *.
    set (payload := firstn (N.to_nat m) data) in *.
    destruct Hw as [Hv Hvo].
    change ([typ; wire_vers (cn_vers c) / 256 mod 256; wire_vers (cn_vers c) mod 256] ++ be16 m)
      with (hdr5 typ (vb1 (cn_vers c)) (vb2 (cn_vers c)) m).
    rewrite <- Lp.
    destruct (encrypt_decrypt P HP (cn_out c) rx typ (vb1 (cn_vers c)) (vb2 (cn_vers c)) payload
                (rnd (h_seq (cn_out c))) Hs Htyp)
      as (body & c2 & c2' & He & Hd & Hs' & Hb).
    { rewrite Lp. clear - Hm. lia. } (* [clear -]: see RecordRT.rt_stream *)
    { unfold len in *. cbn [length] in *. lia. }
    { pose proof (explicit_le_16 _ _ Hs). specialize (Hrnd (h_seq (cn_out c))). lia. }
    set (tx' := advance (cn_out c) c2) in *. set (rx' := advance rx c2') in *.
    assert (Hq : h_seq tx' = h_seq (cn_out c) + 1) by reflexivity.
    rewrite He. cbn [bind]. rewrite ?Lp.
    set (rec := hdr5 (outer_typ (h_vers (cn_out c)) typ) (vb1 (cn_vers c)) (vb2 (cn_vers c)) (len body) ++ body) in *.
    set (c1 := with_out c tx' (cn_bytesSent c + len rec) ps).
    assert (Hw1 : wconn_ok c1) by (unfold wconn_ok, c1; cbn; split; congruence).
    assert (Hl1 : (length (skipn (N.to_nat m) data) <= f)%nat) by (unfold len in *; cbn [length] in *; lia).
    destruct (IH c1 typ (skipn (N.to_nat m) data) rnd (wire ++ rec) (n + m) rx' Hw1 Hs' Htyp Hrnd Hl1)
      as (recs & c' & rx_end & Hwl & Hch & Hse & Hcat & Hw' & Hsame & Hsq).
    { unfold c1. cbn [cn_out with_out]. rewrite Hq, Lsk. clear - Hseq Hmd Hm. lia. }
    exists ((payload, rec) :: recs), c', rx_end.
    split; [|split; [|split; [|split; [|split; [|split]]]]].
    + rewrite Hwl. cbn [map snd concat]. rewrite <- app_assoc, Lsk.
      replace (n + m + (len data - m)) with (n + len data) by (clear - Hmd; lia). reflexivity.
    + cbn [rchain]. split; [|split].
      * exists (outer_typ (h_vers (cn_out c)) typ), body. split; [reflexivity|].
        rewrite Hv in Hb. unfold body_slack, maxCiphertextTLS13, maxCiphertext, maxPlaintext in *.
        clear - Hb Hm Lp. destruct (cn_vers c =? V13); lia.
      * clear - Hm Lp. lia.
      * exists rx'. split; [exact Hd|]. exact Hch.
    + exact Hse.
    + cbn [map fst concat]. rewrite Hcat. apply firstn_skipn.
    + exact Hw'.
    + exact Hsame.
    + unfold c1 in Hsq. cbn [cn_out with_out] in Hsq. rewrite Hq, Lsk in Hsq. clear - Hsq Hmd Hm. lia.
Qed.

(* conn.go:977 writeRecordLocked for application data / handshake records *)
Lemma write_record_ok c typ data rnd rx :
  wconn_ok c -> synced (cn_out c) rx -> typ <> 0 -> typ <> rtCCS -> rnd_ok rnd ->
  h_seq (cn_out c) + len data < 18446744073709551616 ->
  exists recs c' rx_end,
    write_record_locked P c typ data rnd = Ok (concat (map snd recs), len data, c') /\
    written c typ data rx recs c' rx_end.
Proof.
  intros Hw Hs Ht Hccs Hrnd Hseq.
  destruct (write_loop_ok (length data) c typ data rnd [] 0 rx Hw Hs Ht Hrnd (le_n _) Hseq)
    as (recs & c' & rx_end & Hwl & Hrest).
  exists recs, c', rx_end. split; [|exact Hrest].
  unfold write_record_locked. rewrite Hwl. cbn [bind app].
  replace (typ =? rtCCS) with false by lia. cbn [andb]. rewrite N.add_0_l. reflexivity.
Qed.

(* Conn.Write / UConn.Write (conn.go:1206) *)
Theorem conn_write_ok c b rnd rx :
  wconn_ok c -> synced (cn_out c) rx -> rnd_ok rnd ->
  h_seq (cn_out c) + len b < 18446744073709551616 ->
  exists recs c' rx_end,
    conn_write P c b rnd = Ok (concat (map snd recs), len b, c') /\
    written c rtAppData b rx recs c' rx_end.
Proof.
  intros Hw Hs Hrnd Hseq.
  assert (H23 : rtAppData <> 0) by discriminate. assert (H23' : rtAppData <> rtCCS) by discriminate.
  unfold conn_write.
  destruct ((1 <? len b) && (if cn_uconn c then cn_vers c <=? V10 else cn_vers c =? V10) && is_block_mode (cn_out c)) eqn:Esplit.
  - (* 1/n-1 split *)
    assert (Lb : len b = len (firstn 1 b) + len (skipn 1 b)).
    { rewrite <- len_app, firstn_skipn. reflexivity. }
    assert (L1 : len (firstn 1 b) <= 1).
    { unfold len. rewrite firstn_length. lia. }
    destruct (write_record_ok c rtAppData (firstn 1 b) rnd rx Hw Hs H23 H23' Hrnd ltac:(lia))
      as (r1 & c1 & rx1 & E1 & Hc1 & Hs1 & Hcat1 & Hw1 & Hsame1 & Hq1).
    rewrite E1. cbn [bind].
    destruct (write_record_ok c1 rtAppData (skipn 1 b) rnd rx1 Hw1 Hs1 H23 H23' Hrnd ltac:(lia))
      as (r2 & c2 & rx2 & E2 & Hc2 & Hs2 & Hcat2 & Hw2 & Hsame2 & Hq2).
    rewrite E2. cbn [bind].
    exists (r1 ++ r2), c2, rx2. unfold written.
    split; [|split; [|split; [|split; [|split; [|split]]]]].
    + rewrite map_app, concat_app.
      assert (Hb1 : len (firstn 1 b) = 1).
      { apply andb_true_iff in Esplit. destruct Esplit as [E _]. apply andb_true_iff in E. destruct E as [E _].
        unfold len in *. rewrite firstn_length. lia. }
      replace (len (skipn 1 b) + 1) with (len b) by lia. reflexivity.
    + eapply rchain_app; [exact Hc1|]. rewrite <- Hsame1. exact Hc2.
    + exact Hs2.
    + rewrite map_app, concat_app, Hcat1, Hcat2. apply firstn_skipn.
    + exact Hw2.
    + congruence.
    + lia.
  - exact (write_record_ok c rtAppData b rnd rx Hw Hs H23 H23' Hrnd Hseq).
Qed.

End Stream.
