(* Model/PresetOk.v: the static predicate is invariant under everything the Chrome extension
   shuffle can do (so it holds for every draw of a shuffling parrot), and it holds for every entry of the regenerated
   table Gen/Parrots.v (finite: decided by computation). *)
From Coq Require Import Permutation.
From UV Require Import Base.Common Model.Wire Model.Ext Model.ExtSpec Model.Strict Proofs.StrictP.
From UV Require Import Model.ChMarshal Model.Shuffle Model.Preset Model.PresetOk.
From UV Require Model.ParrotSpec Proofs.PresetP Gen.Parrots.

Lemma forallb_perm {A} (f : A -> bool) l l' : Permutation l l' -> forallb f l = forallb f l'.
Proof.
  induction 1 as [|x l l' _ IH|x y l|l1 l2 l3 _ IH1 _ IH2]; cbn [forallb]; try reflexivity.
  - rewrite IH. reflexivity.
  - destruct (f x), (f y); reflexivity.
  - congruence.
Qed.

Lemma sum_map_perm {A} (f : A -> N) l l' : Permutation l l' -> sum_map f l = sum_map f l'.
Proof.
  induction 1 as [|x l l' _ IH|x y l|l1 l2 l3 _ IH1 _ IH2]; cbn [sum_map]; try lia.
Qed.

Lemma nodupb_perm l l' : Permutation l l' -> nodupb l = true -> nodupb l' = true.
Proof. intros P H. apply nodupb_spec. apply nodupb_spec in H. eapply Permutation_NoDup; eassumption. Qed.

Lemma psk_lastb_pos l : psk_lastb l = true <-> (forall k, nth_error l k = Some ID_PSK -> S k = length l).
Proof.
  induction l as [|x r IH].
  - split; [intros _ k H; destruct k; discriminate | reflexivity].
  - cbn [psk_lastb]. destruct r as [|y r'].
    + split; [|reflexivity]. intros _ k H. destruct k as [|[|k]]; try discriminate. reflexivity.
    + rewrite andb_true_iff, IH. split.
      * intros [Hx Hr] k H. destruct k as [|k].
        -- cbn in H. inversion H; subst x. discriminate.
        -- cbn [nth_error] in H. specialize (Hr k H). cbn [length] in *. lia.
      * intros H. split.
        -- destruct (x =? 41) eqn:E; [|reflexivity]. apply N.eqb_eq in E. subst x. specialize (H 0%nat eq_refl). discriminate.
        -- intros k Hk. specialize (H (S k) Hk). cbn [length] in *. lia.
Qed.

Lemma spsk_fixed s : is_spsk s = true -> ParrotSpec.fixedb s = true.
Proof. destruct s as [e|]; [|discriminate]. destruct e; try discriminate; reflexivity. Qed.

(* every rearrangement the shuffle can produce keeps the predicate *)
Theorem preset_ok_shuffle sp snimax omit swaps exts' :
  preset_ok sp snimax omit = true -> shuffle ParrotSpec.fixedb swaps (sp_exts sp) = Ok exts' ->
  preset_ok (with_exts sp exts') snimax omit = true.
Proof.
  intros Hok Hs. destruct (PresetP.shuffle_ok _ _ _ _ Hs) as [P [K1 K2]].
  unfold preset_ok in *. cbn [with_exts sp_suites sp_exts]. rewrite !andb_true_iff in *.
  destruct Hok as [[[[[[[[[Hsne Hs16] Hslen] Hexts] Hngr] Hnd] Hnog] Hpsk] Htk] Hsum].
  repeat split; try assumption.
  - rewrite <- (forallb_perm _ _ _ P). exact Hexts.
  - rewrite <- (Permutation_length (PresetP.filter_perm is_sgrease _ _ P)). exact Hngr.
  - eapply nodupb_perm; [|exact Hnd]. apply Permutation_map. apply PresetP.filter_perm. exact P.
  - rewrite <- (forallb_perm _ _ _ P). exact Hnog.
  - apply psk_lastb_pos. intros k Hk. rewrite nth_error_map in Hk.
    destruct (nth_error exts' k) as [s|] eqn:En; [|discriminate]. cbn [option_map] in Hk.
    assert (Hp : is_spsk s = true) by (unfold pid in Hk; destruct (is_spsk s); [reflexivity|discriminate]).
    pose proof (K2 k s En (spsk_fixed s Hp)) as Hl.
    rewrite map_length, <- (Permutation_length P).
    rewrite psk_lastb_pos in Hpsk. rewrite <- (map_length pid (sp_exts sp)). apply Hpsk.
    rewrite nth_error_map, Hl. cbn [option_map]. inversion Hk. reflexivity.
  - rewrite <- (Permutation_length (PresetP.filter_perm is_sticket _ _ P)). exact Htk.
  - rewrite <- (sum_map_perm _ _ _ P). exact Hsum.
Qed.

(* Every shipped parrot, for Configs whose SNI host name has at most 255 bytes (hostnameInSNI of a DNS name: 253) and that set
   OmitEmptyPsk ... *)
Theorem parrots_preset_ok : forallb (fun p => preset_ok (p_spec p) 255 true) Parrots.all = true.
Proof. vm_compute. reflexivity. Qed.

(* ... and without OmitEmptyPsk every parrot except the four that carry a pre_shared_key extension: for those the hello
   cannot be built without a session (UtlsPreSharedKeyExtension.Read returns ErrEmptyPsk) *)
Definition has_psk (p : parrot) : bool := existsb is_spsk (sp_exts (p_spec p)).
Theorem parrots_preset_ok_no_omit :
  forallb (fun p => preset_ok (p_spec p) 255 false || has_psk p) Parrots.all = true
  /\ map p_name (filter has_psk Parrots.all)
     = map p_name [Parrots.p_Chrome_100_PSK; Parrots.p_Chrome_112_PSK_Shuf; Parrots.p_Chrome_114_Padding_PSK_Shuf; Parrots.p_Chrome_115_PQ_PSK].
Proof. split; vm_compute; reflexivity. Qed.

(* ApplyPreset sends compression [0] whatever the spec says (PresetP.compression_not_copied): every table entry says [0] *)
Lemma parrots_comp p : In p Parrots.all -> sp_comp (p_spec p) = [0].
Proof.
  assert (T : forallb (fun q => bytes_eqb (sp_comp (p_spec q)) [0]) Parrots.all = true) by (vm_compute; reflexivity).
  intros Hin. apply bytes_eqb_eq. exact (proj1 (forallb_forall _ _) T p Hin).
Qed.

Theorem parrots_draw_preset_ok p swaps exts' : In p Parrots.all ->
  shuffle ParrotSpec.fixedb swaps (sp_exts (p_spec p)) = Ok exts' -> preset_ok (with_exts (p_spec p) exts') 255 true = true.
Proof.
  intros Hin Hs. apply (preset_ok_shuffle _ _ _ swaps); [|exact Hs].
  pose proof parrots_preset_ok as T. rewrite forallb_forall in T. exact (T p Hin).
Qed.
