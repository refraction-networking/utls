(* Model of UConn.handshakeContext (u_conn.go:317-423) for a non-QUIC connection, as seen by ONE caller running
   among any number of other goroutines (C26).

   The distinguished caller and its interrupter goroutine are modelled statement by statement. Everything the
   other goroutines can do to the shared state — other Handshake/HandshakeContext/Read/Write callers running the
   same code, their interrupters, Close — is the environment: it may take and release handshakeMutex and the
   input lock, run the handshake body under the mutex when no result exists yet, and close the underlying
   connection. Because every caller runs this same code, the caller's own effects on the shared state are
   environment steps too ([guarantee_p] in Proofs/HsLockP.v, C26_guarantee), so the statements proved for the
   distinguished caller hold for each of N callers, for every N.

   The handshake body (BuildHandshakeState + handshakeFn, u_conn.go:375-396) is a single step that returns ok or an
   error; I/O inside it ends by the I/O deadline or by the connection being closed (fairness assumption). *)
From UV Require Import Base.Common.

(* Parked: a reader sits in Read holding the input lock and waits for data from the peer (conn.go Read: Handshake(),
   then c.in.Lock(), then readRecord); nothing on this side can make it let go *)
Inductive owner := Free | Mine | Others | Parked.
Inductive intr := INone | IWait | IFired | INil.
(* results: nil, the stored handshake error, the (unstored) BuildHandshakeState error, the caller's ctx error *)
Inductive result := RNil | RHsErr | RBuildErr | RCtx.

Inductive pc :=
| P0        (* u_conn.go:321 fast path *)
| P1        (* 325-359 context setup, interrupter spawn *)
| P2        (* 361 handshakeMutex.Lock() *)
| P3        (* 364-369 handshakeErr / isHandshakeComplete under the mutex *)
| P4        (* 371 c.in.Lock() *)
| P5        (* 375-380 BuildHandshakeState *)
| P6        (* 382-396 handshakeFn, handshakes++, flush *)
| PUnlIn    (* deferred c.in.Unlock() *)
| PUnlMu    (* deferred c.handshakeMutex.Unlock() *)
| PDefer    (* 342-343 deferred close(done) *)
| PWaitI    (* 344 <-interruptRes *)
| PRet.     (* deferred cancel(); returned *)

Record state := mkState {
  mutex : owner;           (* handshakeMutex *)
  inl : owner;             (* c.in lock *)
  complete : bool;         (* isHandshakeComplete *)
  hs_err : bool;           (* handshakeErr != nil *)
  conn_closed : bool;      (* c.conn.Close() has been called by someone *)
  cancellable : bool;      (* ctx.Done() != nil *)
  cancelled : bool;        (* this caller's ctx is cancelled *)
  done_closed : bool;      (* close(done) happened *)
  it : intr;               (* interrupter goroutine / interruptRes *)
  p : pc;
  ret : option result;
  reneg : bool             (* ghost: the peer has started a renegotiation (TLS <= 1.2 HelloRequest) at some point *)
}.

Definition init (cn : bool) (mu il : owner) (co he cl ca : bool) : state :=
  mkState mu il co he cl cn ca false INone P0 None false.

Inductive label :=
| LC                       (* next statement of the caller *)
| LBodyOk | LBodyErr | LBuildErr   (* outcomes of P5/P6 *)
| LIFire | LIDone          (* interrupter: select on handshakeCtx.Done() / done, u_conn.go:350-357 *)
| LCancel                  (* environment: this caller's ctx is cancelled *)
| EAcquire | ERelease | EInAcquire | EInRelease | EBodyOk | EBodyErr | ECloseConn
| EReadPark | EReadWake    (* a reader whose (implicit) Handshake has returned nil enters / leaves Read *)
| ERenegStart.             (* that reader receives a HelloRequest: UConn.handleRenegotiation, u_conn.go:986-1040 *)

Definition upd (s : state) (mu il : owner) (co he cl : bool) (dc : bool) (i : intr) (q : pc) (r : option result) : state :=
  mkState mu il co he cl (cancellable s) (cancelled s) dc i q r (reneg s).
Definition goto (s : state) (q : pc) : state :=
  upd s (mutex s) (inl s) (complete s) (hs_err s) (conn_closed s) (done_closed s) (it s) q (ret s).
Definition goto_ret (s : state) (q : pc) (r : result) : state :=
  upd s (mutex s) (inl s) (complete s) (hs_err s) (conn_closed s) (done_closed s) (it s) q (Some r).

Definition step (s : state) (l : label) : option state :=
  match l with
  | LC =>
      match p s with
      | P0 => if complete s then Some (goto_ret s PRet RNil) else Some (goto s P1)
      | P1 => if cancellable s
              then Some (upd s (mutex s) (inl s) (complete s) (hs_err s) (conn_closed s) (done_closed s) IWait P2 (ret s))
              else Some (goto s P2)
      | P2 => match mutex s with
              | Free => Some (upd s Mine (inl s) (complete s) (hs_err s) (conn_closed s) (done_closed s) (it s) P3 (ret s))
              | _ => None end
      | P3 => if hs_err s then Some (goto_ret s PUnlMu RHsErr)
              else if complete s then Some (goto_ret s PUnlMu RNil)
              else Some (goto s P4)
      | P4 => match inl s with
              | Free => Some (upd s (mutex s) Mine (complete s) (hs_err s) (conn_closed s) (done_closed s) (it s) P5 (ret s))
              | _ => None end
      | P5 => Some (goto s P6)                      (* BuildHandshakeState succeeded *)
      | P6 => None                                  (* see LBodyOk / LBodyErr *)
      | PUnlIn => Some (upd s (mutex s) Free (complete s) (hs_err s) (conn_closed s) (done_closed s) (it s) PUnlMu (ret s))
      | PUnlMu => Some (upd s Free (inl s) (complete s) (hs_err s) (conn_closed s) (done_closed s) (it s) PDefer (ret s))
      | PDefer => match it s with
                  | INone => Some (goto s PRet)
                  | _ => Some (upd s (mutex s) (inl s) (complete s) (hs_err s) (conn_closed s) true (it s) PWaitI (ret s))
                  end
      | PWaitI => match it s with
                  | IFired => Some (goto_ret s PRet RCtx)     (* u_conn.go:344-347 *)
                  | INil => Some (goto s PRet)
                  | _ => None
                  end
      | PRet => None
      end
  | LBuildErr => match p s with P5 => Some (goto_ret s PUnlIn RBuildErr) | _ => None end      (* u_conn.go:377-379 *)
  | LBodyOk => match p s with
               | P6 => Some (upd s (mutex s) (inl s) true (hs_err s) (conn_closed s) (done_closed s) (it s) PUnlIn (Some RNil))
               | _ => None end
  | LBodyErr => match p s with
                | P6 => Some (upd s (mutex s) (inl s) (complete s) true (conn_closed s) (done_closed s) (it s) PUnlIn (Some RHsErr))
                | _ => None end
  | LIFire => match it s with
              | IWait => if cancelled s
                         then Some (upd s (mutex s) (inl s) (complete s) (hs_err s) true (done_closed s) IFired (p s) (ret s))
                         else None
              | _ => None end
  | LIDone => match it s with
              | IWait => if done_closed s then Some (upd s (mutex s) (inl s) (complete s) (hs_err s) (conn_closed s) (done_closed s) INil (p s) (ret s))
                         else None
              | _ => None end
  | LCancel => if cancellable s
               then Some (mkState (mutex s) (inl s) (complete s) (hs_err s) (conn_closed s) (cancellable s) true (done_closed s) (it s) (p s) (ret s) (reneg s))
               else None
  | EAcquire => match mutex s with
                | Free => Some (upd s Others (inl s) (complete s) (hs_err s) (conn_closed s) (done_closed s) (it s) (p s) (ret s))
                | _ => None end
  | ERelease => match mutex s with
                | Others => Some (upd s Free (inl s) (complete s) (hs_err s) (conn_closed s) (done_closed s) (it s) (p s) (ret s))
                | _ => None end
  | EInAcquire => match inl s with
                  | Free => Some (upd s (mutex s) Others (complete s) (hs_err s) (conn_closed s) (done_closed s) (it s) (p s) (ret s))
                  | _ => None end
  | EInRelease => match inl s with
                  | Others => Some (upd s (mutex s) Free (complete s) (hs_err s) (conn_closed s) (done_closed s) (it s) (p s) (ret s))
                  | _ => None end
  | EBodyOk => match mutex s, inl s with
               | Others, Others => if hs_err s || complete s then None
                                   else Some (upd s Others Others true false (conn_closed s) (done_closed s) (it s) (p s) (ret s))
               | _, _ => None end
  | EBodyErr => match mutex s, inl s with
                | Others, Others => if hs_err s || complete s then None
                                    else Some (upd s Others Others false true (conn_closed s) (done_closed s) (it s) (p s) (ret s))
                | _, _ => None end
  | ECloseConn => Some (upd s (mutex s) (inl s) (complete s) (hs_err s) true (done_closed s) (it s) (p s) (ret s))
  (* Read calls Handshake() first and goes on only when it returned nil, i.e. the handshake is complete *)
  | EReadPark => match inl s with
                 | Free => if complete s then Some (upd s (mutex s) Parked (complete s) (hs_err s) (conn_closed s) (done_closed s) (it s) (p s) (ret s)) else None
                 | _ => None end
  | EReadWake => match inl s with
                 | Parked => Some (upd s (mutex s) Free (complete s) (hs_err s) (conn_closed s) (done_closed s) (it s) (p s) (ret s))
                 | _ => None end
  (* handleRenegotiation runs inside Read, i.e. with the input lock held: it takes handshakeMutex and only then clears
     isHandshakeComplete (u_conn.go:1020-1023; a Go-built hello is then rebuilt from scratch, inside the body step); the reader now is a handshake holder of both locks and runs the body *)
  | ERenegStart => match inl s, mutex s with
                   | Parked, Free => if complete s && negb (hs_err s)
                                     then Some (mkState Others Others false (hs_err s) (conn_closed s) (cancellable s) (cancelled s)
                                                        (done_closed s) (it s) (p s) (ret s) true)
                                     else None
                   | _, _ => None end
  end.

Definition all_labels : list label :=
  [LC; LBodyOk; LBodyErr; LBuildErr; LIFire; LIDone; LCancel; EAcquire; ERelease; EInAcquire; EInRelease; EBodyOk; EBodyErr; ECloseConn;
   EReadPark; EReadWake; ERenegStart].
Definition enabledb (s : state) (l : label) : bool := match step s l with Some _ => true | None => false end.
(* progress may not rely on a cancellation, on a new lock acquisition by others, on Close, or on a parked reader
   being woken (that needs data from the peer, which may itself be waiting for this side to write) *)
Definition progress_label (l : label) : bool :=
  match l with LCancel | EAcquire | EInAcquire | ECloseConn | EReadPark | EReadWake | ERenegStart => false | _ => true end.
Definition can_progress (s : state) : bool := existsb (fun l => progress_label l && enabledb s l) all_labels.
Definition returned (s : state) : bool := match p s with PRet => true | _ => false end.

(* statements that read or write the shared, non-atomic handshake fields (handshakeErr, handshakes, the
   handshake state, hand/rawInput buffers) *)
Definition touches_hs (q : pc) : bool := match q with P3 | P5 | P6 => true | _ => false end.
Definition touches_in (q : pc) : bool := match q with P5 | P6 => true | _ => false end.

(* the shared part, for late_cancel_noop *)
Definition shared (s : state) := (mutex s, inl s, complete s, hs_err s, conn_closed s).

(* what a returned caller may report, given the final shared state (the runner's oracle) *)
(* rn: a renegotiation has been started by the peer (it clears isHandshakeComplete again) *)
Definition outcome_ok (r : result) (co he cl ca rn : bool) : bool :=
  match r with
  | RNil => co || rn
  | RHsErr => he && negb co
  | RBuildErr => true
  | RCtx => cl && ca
  end.

(* the shared state as another goroutine sees it, and the changes the environment is allowed to make *)
Definition swap (o : owner) : owner := match o with Mine => Others | x => x end.
Definition view (s : state) := (swap (mutex s), swap (inl s), complete s, hs_err s, conn_closed s).
Definition owner_eqb (a b : owner) : bool :=
  match a, b with Free, Free | Mine, Mine | Others, Others | Parked, Parked => true | _, _ => false end.
Definition env_allows (a b : owner * owner * bool * bool * bool) : bool :=
  let '(mu, il, co, he, cl) := a in
  let '(mu', il', co', he', cl') := b in
  (* locks *)
  (  (owner_eqb mu Free && owner_eqb mu' Others || owner_eqb mu Others && owner_eqb mu' Free) && owner_eqb il il' && eqb co co' && eqb he he' && eqb cl cl'
  || (owner_eqb il Free && owner_eqb il' Others || owner_eqb il Others && owner_eqb il' Free
      || owner_eqb il Free && owner_eqb il' Parked && co || owner_eqb il Parked && owner_eqb il' Free)
     && owner_eqb mu mu' && eqb co co' && eqb he he' && eqb cl cl'
  (* the body, under both locks, when no result exists *)
  || owner_eqb mu Others && owner_eqb il Others && owner_eqb mu' Others && owner_eqb il' Others && negb co && negb he
     && (co' && negb he' || negb co' && he') && eqb cl cl'
  (* a parked reader starts a renegotiation: takes the mutex, clears complete *)
  || owner_eqb mu Free && owner_eqb il Parked && co && negb he && owner_eqb mu' Others && owner_eqb il' Others && negb co' && negb he' && eqb cl cl'
  (* closing the connection *)
  || owner_eqb mu mu' && owner_eqb il il' && eqb co co' && eqb he he' && negb cl && cl').

Fixpoint run (s : state) (ls : list label) : option state :=
  match ls with [] => Some s | l :: r => match step s l with Some s' => run s' r | None => None end end.
