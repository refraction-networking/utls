(* C04 — GREASE values are well-formed, distinct where required, and fresh.
   STATE: the model describes /repo WITH fixes/C04-quic-grease-version.diff
   (GetGREASEVersion masks before OR-ing); on the code as shipped the statement
   C04_quic_version is false (witness: draw 1 -> 0x0a0a0a0b, see C04_ex_unfixed_witness,
   replayed on the real code by the runner's corpus case quic-version/draw=1). *)
From UV Require Import Base.Common Model.Grease Proofs.GreaseP.

(* TLS: form. Every value GetBoringGREASEValue returns, for every seed array and index,
      is one of the 16 reserved values 0xwAwA (both bytes equal, low nibble A). *)
Theorem C04_grease_form : forall sd idx v, boring_grease sd idx = Ok v ->
  is_grease v = true /\ exists w, w < 16 /\ v = grease_val w.
Proof. exact boring_grease_form. Qed.
Print Assumptions C04_grease_form.

(* isGREASEUint16 accepts exactly those 16 values. *)
Theorem C04_is_grease_exact : forall v, v < 65536 ->
  (is_grease v = true <-> exists w, w < 16 /\ v = grease_val w).
Proof. intros v _. apply is_grease_iff. Qed.
Print Assumptions C04_is_grease_exact.

(* for all 2^80 seed byte strings: the two extension code points differ after the ^0x1010 fix-up *)
Theorem C04_ext_seed_distinct : forall gb sd, grease_seed gb = Ok sd ->
  exists v1 v2, boring_grease sd ssl_grease_extension1 = Ok v1 /\
                boring_grease sd ssl_grease_extension2 = Ok v2 /\ v1 <> v2.
Proof.
  intros gb sd H. destruct (grease_seed_shape _ _ H) as (c & g & e1 & e2 & v & -> & NE).
  exists (grease_word e1), (grease_word e2). split; [reflexivity | split; [reflexivity | exact NE]].
Qed.
Print Assumptions C04_ext_seed_distinct.

(* in any hello ApplyPreset produces, the GREASE extensions carry pairwise different code points *)
Theorem C04_ext_distinct : forall gb suites exts suites' exts',
  apply_preset_grease gb suites exts = Ok (suites', exts') -> NoDup (grease_ext_values exts').
Proof.
  intros gb suites exts suites' exts' H. destruct (apply_preset_inv _ _ _ _ _ H) as (sd & Hs & _ & He).
  destruct (C04_ext_seed_distinct _ _ Hs) as (v1 & v2 & H1 & H2 & NE).
  rewrite (apply_exts_values sd exts 0%nat exts' He v1 v2 H1 H2). cbn [skipn].
  destruct (count_grease exts) as [|[|k]]; cbn [firstn]; rewrite ?firstn_nil; repeat constructor; cbn; intuition congruence.
Qed.
Print Assumptions C04_ext_distinct.

(* every GREASE group in supported_groups and in key_share is the one group-slot value *)
Theorem C04_group_consistent : forall gb suites exts suites' exts',
  apply_preset_grease gb suites exts = Ok (suites', exts') ->
  exists g, slot gb ssl_grease_group = Ok g /\ is_grease g = true /\
    forall e c, In e exts' -> In c (groups_of e) -> is_grease c = true -> c = g.
Proof.
  intros gb suites exts suites' exts' H. destruct (apply_preset_inv _ _ _ _ _ H) as (sd & Hs & _ & He).
  destruct (slots_defined gb sd ssl_grease_group Hs ltac:(cbv; lia)) as (g & Hg).
  exists g. split; [unfold slot; rewrite Hs; exact Hg|]. split; [eapply boring_is_grease; exact Hg|].
  intros e c Hin Hc Gc. pose proof (ext_rel_groups _ _ _ (apply_exts_rel _ _ _ _ He) e c Hin Hc Gc). congruence.
Qed.
Print Assumptions C04_group_consistent.

(* placement: GREASE positions stay reserved values, everything else (incl. kinds and order) is untouched *)
Theorem C04_positions_reserved : forall gb suites exts suites' exts',
  apply_preset_grease gb suites exts = Ok (suites', exts') ->
  Forall2 reserved_rel suites suites' /\ Forall2 ext_reserved exts exts'.
Proof.
  intros gb suites exts suites' exts' H. destruct (apply_preset_inv _ _ _ _ _ H) as (sd & Hs & Hc & He). split.
  - eapply regreased_reserved; [apply map_regrease; exact Hc | apply boring_is_grease].
  - exact (ext_rel_reserved sd _ _ (apply_exts_rel _ _ _ _ He)).
Qed.
Print Assumptions C04_positions_reserved.

Theorem C04_cipher_slot : forall gb suites exts suites' exts',
  apply_preset_grease gb suites exts = Ok (suites', exts') ->
  exists g, slot gb ssl_grease_cipher = Ok g /\ forall c, In c suites' -> is_grease c = true -> c = g.
Proof.
  intros gb suites exts suites' exts' H. destruct (apply_preset_inv _ _ _ _ _ H) as (sd & Hs & Hc & _).
  destruct (slots_defined gb sd ssl_grease_cipher Hs ltac:(cbv; lia)) as (g & Hg).
  exists g. split; [unfold slot; rewrite Hs; exact Hg|].
  intros c Hin Gc. pose proof (regreased_out _ _ _ (map_regrease _ _ _ _ Hc) c Hin Gc). congruence.
Qed.
Print Assumptions C04_cipher_slot.

(* ApplyPreset succeeds (GREASE-wise) whenever 10 seed bytes arrive and at most two GREASE extensions are present *)
Theorem C04_preset_total : forall gb suites exts, length gb = 10%nat -> (count_grease exts <= 2)%nat ->
  exists suites' exts', apply_preset_grease gb suites exts = Ok (suites', exts').
Proof.
  intros gb suites exts Hl Hc. unfold apply_preset_grease.
  destruct (grease_seed gb) as [sd| |] eqn:Hs.
  2,3: unfold grease_seed in Hs; rewrite Hl in Hs; discriminate.
  destruct (grease_seed_shape _ _ Hs) as (c & g & e1 & e2 & v & -> & _). cbn [bind].
  destruct (map_regrease_ok [c; g; e1; e2; v] ssl_grease_cipher suites ltac:(cbv; lia)) as (s' & ->). cbn [bind].
  destruct (apply_exts_ok [c; g; e1; e2; v] exts eq_refl 0%nat ltac:(lia)) as (e' & ->). cbn [bind].
  eexists; eexists; reflexivity.
Qed.
Print Assumptions C04_preset_total.

(* freshness, as far as it is a property of the code: every slot can take each of the 16 values,
      and a uniform seed byte yields a uniform value (16 of 256 bytes per value) *)
Theorem C04_reachable : forall idx w, (idx < ssl_grease_last_index)%nat -> w < 16 ->
  exists gb, length gb = 10%nat /\ bytes_ok gb /\ slot gb idx = Ok (grease_val w).
Proof. exact reachable. Qed.
Print Assumptions C04_reachable.

Theorem C04_uniform : forall w, w < 16 ->
  length (filter (fun b => grease_word b =? grease_val w) (nrange 256)) = 16%nat.
Proof. exact uniform. Qed.
Print Assumptions C04_uniform.

(* QUIC transport parameter ids: 31*N+27 and below 2^62 for every admissible multiplier *)
Theorem C04_quic_id : forall k, k < GREASE_MAX_MULTIPLIER ->
  grease_id (Some k) mod 31 = 27 /\ grease_id (Some k) < two62 /\ is_grease_id (grease_id (Some k)) = true.
Proof.
  intros k Hk. rewrite (grease_id_plain k Hk). rewrite grease_max_multiplier in Hk.
  unfold two62, is_grease_id. repeat split.
  - rewrite N.mod_add by discriminate. reflexivity.
  - lia.
  - apply andb_true_iff; split; [apply N.leb_le; lia|].
    replace (27 + k * 31 - 27) with (k * 31) by lia.
    rewrite N.mod_mul by discriminate. reflexivity.
Qed.
Print Assumptions C04_quic_id.

Theorem C04_quic_id_exact : forall id, is_grease_id id = true <-> exists n, id = 31 * n + 27.
Proof.
  intros id. unfold is_grease_id. rewrite andb_true_iff, N.leb_le, N.eqb_eq. split.
  - intros [Hle Hm]. exists ((id - 27) / 31). lia.
  - intros (n & ->). lia.
Qed.

(* in particular no id below 27 is a GREASE id (the guard `id >= 27` of IsGREASEID matters: without it the
   unsigned subtraction wraps and 11 would pass, since 2^64 = 16 mod 31) *)
Theorem C04_quic_id_small : forall id, id < 27 -> is_grease_id id = false.
Proof.
  intros id H. unfold is_grease_id. destruct (N.leb_spec 27 id) as [Hle|_]; [lia | reflexivity].
Qed.
Print Assumptions C04_quic_id_small.

Theorem C04_quic_tp_id : forall o d, (forall k, d = Some k -> k < GREASE_MAX_MULTIPLIER) ->
  is_grease_id (tp_grease_id o d) = true.
Proof.
  intros o d Hd. unfold tp_grease_id. destruct (is_grease_id o) eqn:E; [exact E|].
  destruct d as [k|]; [apply C04_quic_id, Hd; reflexivity | reflexivity].
Qed.
Print Assumptions C04_quic_tp_id.

(* QUIC GREASE versions: 0x?a?a?a?a for every draw (no bound on the draw: the code narrows it) *)
Theorem C04_quic_version : forall d,
  is_grease_version (grease_version d) = true /\ grease_version d < 4294967296.
Proof.
  intros [x|]; [|split; reflexivity]. unfold is_grease_version, grease_version.
  set (y := u32 _). split.
  - apply N.eqb_eq. rewrite N.land_lor_distr_l, <- N.land_assoc.
    change (N.land 4042322160 252645135) with 0. rewrite N.land_0_r. reflexivity.
  - assert (E : N.land (N.lor (N.land y 4042322160) 168430090) (N.ones 32) = N.lor (N.land y 4042322160) 168430090).
    { rewrite N.land_lor_distr_l, <- N.land_assoc. reflexivity. }
    rewrite <- E, N.land_ones. apply N.mod_lt. discriminate.
Qed.
Print Assumptions C04_quic_version.

Theorem C04_version_information : forall avail draws,
  Forall2 (fun a b => if a =? VERSION_GREASE then is_grease_version b = true else b = a)
          avail (vi_versions avail draws).
Proof.
  induction avail as [|v r IH]; intros draws; cbn [vi_versions]; [constructor|].
  destruct (v =? VERSION_GREASE) eqn:E; constructor; try apply IH; rewrite E.
  - apply C04_quic_version.
  - reflexivity.
Qed.
Print Assumptions C04_version_information.

(* Non-vacuity and the defect witness. *)
Example C04_ex_seed : exists sd, grease_seed [16;0; 32;0; 48;0; 48;0; 64;0] = Ok sd /\
  boring_grease sd ssl_grease_extension1 = Ok 14906 /\ boring_grease sd ssl_grease_extension2 = Ok 10794.
Proof. eexists. vm_compute. repeat split. Qed.
Example C04_ex_preset :
  apply_preset_grease [16;0; 32;0; 48;0; 48;0; 64;0] [2570; 4865]
    [XGrease 2570 []; XCurves [2570; 29]; XKeyShare [2570; 29]; XVersions [2570; 772]; XGrease 2570 []]
  = Ok ([6682; 4865], [XGrease 14906 []; XCurves [10794; 29]; XKeyShare [10794; 29]; XVersions [19018; 772]; XGrease 10794 [0]]).
Proof. vm_compute. reflexivity. Qed.
Example C04_ex_third_grease_ext :
  apply_preset_grease [0;0;0;0;0;0;0;0;0;0] [] [XGrease 2570 []; XGrease 2570 []; XGrease 2570 []] = Err E_TOO_MANY_GREASE.
Proof. vm_compute. reflexivity. Qed.
Example C04_ex_quic_id : 5 < GREASE_MAX_MULTIPLIER /\ grease_id (Some 5) = 182.
Proof. vm_compute. split; reflexivity. Qed.
(* the shipped expression `x | 0x0a0a0a0a` on draw 1 gives 0x0a0a0a0b: not reserved *)
Example C04_ex_unfixed_witness : grease_version_unfixed (Some 1) = 168430091 /\
  is_grease_version (grease_version_unfixed (Some 1)) = false /\ grease_version (Some 1) = 168430090.
Proof. vm_compute. repeat split. Qed.
