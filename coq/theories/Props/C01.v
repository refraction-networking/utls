(* C01 — The ClientHello on the wire is exactly the hello the caller built and inspected.

   Reading guide (Model/UConn.v).  A state carries clientHelloBuildStatus, whether the preset was applied, what
   the preset yields on this connection (u_spec), the five marshalled header fields of HandshakeState.Hello
   (u_hdr), uconn.Extensions (u_exts), Hello.Raw (u_raw), and the list of ClientHello handshake messages
   written so far (u_sent).  [run s ops] plays any list of public calls (BuildHandshakeState, ...WithoutSession,
   SetClientRandom, SetSNI, edits of Extensions / CipherSuites / SessionId, Handshake); [handshake srv s] is
   Handshake against a server that answers with a ServerHello (SrvPlain) or a legal HelloRetryRequest (SrvHRR).
   HelloGolang (status BuildByGoTLS) never occurs: [build] panics on it, so every Ok below excludes it.
   marshal_hello is the (fixed) MarshalClientHelloNoECH of C02. *)
From UV Require Import Base.Common Model.Wire Model.Ext Model.ExtSpec Model.Strict.
From UV Require Import Proofs.StrictP.
From UV Require Import Model.Padding Model.Marshal Model.ChMarshal Proofs.ChMarshalP Model.UConn Proofs.UConnP.

(* After ANY history of public calls, a Handshake that gets as far as writing: the first ClientHello it
   writes is Hello.Raw as rebuilt at handshake start, and that is the marshalling of the header fields and
   extension objects the connection holds at that moment. *)
Theorem C01_first_record : forall bbs padto s0 ops srv s',
  let s := run bbs padto s0 ops in
  u_done s = false -> handshake bbs padto srv s = (s', Ok tt) ->
  exists s1, build bbs padto true s = (s1, Ok tt)
    /\ nth (length (u_sent s)) (u_sent s') [] = u_raw s1
    /\ marshal_hello bbs padto (u_hdr s1) (u_exts s1) = Ok (u_raw s1).
Proof. intros bbs padto s0 ops srv s' s. apply first_record. Qed.
Print Assumptions C01_first_record.

(* BuildHandshakeState, then ANY sequence of documented edits, then Handshake: the fields at handshake
   start are the built fields with the edits applied in order (nothing is re-applied or reset), and the
   first ClientHello is their marshalling. *)
Theorem C01_edits_reach_wire : forall bbs padto s0 ops sb eds srv s',
  build bbs padto true (run bbs padto s0 ops) = (sb, Ok tt) -> u_done sb = false ->
  forallb is_edit eds = true ->
  handshake bbs padto srv (run bbs padto sb eds) = (s', Ok tt) ->
  let hf := edits eds (u_hdr sb, u_exts sb) in
  exists first, nth (length (u_sent sb)) (u_sent s') [] = first
    /\ marshal_hello bbs padto (fst hf) (snd hf) = Ok first.
Proof.
  intros bbs padto s0 ops sb eds srv s' Hb Hd Hall H.
  destruct (build_ok bbs padto true _ sb Hb) as (_ & _ & _ & Hst & _).
  apply (edits_reach_wire bbs padto sb eds srv s' (Hst eq_refl) Hd Hall H).
Qed.
Print Assumptions C01_edits_reach_wire.

(* ... and every edit is visible in those bytes: the independent strict parser of C02 reads back the
   random, session id, cipher suites (and version, compression methods) the fields hold, every extension
   object that writes anything appears with its RFC body, and no extension type appears that is not in
   uconn.Extensions.  (Premise: the edited hello is still inside C02's precondition.) *)
Theorem C01_edits_visible : forall bbs padto h es raw,
  wf_specb h es = true -> marshal_hello bbs padto h es = Ok raw ->
  exists a, strict_parse raw = Some a
    /\ c_vers a = h_vers h /\ c_random a = h_random h /\ c_sid a = h_sid h /\ c_suites a = h_suites h /\ c_comp a = h_comp h
    /\ (forall e, In e es -> is_padding e = false -> ext_absent e = false -> In (ext_id e, ext_body e) (c_exts a))
    /\ (forall t, In t (ext_types a) -> In t (map ext_id es)).
Proof.
  intros bbs padto h es raw Hwf Hm. destruct (ok_has_length bbs padto h es raw Hm) as (p & Hp & Hfit & _).
  destruct (marshal_hello_ok bbs padto h es p Hwf Hp Hfit) as (present & Hm2 & Hsub & Hok & Hin).
  rewrite Hm in Hm2. inversion Hm2; subst raw.
  eexists. split; [apply strict_parse_layout; exact Hok|]. cbn [c_vers c_random c_sid c_suites c_comp c_exts].
  repeat split; try reflexivity; [exact Hin|].
  intros t Ht. unfold ext_types in Ht. cbn [c_exts] in Ht. eapply subseq_In; eassumption.
Qed.
Print Assumptions C01_edits_visible.

(* what each documented mutator, applied last, leaves in the fields that are marshalled *)
Theorem C01_mutators : forall eds hf,
  (forall r, blen r = 32 -> h_random (fst (edits (eds ++ [OSetClientRandom r]) hf)) = r)
  /\ (forall b, h_sid (fst (edits (eds ++ [OSetSessionId b]) hf)) = b)
  /\ (forall l, h_suites (fst (edits (eds ++ [OSetCipherSuites l]) hf)) = l)
  /\ (forall host x, In (ESNI x) (snd (edits eds hf)) -> In (ESNI host) (snd (edits (eds ++ [OSetSNI host]) hf)))
  /\ (forall i e, (i < length (snd (edits eds hf)))%nat -> In e (snd (edits (eds ++ [OEditExt i e]) hf)))
  /\ (forall i e, In e (snd (edits (eds ++ [OInsertExt i e]) hf)))
  /\ (forall i, NoDup (map ext_id (snd (edits eds hf))) -> (i < length (snd (edits eds hf)))%nat ->
        ~ In (ext_id (nth i (snd (edits eds hf)) ESCT)) (map ext_id (snd (edits (eds ++ [ORemoveExt i]) hf)))).
Proof.
  intros eds hf. repeat split; intros *; rewrite edits_app; destruct (edits eds hf) as [h es]; cbn.
  - intros Hr. rewrite Hr. reflexivity.
  - reflexivity.
  - reflexivity.
  - intros Hin. apply in_map_iff. exists (ESNI x). split; [reflexivity | exact Hin].
  - intros Hi. unfold set_nth. apply Nat.ltb_lt in Hi. rewrite Hi. apply in_or_app. right. left. reflexivity.
  - unfold insert_nth. apply in_or_app. right. left. reflexivity.
  - intros Hnd Hi. unfold remove_nth. rewrite <- (firstn_skipn i es) in Hnd at 1. rewrite map_app in Hnd.
    assert (Hsk : skipn i es = nth i es ESCT :: skipn (S i) es).
    { clear Hnd. revert i Hi. induction es as [|x es IH]; intros i Hi; [cbn in Hi; lia|].
      destruct i; [reflexivity|]. cbn [skipn nth]. apply IH. cbn in Hi. lia. }
    rewrite Hsk in Hnd. cbn [map] in Hnd. apply NoDup_remove_2 in Hnd. rewrite map_app. exact Hnd.
Qed.
Print Assumptions C01_mutators.

(* After the handshake, Hello.Raw is the last ClientHello actually sent: the only one after a
   ServerHello, the second one after a HelloRetryRequest; and it is the marshalling of the fields and
   extension objects the connection holds afterwards. *)
Theorem C01_raw_after : forall bbs padto s0 ops srv s',
  let s := run bbs padto s0 ops in
  u_done s = false -> handshake bbs padto srv s = (s', Ok tt) ->
  u_raw s' = last (u_sent s') [] /\ marshal_hello bbs padto (u_hdr s') (u_exts s') = Ok (u_raw s')
  /\ length (u_sent s') = (length (u_sent s) + match srv with SrvPlain => 1 | _ => 2 end)%nat.
Proof. intros bbs padto s0 ops srv s' s. apply raw_after. Qed.
Print Assumptions C01_raw_after.

(* the second ClientHello after a HelloRetryRequest: same header fields, the extension objects with the
   key share replaced and the cookie set or inserted *)
Theorem C01_hrr_second : forall bbs padto s0 ops g key cookie idx s',
  let s := run bbs padto s0 ops in
  u_done s = false -> handshake bbs padto (SrvHRR g key cookie idx) s = (s', Ok tt) ->
  exists s1 raw2, build bbs padto true s = (s1, Ok tt)
    /\ hrr_exts g key cookie idx (u_exts s1) = Ok (u_exts s')
    /\ marshal_hello bbs padto (u_hdr s1) (u_exts s') = Ok raw2
    /\ u_sent s' = u_sent s ++ [u_raw s1; raw2] /\ u_raw s' = raw2.
Proof.
  intros bbs padto s0 ops g key cookie idx s' s Hd H.
  destruct (handshake_ok bbs padto _ s s' Hd H) as (s1 & Hb & _ & _ & raw2 & H1 & H2 & H3 & H4).
  exists s1, raw2. auto.
Qed.
Print Assumptions C01_hrr_second.

(* non-vacuity: a concrete history *)
Definition C01_ex_hdr : hello_hdr :=
  {| h_vers := 771; h_random := repeat 7 32; h_sid := repeat 9 32; h_suites := [4865; 49199]; h_comp := [0] |}.
Definition C01_ex_exts : list ext :=
  [ ESNI [97; 46; 98]; ESupportedCurves [29; 23]; ESupportedVersions [772; 771]; EKeyShare [(29, repeat 5 32)];
    ESignatureAlgorithms [1027; 2052]; EPadding 0 false PadBoring ].
Definition C01_ex_ops : list op :=
  [ OBuild; OSetClientRandom (repeat 200 32); OSetSNI [120; 46; 121; 46; 122]; OSetSessionId [1; 2; 3];
    OSetCipherSuites [4866]; OInsertExt 1 (EALPN [[104; 50]]); OEditExt 5 (ESignatureAlgorithms [2057]) ].

Example C01_ex_history :
  let s := run (fun _ => 512) 0%Z (init (Ok (C01_ex_hdr, C01_ex_exts))) C01_ex_ops in
  let hf := (u_hdr s, u_exts s) in
  wf_specb (fst hf) (snd hf) = true /\
  match handshake (fun _ => 512) 0%Z (SrvHRR 23 (repeat 4 65) [9; 9; 9] 2) s with
  | (s', Ok _) =>
      match u_sent s' with
      | [first; second] =>
          u_raw s' = second /\ first <> second
          /\ option_map (fun a => (c_random a, c_sid a, c_suites a, ext_types a)) (strict_parse first)
             = Some (repeat 200 32, [1; 2; 3], [4866], [0; 16; 10; 43; 51; 13])
          /\ option_map ext_types (strict_parse second) = Some [0; 16; 44; 10; 43; 51; 13]
          /\ In (0, ext_body (ESNI [120; 46; 121; 46; 122])) (match strict_parse first with Some a => c_exts a | None => [] end)
          /\ In (51, ext_body (EKeyShare [(23, repeat 4 65)])) (match strict_parse second with Some a => c_exts a | None => [] end)
      | _ => False
      end
  | _ => False
  end.
Proof. vm_compute. repeat split; try reflexivity; try discriminate; auto 10. Qed.
