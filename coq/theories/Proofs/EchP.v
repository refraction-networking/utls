(* C15, the inner hello of Model/Ech.v: reader-after-writer lemmas of the codec, then [roundtrip]:
   decodeInnerClientHello rebuilds what encodeInnerClientHello compressed, provided the outer hello carries the
   compressed ids in the order of the ech_outer_extensions list (subseq) with the inner hello's bodies. *)
From UV Require Import Base.Common Model.Ech.

Lemma ok_inj {A} (a b : A) : Ok a = Ok b -> a = b.
Proof. intros H. injection H. auto. Qed.

Lemma len_app a b : len (a ++ b) = len a + len b.
Proof. unfold len. rewrite app_length. lia. Qed.

Lemma len_cons x a : len (x :: a) = 1 + len a.
Proof. unfold len. cbn [length]. lia. Qed.

Lemma len_nil : len [] = 0.
Proof. reflexivity. Qed.

Lemma len_be16 x : len (be16 x) = 2.
Proof. reflexivity. Qed.

Lemma len_zeros n : len (zeros n) = N.of_nat n.
Proof. unfold len. induction n as [|n IH]; cbn [zeros length]; lia. Qed.

Lemma all_zero_zeros n : all_zero (zeros n) = true.
Proof. induction n as [|n IH]; cbn; auto. Qed.

Lemma rd_u16_be16 x r : x < 65536 -> rd_u16 (be16 x ++ r) = Some (x, r).
Proof.
  intros Hx. unfold be16. cbn [app rd_u16]. f_equal. f_equal.
  rewrite (N.mod_small (x / 256) 256) by (apply N.div_lt_upper_bound; lia).
  rewrite N.mul_comm. symmetry. apply N.div_mod. lia.
Qed.

Lemma rd_bytes_app b r : rd_bytes (len b) (b ++ r) = Some (b, r).
Proof.
  unfold rd_bytes. rewrite len_app.
  replace (len b <=? len b + len r) with true by lia.
  unfold len. rewrite Nat2N.id.
  rewrite firstn_app, Nat.sub_diag, firstn_all, firstn_O, app_nil_r.
  rewrite skipn_app, Nat.sub_diag, skipn_all. reflexivity.
Qed.

Lemma rd_bytes_app_n n b r : n = len b -> rd_bytes n (b ++ r) = Some (b, r).
Proof. intros ->. apply rd_bytes_app. Qed.

Lemma rd_u16lp_p16lp b r : fits16 b = true -> rd_u16lp (p16lp b ++ r) = Some (b, r).
Proof.
  intros H. unfold fits16 in H. unfold rd_u16lp, p16lp. rewrite <- app_assoc.
  rewrite rd_u16_be16 by lia. apply rd_bytes_app.
Qed.

Lemma rd_u8lp_p8lp b r : rd_u8lp (p8lp b ++ r) = Some (b, r).
Proof. unfold rd_u8lp, p8lp. cbn [app rd_u8]. apply rd_bytes_app. Qed.

Lemma skipn4_p24lp b : skipn 4 (1 :: p24lp b) = b.
Proof. reflexivity. Qed.

Lemma len_flat_be16 l : len (flat_map be16 l) = 2 * N.of_nat (length l).
Proof. induction l as [|x l IH]; [reflexivity|]. cbn [flat_map length]. rewrite len_app, len_be16, IH. lia. Qed.

Inductive subseq {A} : list A -> list A -> Prop :=
| ss_nil l : subseq [] l
| ss_skip x l1 l2 : subseq l1 l2 -> subseq l1 (x :: l2)
| ss_take x l1 l2 : subseq l1 l2 -> subseq (x :: l1) (x :: l2).

Lemma subseq_tail {A} (x : A) l1 l2 : subseq (x :: l1) l2 -> subseq l1 l2.
Proof.
  intros H. remember (x :: l1) as l eqn:E. revert E.
  induction H as [l | y l1' l2' H IH | y l1' l2' H IH]; intros E; try discriminate.
  - apply ss_skip. auto.
  - injection E as -> ->. apply ss_skip. exact H.
Qed.

Lemma subseq_refl {A} (l : list A) : subseq l l.
Proof. induction l as [|x l IH]; [apply ss_nil | apply ss_take; exact IH]. Qed.

Lemma subseq_app {A} (a1 a2 b1 b2 : list A) : subseq a1 b1 -> subseq a2 b2 -> subseq (a1 ++ a2) (b1 ++ b2).
Proof.
  intros H1 H2. induction H1 as [l | y l1 l2 H IH | y l1 l2 H IH]; cbn [app].
  - induction l as [|z l IHl]; cbn [app]; [exact H2 | apply ss_skip; exact IHl].
  - apply ss_skip. exact IH.
  - apply ss_take. exact IH.
Qed.

Lemma subseq_filter {A} (P : A -> bool) l : subseq (filter P l) l.
Proof. induction l as [|x l IH]; cbn [filter]; [apply ss_nil|]. destruct (P x); [apply ss_take | apply ss_skip]; exact IH. Qed.

Lemma subseq_In {A} (l1 l2 : list A) x : subseq l1 l2 -> In x l1 -> In x l2.
Proof.
  intros H. induction H as [l | y l1 l2 H IH | y l1 l2 H IH]; cbn [In]; intros Hi; [contradiction | auto |].
  destruct Hi; auto.
Qed.

Lemma drop_to_subseq t ts raw :
  subseq (t :: ts) (map eid raw) ->
  exists x raw', drop_to t raw = Some (x, raw') /\ eid x = t /\ subseq ts (map eid raw') /\
                 In x raw /\ (forall y, In y raw' -> In y raw).
Proof.
  induction raw as [|y r IH]; intros H; cbn [map] in H.
  - inversion H.
  - cbn [drop_to]. destruct (eid y =? t) eqn:E.
    + apply N.eqb_eq in E. exists y, (y :: r). repeat split; auto.
      * cbn [map]. apply subseq_tail with (x := t). exact H.
      * left; reflexivity.
    + inversion H as [ | ? ? ? H' | ? ? ? H']; subst.
      * destruct (IH H') as (x & raw' & Hd & He & Hs & Hi & Hall).
        exists x, raw'. repeat split; auto. right; auto. intros z Hz. right. auto.
      * rewrite N.eqb_refl in E. discriminate.
Qed.

Lemma scan_outer_subseq ts : forall raw,
  subseq ts (map eid raw) -> ~ In EXT_ECH ts ->
  exists xs, scan_outer raw ts = Ok xs /\ map eid xs = ts /\ Forall (fun x => In x raw) xs.
Proof.
  induction ts as [|t ts IH]; intros raw Hs Hn.
  - exists []. repeat split; constructor.
  - cbn [scan_outer]. destruct (t =? EXT_ECH) eqn:E.
    + exfalso. apply Hn. left. apply N.eqb_eq in E. auto.
    + destruct (drop_to_subseq t ts raw Hs) as (x & raw' & Hd & He & Hs' & Hi & Hall).
      rewrite Hd. destruct (IH raw' Hs') as (xs & Hx & Hm & Hf).
      { intros Hc. apply Hn. right. exact Hc. }
      rewrite Hx. cbn [bind]. exists (x :: xs). repeat split.
      * cbn [map]. congruence.
      * constructor; auto. eapply Forall_impl; [|exact Hf]. cbn. auto.
Qed.

(* a failing scan: an id that does not occur at or after the current position *)
Lemma drop_to_none t raw : ~ In t (map eid raw) -> drop_to t raw = None.
Proof.
  induction raw as [|y r IH]; cbn [map In drop_to]; intros H; [reflexivity|].
  destruct (eid y =? t) eqn:E; [apply N.eqb_eq in E; tauto | apply IH; tauto].
Qed.

Lemma scan_outer_b_eq ts : forall fuel raw,
  Forall (fun t => t < 65536) ts -> (2 * length ts <= fuel)%nat ->
  scan_outer_b fuel raw (flat_map be16 ts) = scan_outer raw ts.
Proof.
  induction ts as [|t ts IH]; intros fuel raw Hb Hf.
  - destruct fuel; reflexivity.
  - inversion Hb as [|? ? Ht Hb']; subst. cbn [flat_map length] in *.
    destruct fuel as [|fuel]; [lia|].
    change (scan_outer_b (S fuel) raw (be16 t ++ flat_map be16 ts)) with
      (match rd_u16 (be16 t ++ flat_map be16 ts) with
       | None => Err E_INVALID_INNER
       | Some (t0, s') =>
         if t0 =? EXT_ECH then Err E_INVALID_OUTER_EXTS else
         match drop_to t0 raw with
         | None => Err E_INVALID_OUTER_EXTS
         | Some (x, raw') => do r <- scan_outer_b fuel raw' s'; Ok (x :: r)
         end
       end).
    rewrite rd_u16_be16 by exact Ht. cbn [scan_outer].
    destruct (t =? EXT_ECH); [reflexivity|].
    destruct (drop_to t raw) as [[x raw']|]; [|reflexivity].
    rewrite IH by (auto; lia). reflexivity.
Qed.

Definition ext_ok (e : ext) : Prop := eid e < 65536 /\ fits16 (ebody e) = true.
Definition no_outer_id (l : list ext) : Prop := Forall (fun e => eid e <> EXT_ECH_OUTER) l.

Lemma len_ext_wire e : len (ext_wire e) = 4 + len (ebody e).
Proof. unfold ext_wire, p16lp. rewrite !len_app, !len_be16. lia. Qed.

Lemma exts_wire_app a b : exts_wire (a ++ b) = exts_wire a ++ exts_wire b.
Proof. unfold exts_wire. apply flat_map_app. Qed.

Lemma exts_wire_cons e l : exts_wire (e :: l) = ext_wire e ++ exts_wire l.
Proof. reflexivity. Qed.

Lemma ext_wire_nonnil e r : exists b s, ext_wire e ++ r = b :: s.
Proof. unfold ext_wire, be16. cbn [app]. eauto. Qed.

(* every extension takes at least four bytes, so a loop with one unit of fuel per input byte has enough *)
Lemma length_exts_wire l : (length l <= length (exts_wire l))%nat.
Proof.
  induction l as [|e l IH]; [apply le_n|]. rewrite exts_wire_cons, app_length. cbn [length].
  pose proof (len_ext_wire e) as H. unfold len in H. lia.
Qed.

Lemma exts_wire_nonempty l : l <> [] -> (0 <? len (exts_wire l)) = true.
Proof.
  destruct l as [|e l]; [contradiction|]. intros _. rewrite exts_wire_cons.
  destruct (ext_wire_nonnil e (exts_wire l)) as (b & s & ->). reflexivity.
Qed.

Lemma rd_ext e r : ext_ok e ->
  rd_u16 (ext_wire e ++ r) = Some (eid e, p16lp (ebody e) ++ r) /\
  rd_u16lp (p16lp (ebody e) ++ r) = Some (ebody e, r).
Proof.
  intros [Hi Hb]. split.
  - unfold ext_wire. rewrite <- app_assoc. apply rd_u16_be16. exact Hi.
  - apply rd_u16lp_p16lp. exact Hb.
Qed.

Lemma parse_ext_list_wire l : forall fuel,
  Forall ext_ok l -> (length l <= fuel)%nat -> parse_ext_list fuel (exts_wire l) = Some l.
Proof.
  induction l as [|e l IH]; intros fuel Hok Hf.
  - destruct fuel; reflexivity.
  - inversion Hok as [|? ? He Hl]; subst. cbn [length] in Hf. destruct fuel as [|fuel]; [lia|].
    rewrite exts_wire_cons.
    destruct (ext_wire_nonnil e (exts_wire l)) as (b & s & Eq).
    destruct (rd_ext e (exts_wire l) He) as [R1 R2].
    cbn [parse_ext_list]. rewrite Eq. rewrite <- Eq. rewrite R1, R2.
    rewrite IH by (auto; lia). destruct e; reflexivity.
Qed.

Lemma recon_exts_cons fuel raw e s : ext_ok e ->
  recon_exts (S fuel) raw (ext_wire e ++ s) =
  if eid e =? EXT_ECH_OUTER then
    match rd_u8lp (ebody e) with
    | None => Err E_INVALID_INNER
    | Some (lst, _) => do xs <- scan_outer_b (length lst) raw lst; do r <- recon_exts fuel raw s; Ok (xs ++ r)
    end
  else do r <- recon_exts fuel raw s; Ok (e :: r).
Proof.
  intros He. destruct (ext_wire_nonnil e s) as (b & s0 & Eq). destruct (rd_ext e s He) as [R1 R2].
  cbn [recon_exts]. rewrite Eq. rewrite <- Eq. rewrite R1, R2. destruct e; reflexivity.
Qed.

Lemma recon_exts_nil fuel raw : recon_exts fuel raw [] = Ok [].
Proof. destruct fuel; reflexivity. Qed.

(* extensions other than ech_outer_extensions are copied, at one unit of fuel each, whatever follows them *)
Lemma recon_exts_app raw T r A : forall fuel,
  Forall ext_ok A -> no_outer_id A ->
  (forall f, (length T <= f)%nat -> recon_exts f raw (exts_wire T) = Ok r) ->
  (length (A ++ T) <= fuel)%nat ->
  recon_exts fuel raw (exts_wire (A ++ T)) = Ok (A ++ r).
Proof.
  induction A as [|e A IH]; intros fuel Hok Hno HT Hf; [exact (HT fuel Hf)|].
  inversion Hok as [|? ? He Hok']; subst. inversion Hno as [|? ? Hne Hno']; subst.
  cbn [app length] in *. destruct fuel as [|fuel]; [lia|].
  rewrite exts_wire_cons, recon_exts_cons by exact He.
  apply N.eqb_neq in Hne. rewrite Hne, IH by (auto; lia). reflexivity.
Qed.

Lemma recon_exts_no_outer raw l fuel :
  Forall ext_ok l -> no_outer_id l -> (length l <= fuel)%nat -> recon_exts fuel raw (exts_wire l) = Ok l.
Proof.
  intros Hok Hno Hf. pose proof (recon_exts_app raw [] [] l fuel Hok Hno (fun f _ => recon_exts_nil f raw)) as H.
  rewrite !app_nil_r in H. exact (H Hf).
Qed.

(* reconstruction of a list without ech_outer_extensions is the identity *)
Lemma recon_exts_plain l : forall fuel raw,
  Forall ext_ok l -> Forall (fun e => eid e <> EXT_ECH_OUTER) l -> (length (exts_wire l) <= fuel)%nat ->
  recon_exts fuel raw (exts_wire l) = Ok l.
Proof.
  intros fuel raw Hok Hno Hf. apply recon_exts_no_outer; auto. pose proof (length_exts_wire l). lia.
Qed.

(* the ech_outer_extensions entry the marshaller writes for a list of compressed ids *)
Definition outer_ref (ids : list N) : list ext := if 0 <? len ids then [outer_exts_ext ids] else [].

Lemma outer_ext_ok ids : fits8 (flat_map be16 ids) = true -> ext_ok (outer_exts_ext ids).
Proof.
  intros H. unfold ext_ok, outer_exts_ext, fits16, fits8, p8lp, EXT_ECH_OUTER in *. cbn [eid ebody].
  rewrite len_cons. lia.
Qed.

Lemma compressed_nonempty A L (f : N -> ext) B : A ++ map f L ++ B <> [] -> A ++ outer_ref L ++ B <> [].
Proof. intros H. destruct A; [|discriminate]. destruct L; [exact H | discriminate]. Qed.

(* ... and it expands to the scanned outer extensions *)
Lemma recon_exts_compressed raw L xs A B fuel :
  Forall ext_ok A -> no_outer_id A -> Forall ext_ok B -> no_outer_id B ->
  fits8 (flat_map be16 L) = true -> Forall (fun t => t < 65536) L ->
  scan_outer raw L = Ok xs ->
  (length (A ++ outer_ref L ++ B) <= fuel)%nat ->
  recon_exts fuel raw (exts_wire (A ++ outer_ref L ++ B)) = Ok (A ++ xs ++ B).
Proof.
  intros HokA HnoA HokB HnoB Hf8 HL Hscan. apply recon_exts_app; auto. clear fuel. intros fuel Hf.
  destruct L as [|t L'].
  - apply ok_inj in Hscan. subst xs. apply recon_exts_no_outer; auto.
  - set (L := t :: L') in *. change (outer_ref L) with [outer_exts_ext L] in *. cbn [app length] in *.
    destruct fuel as [|fuel]; [lia|].
    rewrite exts_wire_cons, recon_exts_cons by (apply outer_ext_ok; exact Hf8).
    cbn [eid ebody outer_exts_ext]. rewrite N.eqb_refl.
    rewrite <- (app_nil_r (p8lp (flat_map be16 L))), rd_u8lp_p8lp.
    pose proof (len_flat_be16 L) as Hl. unfold len in Hl.
    rewrite scan_outer_b_eq, Hscan by (auto; lia).
    cbn [bind]. rewrite recon_exts_no_outer by (auto; lia). reflexivity.
Qed.

Definition sni_exts (m : chello) : list ext := if 0 <? len (ch_sni m) then [sni_ext (ch_sni m)] else [].
Definition inl_exts (reorder : bool) (m : chello) : list ext :=
  map it_ext (filter (fun it => emits true reorder (it_kind it)) (ch_items m)).
(* the id list written into ech_outer_extensions *)
Definition comp_list (oe : option (list N)) (m : chello) : list N :=
  reorder_ids true oe (comp_ids true (is_some oe) (ch_items m)).
(* the inner hello's own body for a compressed id *)
Fixpoint comp_body (reorder : bool) (t : N) (items : list item) : bytes :=
  match items with
  | [] => []
  | it :: r => if compresses true reorder (it_kind it) && (eid (it_ext it) =? t) then ebody (it_ext it)
               else comp_body reorder t r
  end.

(* what the inner hello is expected to be rebuilt as: same fields, the outer's session id,
   and the extensions: server_name, the uncompressed ones in order, the compressed ones in the order of the
   ech_outer_extensions list with the INNER hello's bodies, pre_shared_key *)
Definition expected_exts (oe : option (list N)) (m : chello) : list ext :=
  sni_exts m ++ inl_exts (is_some oe) m ++
  map (fun t => mkExt t (comp_body (is_some oe) t (ch_items m))) (comp_list oe m) ++ opt_list (ch_psk m).
Definition expected_recon (oe : option (list N)) (outer_sid : bytes) (m : chello) : recon :=
  mkRecon (be16 (ch_vers m) ++ ch_random m) outer_sid (suites_bytes (ch_suites m)) (ch_comp m) (expected_exts oe m).

Lemma marshal_exts_inner oe m :
  marshal_exts true oe m = sni_exts m ++ inl_exts (is_some oe) m ++ outer_ref (comp_list oe m) ++ opt_list (ch_psk m).
Proof. unfold marshal_exts, sni_exts, inl_exts, comp_list, outer_ref. rewrite andb_true_r. reflexivity. Qed.

(* what encodeInnerClientHello writes, and the builder checks it has passed *)
Lemma encode_inner_inv m maxname oe enc : encode_inner m maxname oe = Ok enc ->
  let exts := marshal_exts true oe m in
  let W := exts_wire exts in
  (exists n, enc = (be16 (ch_vers m) ++ ch_random m) ++ p8lp [] ++ p16lp (suites_bytes (ch_suites m)) ++
                   p8lp (ch_comp m) ++ (if 0 <? len W then p16lp W else []) ++ zeros n) /\
  len (ch_random m) = 32 /\ forallb (fun e => fits16 (ebody e)) exts = true /\ fits16 W = true /\
  fits16 (suites_bytes (ch_suites m)) = true /\ fits8 (flat_map be16 (comp_list oe m)) = true.
Proof.
  intros H exts W. unfold encode_inner, marshal_msg in H. fold exts in H. fold W in H.
  match type of H with context [if ?g then _ else _] => destruct g eqn:G end; [|discriminate].
  cbn [bind] in H. rewrite skipn4_p24lp in H. apply ok_inj in H. subst enc.
  rewrite !andb_true_iff in G. destruct G as ((((((((Hr & Hb) & HW) & _) & Hs) & _) & Hi) & _) & _).
  apply N.eqb_eq in Hr. repeat split; try assumption.
  eexists. rewrite <- !app_assoc. reflexivity.
Qed.

(* decodeInnerClientHello on that layout: everything up to the extension loop reads back what the encoder wrote *)
Lemma decode_inner_ok body_ok orig sid vr suites comp W n raw exts :
  len vr = 34 -> fits16 suites = true -> fits16 W = true ->
  extract_raw_extensions orig = Ok raw ->
  recon_exts (length W) raw W = Ok exts ->
  let r := mkRecon vr sid suites comp exts in
  recon_fits r = true -> unmarshal_ok body_ok r = true ->
  find_ext EXT_ECH exts = Some (mkExt EXT_ECH [1]) ->
  (exists sv, find_ext EXT_SUPPORTED_VERSIONS exts = Some sv /\ parse_sv (ebody sv) = Some [VERSION_TLS13]) ->
  decode_inner body_ok orig sid (vr ++ p8lp [] ++ p16lp suites ++ p8lp comp ++ p16lp W ++ zeros n) = Ok r.
Proof.
  intros Hvr Hs HW Hraw Hrec r Hfits Hun Hech (sv & Hsv & Hpsv). unfold decode_inner.
  rewrite rd_bytes_app_n by (symmetry; exact Hvr).
  rewrite rd_u8lp_p8lp. cbn [len length N.of_nat N.eqb negb].
  rewrite rd_u16lp_p16lp by exact Hs. rewrite rd_u8lp_p8lp. rewrite rd_u16lp_p16lp by exact HW.
  rewrite all_zero_zeros, Hraw. cbn [negb bind]. rewrite Hrec. cbn [bind]. fold r.
  rewrite Hfits, Hun. cbn [negb r r_exts]. rewrite Hech. cbn [ebody bytes_eqb list_eqb N.eqb Pos.eqb andb negb].
  rewrite Hsv, Hpsv. reflexivity.
Qed.

Lemma comp_ids_In reorder items t : In t (comp_ids true reorder items) ->
  exists it, In it items /\ compresses true reorder (it_kind it) = true /\ eid (it_ext it) = t.
Proof.
  unfold comp_ids. rewrite in_map_iff. intros (it & He & Hi). apply filter_In in Hi. destruct Hi. eauto.
Qed.

Lemma comp_body_In reorder t items : (exists it, In it items /\ compresses true reorder (it_kind it) = true /\ eid (it_ext it) = t) ->
  exists it, In it items /\ compresses true reorder (it_kind it) = true /\ eid (it_ext it) = t /\
             comp_body reorder t items = ebody (it_ext it).
Proof.
  induction items as [|it r IH]; intros (it0 & Hi & Hc & He); [destruct Hi|].
  cbn [comp_body]. destruct (compresses true reorder (it_kind it) && (eid (it_ext it) =? t)) eqn:E.
  - apply andb_true_iff in E. destruct E as [E1 E2]. apply N.eqb_eq in E2.
    exists it. repeat split; auto. left; reflexivity.
  - destruct Hi as [-> | Hi].
    + rewrite Hc, He, N.eqb_refl in E. discriminate.
    + destruct IH as (it1 & H1 & H2 & H3 & H4); [eauto|]. exists it1. repeat split; auto. right; auto.
Qed.

Lemma mem_In x l : mem x l = true <-> In x l.
Proof.
  unfold mem. rewrite existsb_exists. split.
  - intros (y & Hy & E). apply N.eqb_eq in E. subst y. exact Hy.
  - intros H. exists x. split; [exact H | apply N.eqb_refl].
Qed.

Lemma comp_list_In oe m t : In t (comp_list oe m) -> In t (comp_ids true (is_some oe) (ch_items m)).
Proof.
  unfold comp_list, reorder_ids. destruct oe as [oe|]; [|auto].
  intros H. apply filter_In in H. apply mem_In, H.
Qed.

(* what the scan fetched equals the inner hello's own extensions when the outer agrees on them *)
Lemma scan_bodies oe m raw xs :
  (forall x it, In x raw -> In it (ch_items m) -> compresses true (is_some oe) (it_kind it) = true ->
                eid x = eid (it_ext it) -> ebody x = ebody (it_ext it)) ->
  map eid xs = comp_list oe m -> Forall (fun x => In x raw) xs ->
  xs = map (fun t => mkExt t (comp_body (is_some oe) t (ch_items m))) (comp_list oe m).
Proof.
  intros Hag Hm Hf. rewrite <- Hm, map_map.
  assert (Hin : forall x, In x xs -> In (eid x) (comp_list oe m)) by (intros x Hx; rewrite <- Hm; apply in_map; exact Hx).
  clear Hm. induction Hf as [|x xs Hx Hf IH]; [reflexivity|].
  cbn [map]. rewrite <- IH by (intros; apply Hin; right; assumption). f_equal.
  destruct (comp_body_In _ _ _ (comp_ids_In _ _ _ (comp_list_In _ _ _ (Hin x (or_introl eq_refl)))))
    as (it & H1 & H2 & H3 & ->).
  rewrite <- (Hag x it Hx H1 H2 (eq_sym H3)). destruct x; reflexivity.
Qed.

Theorem roundtrip body_ok inner maxname oe outer_orig outer_sid raw enc :
  encode_inner inner maxname oe = Ok enc ->
  extract_raw_extensions outer_orig = Ok raw ->
  subseq (comp_list oe inner) (map eid raw) ->
  ~ In EXT_ECH (comp_list oe inner) ->
  (forall x it, In x raw -> In it (ch_items inner) -> compresses true (is_some oe) (it_kind it) = true ->
                eid x = eid (it_ext it) -> ebody x = ebody (it_ext it)) ->
  Forall (fun e => eid e < 65536) (expected_exts oe inner) ->
  no_outer_id (sni_exts inner ++ inl_exts (is_some oe) inner) -> no_outer_id (opt_list (ch_psk inner)) ->
  let r := expected_recon oe outer_sid inner in
  recon_fits r = true ->
  unmarshal_ok body_ok r = true ->
  find_ext EXT_ECH (r_exts r) = Some (mkExt EXT_ECH [1]) ->
  (exists sv, find_ext EXT_SUPPORTED_VERSIONS (r_exts r) = Some sv /\ parse_sv (ebody sv) = Some [VERSION_TLS13]) ->
  decode_inner body_ok outer_orig outer_sid enc = Ok r.
Proof.
  intros Henc Hraw Hsub Hnech Hag Hids HnoA HnoB r Hfits Hun Hech Hsv.
  destruct (encode_inner_inv _ _ _ _ Henc) as ((n & ->) & Hrand & Hbodies & HW & Hsuites & Hf8).
  destruct (scan_outer_subseq _ raw Hsub Hnech) as (xs & Hscan & Hm & Hin).
  apply (scan_bodies oe inner raw xs Hag Hm) in Hin. subst xs.
  subst r. unfold expected_recon, expected_exts in *. cbn [r_exts] in Hech, Hsv.
  rewrite marshal_exts_inner in *. rewrite !(app_assoc (sni_exts inner)) in *.
  set (A := sni_exts inner ++ inl_exts (is_some oe) inner) in *.
  set (B := opt_list (ch_psk inner)) in *. set (L := comp_list oe inner) in *.
  set (f := fun t => mkExt t (comp_body (is_some oe) t (ch_items inner))) in *.
  apply Forall_app in Hids. destruct Hids as (HidA & Hids). apply Forall_app in Hids. destruct Hids as (HidX & HidB).
  rewrite forallb_forall, <- Forall_forall in Hbodies.
  apply Forall_app in Hbodies. destruct Hbodies as (HbA & Hb). apply Forall_app in Hb. destruct Hb as (_ & HbB).
  pose proof (recon_exts_compressed raw L (map f L) A B _ (Forall_and HidA HbA) HnoA (Forall_and HidB HbB) HnoB Hf8
                (proj1 (Forall_map _ _ _) HidX) Hscan (length_exts_wire _)) as Hrec.
  (* the marshaller leaves out an empty extension block, the decoder insists on one: the ECH extension among the
     expected ones excludes that case *)
  rewrite exts_wire_nonempty.
  - apply decode_inner_ok with (raw := raw); auto. rewrite len_app, len_be16, Hrand. reflexivity.
  - apply (compressed_nonempty A L f B). intros E. rewrite E in Hech. discriminate.
Qed.
