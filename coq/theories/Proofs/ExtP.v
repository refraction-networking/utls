(* Model/Ext.v against Model/ExtSpec.v.  [read_layout]: for a well-formed extension Read writes
   id || u16 length || ExtSpec.ext_body; Len/Read agreement, the short-buffer errors and Write after Read = ext_norm
   are read off that layout and the reader/encoder round trips of Proofs/WireP.v. *)
From UV Require Import Base.Common Model.Wire Model.Varint Model.Ext Model.ExtSpec Proofs.WireP.
(* lia also reasons about / and mod by literals (explained in Proofs/WireP.v) *)
Ltac Zify.zify_post_hook ::= Z.div_mod_to_equations.

(* comparisons of lengths and ids stay folded under cbn, here and in every file that imports this one: the proofs
   rewrite with them or destruct them, they never compute them on open terms *)
Arguments N.eqb : simpl never.
Arguments N.ltb : simpl never.
Arguments N.leb : simpl never.

Lemma blen_protos_bytes ps : blen (protos_bytes ps) = protos_len ps.
Proof.
  unfold protos_bytes, protos_len. rewrite blen_flat_map. apply sum_map_ext. intros s.
  now rewrite blen_app, blen_enc_u8.
Qed.
Lemma protos_bytes_spec ps : protos_bytes ps = flat_map enc_u8lp ps.
Proof. reflexivity. Qed.
Lemma blen_key_shares_bytes ks : blen (key_shares_bytes ks) = key_shares_len ks.
Proof.
  unfold key_shares_bytes, key_shares_len. rewrite blen_flat_map. apply sum_map_ext. intros k.
  rewrite !blen_app, !blen_enc_u16. lia.
Qed.
Lemma key_shares_bytes_spec ks :
  key_shares_bytes ks = flat_map (fun k => enc_u16 (fst k) ++ enc_u16lp (snd k)) ks.
Proof. reflexivity. Qed.
Lemma blen_psk_ids ids :
  blen (flat_map (fun i : psk_identity => enc_u16 (blen (fst i)) ++ fst i ++ enc_u32 (snd i)) ids) = psk_ids_len ids.
Proof.
  unfold psk_ids_len. rewrite blen_flat_map. apply sum_map_ext. intros i.
  rewrite !blen_app, blen_enc_u16, blen_enc_u32. lia.
Qed.
Lemma psk_binders_len_eq (bs : list bytes) : psk_binders_len bs = protos_len bs.
Proof. unfold psk_binders_len, protos_len. apply sum_map_ext. intros b. lia. Qed.

Global Hint Rewrite blen_app blen_cons blen_nil blen_enc_u8 blen_enc_u16 blen_enc_u24 blen_enc_u32
  blen_zbytes blen_flat_u16 blen_protos_bytes blen_key_shares_bytes blen_psk_ids psk_binders_len_eq
  blen_enc_u8lp blen_enc_u16lp N2Nat.id : blen.

Lemma psk_ext_len_pos ids bs :
  psk_ext_len ids bs = 0 \/ psk_ext_len ids bs = 4 + 2 + psk_ids_len ids + 2 + psk_binders_len bs.
Proof. destruct ids, bs; cbn [psk_ext_len]; auto. Qed.

(* Every Read has one skeleton: returns that do not look at the buffer (all with Len() = 0, unless the
   binders of a FakePreSharedKeyExtension are refused), then `if len(b) < e.Len() { return 0, io.ErrShortBuffer }`,
   then the limit tests and the writes, none of which depends on len(b). *)
Definition buffered (read : N -> res bytes) (L : N) : Prop :=
  exists r, (forall n, read n = if n <? L then Err E_SHORT else r) /\ forall b, r = Ok b -> blen b = L.

Lemma early_form (r : res bytes) : (forall b, r = Ok b -> b = []) -> buffered (fun _ => r) 0.
Proof. intros H. exists r. split; [now destruct n | now intros b ->%H]. Qed.
Lemma limit_form L (over : bool) code (out : bytes) : blen out = L ->
  buffered (fun n => if n <? L then Err E_SHORT else if over then Err code else Ok out) L.
Proof. intros H. eexists. split; [reflexivity|]. destruct over; [discriminate | now intros b [= <-]]. Qed.
Lemma guarded_form L out : blen out = L -> buffered (fun n => guarded n L out) L.
Proof. exact (limit_form L false 0 out). Qed.

Lemma read_psk_form ids bs : buffered (fun n => read_psk n ids bs) (psk_ext_len ids bs).
Proof.
  unfold read_psk. destruct (N.eqb_spec (psk_ext_len ids bs) 0) as [E|E].
  - rewrite E. apply early_form. now intros b [= <-].
  - apply guarded_form. autorewrite with blen.
    destruct (psk_ext_len_pos ids bs) as [Hp|Hp]; rewrite ?psk_binders_len_eq in Hp; lia.
Qed.

Lemma read_form e : state_ok e = true -> buffered (fun n => ext_read e n) (ext_len e).
Proof.
  intros Hs. destruct e; cbn [ext_read ext_len state_ok] in *;
  try (first [apply guarded_form | apply limit_form]; autorewrite with blen; lia).
  - (* SNI *) destruct (blen host =? 0); [apply early_form; now intros b [= <-]|].
    apply guarded_form. autorewrite with blen. lia.
  - (* padding *) destruct willpad; cbn [negb]; [|apply early_form; now intros b [= <-]].
    apply guarded_form. autorewrite with blen. lia.
  - (* QUIC *) destruct (marshal_tps tps) as [m| |]; cbn [bind]; [|apply early_form; discriminate..].
    apply guarded_form. autorewrite with blen. lia.
  - (* UtlsPSK *) destruct (N.eqb_spec (utls_psk_len has_session cached ids binders) 0) as [E|E].
    + rewrite E. apply early_form. destruct omit; [now intros b [= <-] | discriminate].
    + unfold utls_psk_len in *. destruct has_session; [apply read_psk_form | contradiction].
  - (* FakePSK *) rewrite Hs. cbn [negb].
    destruct (negb omit && (psk_ext_len ids binders =? 0)) eqn:E; [|apply read_psk_form].
    apply andb_true_iff in E. destruct E as [_ E%N.eqb_eq]. rewrite E. apply early_form. discriminate.
Qed.

(* no premise on the state: a FakePreSharedKeyExtension with a binder of another size is refused by Read *)
Lemma len_read_any e n b : ext_read e n = Ok b -> blen b = ext_len e.
Proof.
  destruct (state_ok e) eqn:Hs.
  - destruct (read_form e Hs) as (r & -> & Hlen). destruct (n <? ext_len e); [discriminate | apply Hlen].
  - destruct e; try discriminate. cbn [ext_read state_ok] in *. rewrite Hs.
    destruct (negb omit && _); discriminate.
Qed.

Lemma len_read e n b : state_ok e = true -> ext_read e n = Ok b -> blen b = ext_len e.
Proof. intros _. apply len_read_any. Qed.

Lemma read_short e n : state_ok e = true -> n < ext_len e -> ext_read e n = Err E_SHORT.
Proof. intros Hs H. destruct (read_form e Hs) as (r & -> & _). now apply N.ltb_lt in H as ->. Qed.

Lemma read_enough e n : state_ok e = true -> ext_len e <= n -> ext_read e n = ext_read e (ext_len e).
Proof.
  intros Hs H. destruct (read_form e Hs) as (r & Hr & _). rewrite !Hr, N.ltb_irrefl.
  now apply N.ltb_ge in H as ->.
Qed.

Lemma wf_parts e : wf_ext e = true -> state_ok e = true /\ fields_ok e = true /\ ext_len e <= 65539.
Proof. unfold wf_ext. rewrite !andb_true_iff. intros [[A B] C]. repeat split; try assumption. lia. Qed.

Lemma psk_ids_spec (ids : list psk_identity) :
  flat_map (fun i => enc_u16 (blen (fst i)) ++ fst i ++ enc_u32 (snd i)) ids
  = flat_map (fun i => enc_u16lp (fst i) ++ enc_u32 (snd i)) ids.
Proof. apply flat_map_ext. intros i. unfold enc_u16lp. now rewrite <- app_assoc. Qed.

Lemma blen_psk_ids_spec (ids : list psk_identity) :
  blen (flat_map (fun i => enc_u16lp (fst i) ++ enc_u32 (snd i)) ids) = psk_ids_len ids.
Proof. rewrite <- psk_ids_spec. apply blen_psk_ids. Qed.
Lemma blen_protos_spec ps : blen (flat_map enc_u8lp ps) = protos_len ps.
Proof. apply blen_protos_bytes. Qed.

(* Read's output against the combinator layout: pass the buffer test at len(b) = Len(), write the inner vectors of the
   layout the way Read writes them, open every prefix combinator, compute the lengths; what is left is the same
   bytes on both sides up to the arithmetic inside the prefixes. *)
Ltac layout_tac :=
  unfold guarded; rewrite ?N.ltb_irrefl;
  unfold u16s_body, protos_body, psk_body;
  rewrite <- ?protos_bytes_spec, <- ?key_shares_bytes_spec, <- ?psk_ids_spec; unfold enc_u16lp, enc_u8lp;
  autorewrite with blen; repeat rewrite <- app_assoc;
  split; [f_equal; repeat (f_equal; try lia) | try lia].

Lemma read_psk_layout ids bs : psk_ext_len ids bs <> 0 ->
  read_psk (psk_ext_len ids bs) ids bs = Ok (enc_u16 ID_PSK ++ enc_u16lp (psk_body ids bs))
  /\ blen (psk_body ids bs) + 4 = psk_ext_len ids bs.
Proof.
  intros Hnz. unfold read_psk. destruct (psk_ext_len ids bs =? 0) eqn:E0; [lia|].
  destruct (psk_ext_len_pos ids bs) as [Hp|Hp]; [lia|]. rewrite Hp. layout_tac.
Qed.

Lemma existsb_long_false (ps : list bytes) :
  forallb (fun p => blen p <? 256) ps = true -> existsb (fun s => 255 <? blen s) ps = false.
Proof.
  induction ps as [|p ps IH]; [reflexivity|]. cbn [forallb existsb]. intros H.
  apply andb_true_iff in H. destruct H as [Hp Hps]. rewrite (IH Hps).
  destruct (255 <? blen p) eqn:E; [lia|reflexivity].
Qed.

Lemma limit_at_len L (over : bool) code (out : bytes) : over = false ->
  (if L <? L then Err E_SHORT else if over then Err code else Ok out) = Ok out.
Proof. intros ->. now rewrite N.ltb_irrefl. Qed.

Lemma read_layout e : wf_ext e = true ->
  if ext_absent e then ext_read e (ext_len e) = Ok [] /\ ext_len e = 0
  else ext_read e (ext_len e) = Ok (enc_u16 (ext_id e) ++ enc_u16lp (ext_body e))
       /\ blen (ext_body e) + 4 = ext_len e.
Proof.
  intros Hwf. destruct (wf_parts e Hwf) as (Hs & Hf & Hl).
  destruct e; cbn [ext_absent ext_read ext_len ext_id ext_body state_ok fields_ok] in *;
  try (split; reflexivity);
  rewrite ?andb_true_iff in Hf;
  (* the limit tests pass within wire limits *)
  try rewrite limit_at_len by (lia || exact (existsb_long_false _ Hf));
  try (layout_tac; fail).
  - (* SNI *) destruct (blen host =? 0) eqn:E0; [split; reflexivity|]. layout_tac.
  - (* padding *) destruct willpad; cbn [negb]; [|split; reflexivity]. layout_tac.
  - (* QUIC *) destruct (marshal_tps tps) as [m| |]; try discriminate. cbn [bind]. layout_tac.
  - (* UtlsPSK *) destruct Hf as [_ Hom].
    destruct (utls_psk_len has_session cached ids binders =? 0) eqn:E0.
    + destruct omit; cbn in Hom; [|discriminate]. cbn [negb]. split; [reflexivity|lia].
    + assert (Hlen : utls_psk_len has_session cached ids binders = psk_ext_len ids binders).
      { unfold utls_psk_len in *. destruct has_session; cbn [negb] in *; lia. }
      rewrite Hlen in *. apply read_psk_layout. lia.
  - (* FakePSK *) destruct Hf as [_ Hom]. rewrite Hs. cbn [negb].
    destruct (psk_ext_len ids binders =? 0) eqn:E0.
    + destruct omit; cbn in Hom; [|discriminate]. cbn [negb andb].
      split; [|lia]. unfold read_psk. now rewrite E0.
    + rewrite andb_false_r. apply read_psk_layout. lia.
Qed.

Lemma flat_u16_nonempty (l : list N) : negb (empty l) = true -> empty (flat_map enc_u16 l) = false.
Proof. destruct l; [discriminate|reflexivity]. Qed.

Lemma u16_list_write_ok code mk norm l :
  all_u16 l = true -> negb (empty l) = true -> 2 * blen l < 65536 ->
  u16_list_write code mk norm (u16s_body l) = Ok (mk (map norm l)).
Proof.
  intros Hall Hne Hlen. unfold u16_list_write, u16s_body.
  rewrite read_enc_u16lp_nil by (rewrite blen_flat_u16; lia).
  rewrite flat_u16_nonempty by exact Hne. now rewrite read_u16s_flat.
Qed.

Lemma protos_write_ok mk ps :
  forallb (fun p => blen p <? 256) ps = true ->
  negb (match ps with [] => true | _ => false end) && forallb (fun p => negb (empty p)) ps = true ->
  protos_len ps < 65536 ->
  protos_write mk (protos_body ps) = Ok (mk ps).
Proof.
  intros Hlen [Hnil Hne]%andb_true_iff Htot. unfold protos_write, protos_body.
  rewrite read_enc_u16lp_nil by (rewrite blen_protos_spec; lia).
  assert (He : empty (flat_map enc_u8lp ps) = false) by (destruct ps; [discriminate | reflexivity]).
  rewrite He. rewrite read_u8lps_flat; [reflexivity| |lia].
  unfold all_u8lp. rewrite forallb_forall in *. intros p Hp.
  rewrite (Hlen p Hp), (Hne p Hp). reflexivity.
Qed.

Lemma key_shares_parse_ok ks fuel :
  forallb (fun k => fst k <? 65536) ks = true -> forallb (fun k => negb (empty (snd k))) ks = true ->
  key_shares_len ks < 65536 ->
  (length (flat_map (fun k => enc_u16 (fst k) ++ enc_u16lp (snd k)) ks) <= fuel)%nat ->
  key_shares_parse fuel (flat_map (fun k => enc_u16 (fst k) ++ enc_u16lp (snd k)) ks) = Some (map norm_share ks).
Proof.
  revert fuel. induction ks as [|k ks IH]; intros fuel Hg Hne Htot Hfuel.
  - destruct fuel; reflexivity.
  - cbn [forallb] in Hg, Hne. apply andb_true_iff in Hg, Hne. destruct Hg as [Hg Hgs], Hne as [Hne Hnes].
    unfold key_shares_len in Htot. cbn [sum_map] in Htot. fold (key_shares_len ks) in Htot.
    cbn [flat_map] in *. rewrite <- app_assoc in *. rewrite !app_length in Hfuel. cbn [enc_u16 length] in Hfuel.
    destruct fuel as [|fuel]; [lia|].
    (* the encoding starts with two bytes, so the loop takes a step; then back to the encoder's form *)
    cbn [enc_u16 app key_shares_parse]. change (read_u16 (_ :: _ :: ?r)) with (read_u16 (enc_u16 (fst k) ++ r)).
    rewrite read_enc_u16 by lia. rewrite read_enc_u16lp by lia.
    destruct (empty (snd k)) eqn:Ee; [discriminate|].
    rewrite IH; [|exact Hgs|exact Hnes|lia|lia].
    cbn [map]. unfold norm_share at 1. reflexivity.
Qed.

Lemma sni_names_ok host fuel : empty host = false -> blen host < 65536 -> (last host 0 =? 46) = false ->
  sni_names (S fuel) (0 :: enc_u16lp host) [] = Ok tt.
Proof.
  intros Hne Hlen Hdot. cbn [app sni_names read_u8].
  rewrite read_enc_u16lp_nil by exact Hlen. rewrite Hne.
  replace (negb (0 =? 0)) with false by reflexivity. cbn [negb empty]. rewrite Hdot.
  destruct fuel; reflexivity.
Qed.

(* the wrapping uint16 counters of FakePreSharedKeyExtension.Write never wrap on a well-formed body *)
Lemma wrap_sub a k : k <= a -> a < 65536 -> (a + 65536 - k) mod 65536 = a - k.
Proof. lia. Qed.

Lemma psk_ids_parse_ok (ids : list psk_identity) r fuel :
  forallb (fun i => snd i <? 4294967296) ids = true -> psk_ids_len ids < 65536 -> psk_ids_len ids <= N.of_nat fuel ->
  psk_ids_parse fuel (psk_ids_len ids) (flat_map (fun i => enc_u16lp (fst i) ++ enc_u32 (snd i)) ids ++ r)
  = Some (ids, r).
Proof.
  revert fuel. induction ids as [|i ids IH]; intros fuel Hage Htot Hfuel.
  - destruct fuel; reflexivity.
  - cbn [forallb] in Hage. apply andb_true_iff in Hage. destruct Hage as [Ha Has].
    unfold psk_ids_len in Htot, Hfuel |- *. cbn [sum_map] in Htot, Hfuel |- *. fold (psk_ids_len ids) in Htot, Hfuel |- *.
    destruct fuel as [|fuel]; [lia|].
    cbn [psk_ids_parse flat_map].
    destruct (2 + blen (fst i) + 4 + psk_ids_len ids =? 0) eqn:E0; [lia|].
    unfold enc_u16lp. rewrite <- !app_assoc. rewrite read_enc_u16, wrap_sub by lia.
    destruct (_ <? blen (fst i)) eqn:E1; [lia|].
    rewrite read_bytes_app, wrap_sub by lia. rewrite read_enc_u32, wrap_sub by lia.
    replace (_ - 2 - blen (fst i) - 4) with (psk_ids_len ids) by lia.
    rewrite IH; [|exact Has|lia|lia]. destruct i; reflexivity.
Qed.

Lemma psk_binders_parse_ok (bs : list bytes) fuel :
  forallb (fun b => blen b <? 256) bs = true -> protos_len bs < 65536 -> protos_len bs <= N.of_nat fuel ->
  psk_binders_parse fuel (protos_len bs) (flat_map enc_u8lp bs) = Some bs.
Proof.
  revert fuel. induction bs as [|b bs IH]; intros fuel Hl Htot Hfuel.
  - destruct fuel; reflexivity.
  - cbn [forallb] in Hl. apply andb_true_iff in Hl. destruct Hl as [Hb Hbs].
    unfold protos_len in Htot, Hfuel |- *. cbn [sum_map] in Htot, Hfuel |- *. fold (protos_len bs) in Htot, Hfuel |- *.
    destruct fuel as [|fuel]; [lia|].
    cbn [psk_binders_parse flat_map].
    destruct (1 + blen b + protos_len bs =? 0) eqn:E0; [lia|].
    unfold enc_u8lp at 1. rewrite <- !app_assoc. rewrite read_enc_u8, wrap_sub by lia.
    destruct (_ <? blen b) eqn:E1; [lia|].
    rewrite read_bytes_app, wrap_sub by lia.
    replace (_ - 1 - blen b) with (protos_len bs) by lia.
    rewrite IH; [reflexivity|exact Hbs|lia|lia].
Qed.

Lemma length_le_blen (a b : bytes) : blen a <= blen b -> (length a <= length b)%nat.
Proof. unfold blen. lia. Qed.

Lemma fake_psk_write_ok ids bs :
  forallb (fun i => snd i <? 4294967296) ids = true -> forallb (fun b => blen b <? 256) bs = true ->
  psk_ids_len ids < 65536 -> protos_len bs < 65536 ->
  fake_psk_write (psk_body ids bs) = Ok (EFakePreSharedKey false ids bs).
Proof.
  intros Ha Hb Hi Hp. unfold fake_psk_write.
  (* the fuel, one more than the bytes of the body, covers both loops *)
  assert (Hfuel : psk_ids_len ids + protos_len bs <= N.of_nat (S (length (psk_body ids bs)))).
  { rewrite Nat2N.inj_succ. fold (blen (psk_body ids bs)). unfold psk_body.
    rewrite blen_app, !blen_enc_u16lp, blen_psk_ids_spec, blen_protos_spec. lia. }
  revert Hfuel. generalize (S (length (psk_body ids bs))). intros fuel Hfuel. unfold psk_body.
  unfold enc_u16lp at 1. rewrite <- !app_assoc.
  rewrite read_enc_u16 by (rewrite blen_psk_ids_spec; lia). rewrite blen_psk_ids_spec.
  rewrite psk_ids_parse_ok by (assumption || lia).
  unfold enc_u16lp at 1. rewrite read_enc_u16 by (rewrite blen_protos_spec; lia). rewrite blen_protos_spec.
  rewrite psk_binders_parse_ok by (assumption || lia). reflexivity.
Qed.

(* Write on a laid-out GREASE ECH body: everything parses, the payload length decides *)
Lemma ech_write_layout kdf aead cfg enc p :
  kdf < 65536 -> aead < 65536 -> ech_kdf_ok kdf = true -> ech_aead_ok aead = true ->
  blen enc < 65536 -> blen p < 65536 ->
  ech_write ([0] ++ enc_u16 kdf ++ enc_u16 aead ++ [cfg] ++ enc_u16lp enc ++ enc_u16lp p) =
  if blen p <? ECH_TAG_LEN then Err E_ECH_PAYLOAD_SHORT
  else Ok (EGREASEECH kdf aead 0 (zbytes (N.to_nat (if blen enc =? 0 then 32 else blen enc)))
                      (zbytes (N.to_nat ((blen p - ECH_TAG_LEN) mod 65536 + ECH_TAG_LEN)))).
Proof.
  intros Hk Ha Hkok Haok Hel Hpu. unfold ech_write.
  cbn [app read_u8]. replace (negb (0 =? 0)) with false by reflexivity. cbv iota.
  rewrite read_enc_u16 by exact Hk. cbn [obind]. rewrite read_enc_u16 by exact Ha. cbn [obind].
  rewrite Hkok, Haok. cbn [negb]. cbn [app read_u8].
  rewrite read_enc_u16lp by exact Hel. rewrite read_enc_u16lp_nil by exact Hpu. reflexivity.
Qed.

Lemma ech_write_ok kdf aead cfg enc p :
  kdf < 65536 -> aead < 65536 -> ech_kdf_ok kdf = true -> ech_aead_ok aead = true ->
  empty enc = false -> blen enc < 65536 -> ECH_TAG_LEN <= blen p -> blen p < 65536 ->
  ech_write ([0] ++ enc_u16 kdf ++ enc_u16 aead ++ [cfg] ++ enc_u16lp enc ++ enc_u16lp p)
  = Ok (ech_mask (EGREASEECH kdf aead cfg enc p)).
Proof.
  intros Hk Ha Hkok Haok Hne Hel Hpl Hpu. rewrite ech_write_layout by assumption.
  apply empty_false_iff in Hne. destruct (blen enc =? 0) eqn:E0; [lia|].
  unfold ECH_TAG_LEN in *. destruct (blen p <? 16) eqn:E1; [lia|].
  replace ((blen p - 16) mod 65536 + 16) with (blen p) by lia.
  unfold ech_mask, blen. now rewrite !Nat2N.id.
Qed.

Lemma is_grease_closed v c : is_grease v = true -> is_grease c = false -> (v =? c) = false.
Proof. intros Hv Hc. destruct (N.eqb_spec v c); [subst; congruence|reflexivity]. Qed.

Lemma rt_parts e : rt_ok e = true -> wf_ext e = true /\ ext_absent e = false.
Proof. unfold rt_ok. rewrite !andb_true_iff, negb_true_iff. tauto. Qed.

(* dispatch of ExtensionFromID: closed comparisons, by computation *)
Lemma ew_sni b : ext_write ID_SNI b =
  match read_u16lp b with
  | None => Err E_PARSE
  | Some (names, _) => if empty names then Err E_PARSE else do _ <- sni_names (length names) names []; Ok (ESNI [])
  end.
Proof. reflexivity. Qed.
Lemma ew_curves b : ext_write ID_CURVES b = u16_list_write E_PARSE ESupportedCurves ungrease b.
Proof. reflexivity. Qed.
Lemma ew_points b : ext_write ID_POINTS b =
  match read_u8lp b with None => Err E_PARSE | Some (v, _) => if empty v then Err E_PARSE else Ok (ESupportedPoints v) end.
Proof. reflexivity. Qed.
Lemma ew_sigalgs b : ext_write ID_SIGALGS b = u16_list_write E_PARSE ESignatureAlgorithms same b.
Proof. reflexivity. Qed.
Lemma ew_sigalgs_cert b : ext_write ID_SIGALGS_CERT b = u16_list_write E_PARSE ESignatureAlgorithmsCert same b.
Proof. reflexivity. Qed.
Lemma ew_dc b : ext_write ID_DELEGATED_CREDENTIALS b = u16_list_write E_PARSE EFakeDelegatedCredentials same b.
Proof. reflexivity. Qed.
Lemma ew_alpn b : ext_write ID_ALPN b = protos_write EALPN b. Proof. reflexivity. Qed.
Lemma ew_alps b : ext_write ID_ALPS b = protos_write EApplicationSettings b. Proof. reflexivity. Qed.
Lemma ew_alps_new b : ext_write ID_ALPS_NEW b = protos_write EApplicationSettingsNew b. Proof. reflexivity. Qed.
Lemma ew_compress b : ext_write ID_COMPRESS_CERT b =
  match read_u8lp b with
  | None => Err E_PARSE
  | Some (v, _) => match read_u16s v with None => Err E_PARSE | Some l => Ok (ECompressCert l) end
  end.
Proof. reflexivity. Qed.
Lemma ew_key_share b : ext_write ID_KEY_SHARE b =
  match read_u16lp b with
  | None => Err E_PARSE
  | Some (v, _) => match key_shares_parse (length v) v with None => Err E_PARSE | Some l => Ok (EKeyShare l) end
  end.
Proof. reflexivity. Qed.
Lemma ew_psk_modes b : ext_write ID_PSK_MODES b =
  match read_u8lp b with None => Err E_PARSE | Some (v, _) => Ok (EPSKKeyExchangeModes v) end.
Proof. reflexivity. Qed.
Lemma ew_versions b : ext_write ID_VERSIONS b =
  match read_u8lp b with
  | None => Err E_PARSE
  | Some (v, _) =>
    if empty v then Err E_PARSE else
    match read_u16s v with None => Err E_PARSE | Some l => Ok (ESupportedVersions (map ungrease l)) end
  end.
Proof. reflexivity. Qed.
Lemma ew_rsl b : ext_write ID_RECORD_SIZE_LIMIT b =
  match read_u16 b with None => Err E_PARSE | Some (l, _) => Ok (EFakeRecordSizeLimit l) end.
Proof. reflexivity. Qed.
Lemma ew_tb b : ext_write ID_TOKEN_BINDING b =
  match obind (read_u8 b) (fun '(ma, s1) => obind (read_u8 s1) (fun '(mi, s2) =>
        obind (read_u8lp s2) (fun '(p, _) => Some (ma, mi, p)))) with
  | None => Err E_PARSE
  | Some (ma, mi, p) => Ok (EFakeTokenBinding ma mi p)
  end.
Proof. reflexivity. Qed.
Lemma ew_psk b : ext_write ID_PSK b = fake_psk_write b. Proof. reflexivity. Qed.
Lemma ew_ech b : ext_write ID_ECH b = ech_write b. Proof. reflexivity. Qed.

Lemma map_same l : map same l = l.
Proof. induction l as [|x l IH]; [reflexivity|]. cbn [map]. now rewrite IH. Qed.

Lemma ew_grease v b : is_grease v = true -> ext_write v b = Ok (EGREASE GREASE_PLACEHOLDER b).
Proof.
  intros Hg. unfold ext_write.
  rewrite !(is_grease_closed v _ Hg) by reflexivity. now rewrite Hg.
Qed.

Lemma write_read e : rt_ok e = true -> ext_write (ext_id e) (ext_body e) = Ok (ext_norm e).
Proof.
  intros Hrt. destruct (rt_parts e Hrt) as (Hwf & Hab). destruct (wf_parts e Hwf) as (Hs & Hf & Hl).
  unfold rt_ok in Hrt. rewrite Hwf, Hab in Hrt. cbn [negb andb] in Hrt.
  destruct e; try discriminate;
  cbn [ext_id ext_body ext_norm ext_len fields_ok state_ok ext_absent] in *;
  try reflexivity.
  - (* SNI *) rewrite ew_sni. rewrite Hab in Hl. apply negb_true_iff in Hrt.
    rewrite read_enc_u16lp_nil by (autorewrite with blen; lia).
    cbn [app empty length]. rewrite sni_names_ok; [reflexivity| |lia|exact Hrt].
    apply empty_false_iff. lia.
  - (* curves *) rewrite ew_curves. apply u16_list_write_ok; [exact Hf|exact Hrt|lia].
  - (* points *) rewrite ew_points. rewrite read_enc_u8lp_nil by lia. apply negb_true_iff in Hrt. now rewrite Hrt.
  - (* sigalgs *) rewrite ew_sigalgs, u16_list_write_ok; [now rewrite map_same|exact Hf|exact Hrt|lia].
  - (* sigalgs cert *) rewrite ew_sigalgs_cert, u16_list_write_ok; [now rewrite map_same|exact Hf|exact Hrt|lia].
  - (* ALPN *) rewrite ew_alpn. apply protos_write_ok; [exact Hf|exact Hrt|lia].
  - (* ALPS *) rewrite ew_alps. apply protos_write_ok; [exact Hf|exact Hrt|lia].
  - (* ALPS new *) rewrite ew_alps_new. apply protos_write_ok; [exact Hf|exact Hrt|lia].
  - (* GREASE *) now apply ew_grease.
  - (* compress cert *) rewrite ew_compress. apply andb_true_iff in Hf. destruct Hf as [Hall Hn].
    rewrite read_enc_u8lp_nil by (rewrite blen_flat_u16; lia). now rewrite read_u16s_flat.
  - (* key share *) rewrite ew_key_share.
    rewrite read_enc_u16lp_nil by (rewrite <- key_shares_bytes_spec, blen_key_shares_bytes; lia).
    rewrite key_shares_parse_ok; [reflexivity|exact Hf|exact Hrt|lia|lia].
  - (* PSK modes *) rewrite ew_psk_modes. now rewrite read_enc_u8lp_nil by lia.
  - (* versions *) rewrite ew_versions. apply andb_true_iff in Hf. destruct Hf as [Hall Hn].
    rewrite read_enc_u8lp_nil by (rewrite blen_flat_u16; lia).
    rewrite flat_u16_nonempty by exact Hrt. now rewrite read_u16s_flat.
  - (* channel id *) destruct old; reflexivity.
  - (* record size limit *) rewrite ew_rsl. rewrite <- (app_nil_r (enc_u16 limit)). now rewrite read_enc_u16 by lia.
  - (* token binding *) rewrite ew_tb. cbn [app read_u8 obind]. now rewrite read_enc_u8lp_nil by lia.
  - (* delegated credentials *) rewrite ew_dc, u16_list_write_ok; [now rewrite map_same|exact Hf|exact Hrt|lia].
  - (* fake PSK *) rewrite ew_psk. rewrite !andb_true_iff in Hf. destruct Hf as [[Ha Hb] _].
    apply N.eqb_neq in Hab. destruct (psk_ext_len_pos ids binders) as [Hp|Hp]; [lia|].
    rewrite psk_binders_len_eq in Hp. apply fake_psk_write_ok; [exact Ha|exact Hb|lia|lia].
  - (* GREASE ECH *) rewrite ew_ech. rewrite !andb_true_iff, negb_true_iff in Hrt.
    destruct Hrt as [[[Hk Ha] Hne] Hp]. apply ech_write_ok; try assumption; lia.
Qed.

Lemma ungrease_idem v : ungrease (ungrease v) = ungrease v.
Proof. unfold ungrease. destruct (is_grease v) eqn:E; [reflexivity|]. now rewrite E. Qed.

Lemma norm_share_idem k : norm_share (norm_share k) = norm_share k.
Proof.
  unfold norm_share. cbn [fst snd]. rewrite ungrease_idem.
  destruct (ungrease (fst k) =? GREASE_PLACEHOLDER); reflexivity.
Qed.

Lemma norm_idem e : ext_norm (ext_norm e) = ext_norm e.
Proof.
  destruct e; cbn [ext_norm ech_mask]; try reflexivity.
  - f_equal. rewrite map_map. apply map_ext. intros; apply ungrease_idem.
  - f_equal. rewrite map_map. apply map_ext. intros; apply norm_share_idem.
  - f_equal. rewrite map_map. apply map_ext. intros; apply ungrease_idem.
  - now rewrite !length_zbytes.
Qed.

Lemma ext_id_u16 e : fields_ok e = true -> ext_id e < 65536.
Proof.
  destruct e; cbn [ext_id fields_ok]; intros H; try reflexivity; try lia.
  destruct old; reflexivity.
Qed.

Lemma read_no_panic e n : (forall tps, e <> EQUICTransportParameters tps) -> is_panic (ext_read e n) = false.
Proof.
  intros Hq. destruct e; cbn [ext_read]; unfold guarded, read_psk;
  repeat match goal with |- context [if ?c then _ else _] => destruct c end; try reflexivity.
  exfalso. now apply (Hq tps).
Qed.

(* the limit tests of Read come after the buffer test: a large enough buffer reaches them *)
Lemma read_over_limit n len (over : bool) code (out : bytes) : len <= n -> over = true ->
  (if n <? len then Err E_SHORT else if over then Err code else Ok out) = Err code.
Proof. intros Hn ->. destruct (N.ltb_spec n len); [lia|reflexivity]. Qed.

Ltac Zify.zify_post_hook ::= idtac.
