(* C20 — injected sessions are used exactly as given, under any legal call order.
   Model: Model/Session.v (UConn session API + sessionController, code with fix 222e09f "apply the ClientHelloID preset
   only once"): finite control x provenance flags x data. [world_ok] is the shape of every predefined ClientHelloID;
   [legal] the documented call orders. All theorems are for histories of ANY length carrying arbitrary ticket /
   identity bytes: Proofs/SessionP.v computes, for each of the finitely many abstract worlds, the reachable control
   nodes and checks by computation that they are closed under every legal call (an inductive invariant over a finite
   space); Proofs/SessionMainP.v lifts it by induction over the history. The witness of the former defect (F-20) is
   kept as an Example about the pre-fix variant of the model ([w_reapply := true]) and as a corpus case of the runner. *)
From UV Require Import Base.Common Model.Session Proofs.SessionP Proofs.SessionMainP.

(* every documented order runs without an assertion panic — HelloGolang included *)
Theorem C20_no_assert : forall (w : world) (ops : list op),
  world_ok w = true -> legal w ops = true ->
  Forall (fun r => is_panic r = false) (run w (init w) ops).
Proof. intros w ops W L. destruct (legal_lf w ops L) as [lf E]. exact (proj1 (legal_history w ops lf (check_ok _ W) E)). Qed.
Print Assumptions C20_no_assert.

(* an injected, initialized session ticket is what the marshaled hello and HandshakeState carry once the hello is built *)
Theorem C20_wire_ticket : forall (w : world) (ops : list op) (tk : bytes) (se : N),
  world_ok w = true -> w_golang w = false -> legal w ops = true ->
  injected ops = Some (InjTicket tk se) ->
  let s := final w (init w) ops in
  status (st_c s) = ByUtls ->
  hs_sess (st_d s) = se /\ hs_ticket (st_d s) = tk /\ exists p, raw (st_d s) = Some ([tk], p).
Proof.
  intros w ops tk se W G L J s St. destruct (legal_lf w ops L) as [lf E].
  exact (injected_on_wire w ops lf _ (check_ok _ W) G E J St).
Qed.
Print Assumptions C20_wire_ticket.

(* the same for an injected PSK: identity in the pre_shared_key extension, session in HandshakeState *)
Theorem C20_wire_psk : forall (w : world) (ops : list op) (lb : bytes) (se : N),
  world_ok w = true -> w_golang w = false -> legal w ops = true ->
  injected ops = Some (InjPsk lb se) ->
  let s := final w (init w) ops in
  status (st_c s) = ByUtls ->
  hs_sess (st_d s) = se /\ exists t, raw (st_d s) = Some (t, Some lb).
Proof.
  intros w ops lb se W G L J s St. destruct (legal_lf w ops L) as [lf E].
  exact (injected_on_wire w ops lf _ (check_ok _ W) G E J St).
Qed.
Print Assumptions C20_wire_psk.

(* a call the documentation forbids, after any documented history, returns "session is disabled" or panics with the
   documented "locked" / "undesired controller state" message *)
Theorem C20_forbidden : forall (w : world) (ops : list op) (lf : lst) (o : op),
  world_ok w = true -> w_golang w = false ->
  legal_from w (linit (w_cache0 w)) ops = Some lf -> forbidden w lf o = true ->
  rejected (snd (step w o (final w (init w) ops))) = true.
Proof. intros w ops lf o W G E F. exact (proj1 (final_call w ops lf o (check_ok _ W) E) G F). Qed.
Print Assumptions C20_forbidden.

(* once the preset has been applied (in particular once the hello is built) the key-share private keys exist and are
   the ones of the share in the hello — also after BuildHandshakeStateWithoutSession followed by BuildHandshakeState *)
Theorem C20_keys_survive : forall (w : world) (ops : list op),
  world_ok w = true -> w_golang w = false -> legal w ops = true ->
  let c := st_c (final w (init w) ops) in
  (status c = ByUtls -> applied c = true) /\
  (applied c = true -> w_tls13 w = true -> share_some c = true /\ keys_some c = true /\ keys_match c = true).
Proof.
  intros w ops W G L. destruct (legal_lf w ops L) as [lf E].
  exact (keys_p_utls (cworld_of w) _ G (proj1 (final_node w ops lf (check_ok _ W) E))).
Qed.
Print Assumptions C20_keys_survive.

(* HelloGolang keeps the private key of its key share *)
Theorem C20_keys_golang : forall (w : world) (ops : list op),
  world_ok w = true -> w_golang w = true -> legal w ops = true ->
  let c := st_c (final w (init w) ops) in
  status c = ByGo -> share_some c = true /\ keys_some c = true /\ keys_match c = true.
Proof.
  intros w ops W G L. destruct (legal_lf w ops L) as [lf E].
  exact (keys_p_go (cworld_of w) _ G (proj1 (final_node w ops lf (check_ok _ W) E))).
Qed.
Print Assumptions C20_keys_golang.

(* no Handshake of a documented history fails because a key-share private key is missing or a PSK binder is stale *)
Theorem C20_handshake_never_fails : forall (w : world) (ops : list op),
  world_ok w = true -> legal w ops = true -> herr (st_c (final w (init w) ops)) = false.
Proof.
  intros w ops W L. destruct (legal_lf w ops L) as [lf E]. exact (proj2 (proj2 (final_node w ops lf (check_ok _ W) E))).
Qed.
Print Assumptions C20_handshake_never_fails.

(* every successful build (explicit, or the one inside Handshake) with a PSK in place leaves binders computed over the
   hello just marshaled — whatever edits of the hello ([EditHello]) and earlier builds preceded it *)
Theorem C20_binders_fresh : forall (w : world) (ops : list op) (lf : lst) (o : op) (l2 : lst),
  world_ok w = true ->
  legal_from w (linit (w_cache0 w)) ops = Some lf -> legal_step w lf o = Some l2 ->
  kind o = KBuild \/ kind o = KHandshake ->
  let r := step w o (final w (init w) ops) in
  snd r = Ok tt -> cs (st_c (fst r)) = PskAllSet -> binder_fresh (st_c (fst r)) = true.
Proof.
  intros w ops lf o l2 W E L K r R C. pose proof (proj2 (final_call w ops lf o (check_ok _ W) E) l2 L) as B. fold r in B.
  rewrite R in B. unfold binder_p, ctl in B. cbn [fst] in B. rewrite C in B.
  destruct K as [K|K]; rewrite K in B; exact B.
Qed.
Print Assumptions C20_binders_fresh.

Definition chrome (reapply : bool) : world :=   (* session_ticket, no pre_shared_key, TLS 1.3 peer *)
  mkWorld false 1 false true true true false false true HitNone true reapply.
Definition chrome_psk : world := mkWorld false 1 true true true true false false true HitNone true false.

Example C20_ex_worlds_ok : world_ok (chrome false) = true /\ world_ok chrome_psk = true.
Proof. split; reflexivity. Qed.

(* F-20 on the code before the fix: BuildHandshakeStateWithoutSession; BuildHandshakeState loses the keys, Handshake fails *)
Example C20_ex_F20_before_fix :
  let c := st_c (final (chrome true) (init (chrome true)) [BuildNoSess; Build]) in
  share_some c = true /\ keys_some c = false /\
  run (chrome true) (init (chrome true)) [BuildNoSess; Handshake] = [Ok tt; Err E_HANDSHAKE].
Proof. vm_compute. repeat split. Qed.

(* the same history on the fixed code *)
Example C20_ex_F20_fixed :
  legal (chrome false) [BuildNoSess; Build; Handshake] = true /\
  keys_eq (st_c (final (chrome false) (init (chrome false)) [BuildNoSess; Build])) = true /\
  run (chrome false) (init (chrome false)) [BuildNoSess; Build; Handshake] = [Ok tt; Ok tt; Ok tt].
Proof. vm_compute. repeat split. Qed.

(* the documented injection flows: the hypotheses of C20_wire_ticket / C20_wire_psk are satisfiable, the hello is built,
   and what goes on the wire at Handshake is that hello *)
Example C20_ex_ticket_flow :
  let ops := [SetCache; BuildNoSess; SetTicket (Some (true, [7; 8; 9], 5)); Handshake] in
  legal (chrome false) ops = true /\ injected ops = Some (InjTicket [7; 8; 9] 5) /\
  status (st_c (final (chrome false) (init (chrome false)) ops)) = ByUtls /\
  wire (st_d (final (chrome false) (init (chrome false)) ops)) = Some ([[7; 8; 9]], None).
Proof. vm_compute. repeat split. Qed.

Example C20_ex_psk_flow :
  let ops := [SetCache; SetPsk (Some (true, [4; 2], 6)); Build; Build; Handshake] in
  legal chrome_psk ops = true /\ injected ops = Some (InjPsk [4; 2] 6) /\
  status (st_c (final chrome_psk (init chrome_psk) ops)) = ByUtls /\
  wire (st_d (final chrome_psk (init chrome_psk) ops)) = Some ([[]], Some [4; 2]).
Proof. vm_compute. repeat split. Qed.

(* forbidden calls: hypotheses of C20_forbidden are satisfiable; the three rejections all occur *)
Example C20_ex_forbidden :
  run (chrome false) (init (chrome false))
      [SetTicket (Some (true, [1], 1)); SetCache; Build; SetTicket (Some (true, [1], 1))] = [Err E_DISABLED; Ok tt; Ok tt; Panic P_LOCKED] /\
  run (chrome false) (init (chrome false))
      [SetCache; SetTicket (Some (true, [1], 1)); SetPsk (Some (true, [2], 2))] = [Ok tt; Ok tt; Panic P_STATE].
Proof. vm_compute. split; reflexivity. Qed.

(* an injected ticket on a parrot without session_ticket extension is refused, not dropped *)
Example C20_ex_no_extension :
  run (mkWorld false 0 false true true true true false true HitNone false false)
      (init (mkWorld false 0 false true true true true false true HitNone false false))
      [SetTicket (Some (true, [1], 1)); Handshake] = [Ok tt; Err E_NO_TICKET_EXT].
Proof. vm_compute. reflexivity. Qed.

(* edit the built hello, then handshake: the binder is recomputed; filling the extension found in the inspected hello *)
Example C20_ex_edit_and_reuse :
  let ops := [SetCache; SetPsk (Some (true, [4; 2], 6)); Build; EditHello] in
  legal chrome_psk (ops ++ [Handshake]) = true /\
  binder_fresh (st_c (final chrome_psk (init chrome_psk) ops)) = false /\
  binder_fresh (st_c (final chrome_psk (init chrome_psk) (ops ++ [Handshake]))) = true /\
  run chrome_psk (init chrome_psk) [SetCache; BuildNoSess; ReusePsk ([4; 2], 6); Handshake] = [Ok tt; Ok tt; Ok tt; Ok tt] /\
  wire (st_d (final chrome_psk (init chrome_psk) [SetCache; BuildNoSess; ReusePsk ([4; 2], 6); Handshake])) = Some ([[]], Some [4; 2]) /\
  wire (st_d (final chrome_psk (init chrome_psk) [SetCache; BuildNoSess; ReuseTicket ([7], 5); Handshake])) = Some ([[7]], None).
Proof. vm_compute. repeat split. Qed.

(* the size of the finite argument: abstract worlds, those of predefined-parrot shape (all searched: [check_ok]), and
   the reachable control nodes of two of them (no world has more than 171) *)
Example C20_ex_sizes :
  N.of_nat (length all_cworlds) = 9216 /\ N.of_nat (length (filter cworld_ok all_cworlds)) = 864 /\
  length (reach (cworld_of (chrome false))) = 70%nat /\ length (reach (cworld_of chrome_psk)) = 142%nat.
Proof. vm_compute. repeat split. Qed.
