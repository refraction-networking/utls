(* C10: a spec satisfying c10_cond completes on every compliant flight.  [spec_ok] and [compliant13] / [compliant12] are
   boolean conjunctions; their facts are delivered once as records (spec_facts, c13_facts, h13_facts), and the proof then
   walks client_run through the TLS 1.3 flight with or without a HelloRetryRequest, and the TLS 1.2 flight. *)
From UV Require Import Base.Common Model.Negotiate Model.KeyShare Model.Complete Proofs.NegotiateP.

(* [bs H X] splits H : a && b = true into H : a = true and X : b = true.  A conjunction a1 && ... && an is
   left-nested, so it comes apart from the right: after [bs H Qn. ... bs H Q2.] Qk is the k-th conjunct and H the first. *)
Ltac bs H X := apply andb_true_iff in H; destruct H as [H X].

Record spec_facts (fixed : bool) (e : env) (v : client_view) (ks : kshape) (m : N) (w : wire_view) : Prop := {
  sf_synced : synced v w = true;
  sf_vers : versions_ok e v m w = true;
  sf_keys : keys_ok fixed v ks = true;
  sf_mlkem : cv_mlkem v = sh_mlkem ks;
  sf_ech : cv_ech v = false;
  sf_ccext : is_nil (w_ccalgs w) = false -> cv_ccext v = true;
  sf_shares13 : is_nil (cv_shares v) = false -> offers13 w = true;
  sf_13shares : offers13 w = true -> is_nil (cv_shares v) = false
}.

Lemma spec_ok_inv fixed e v ks m w : spec_ok fixed e v ks m w = true -> spec_facts fixed e v ks m w.
Proof.
  unfold spec_ok. intros H. bs H Q8. bs H Q7. bs H Q6. bs H Q5. bs H Q4. bs H Q3. bs H Q2.
  constructor; auto.
  - apply eqb_prop. exact Q4.
  - apply negb_true_iff. exact Q5.
  - intros N. rewrite N in Q6. exact Q6.
  - intros N. rewrite N in Q7. exact Q7.
  - intros O. rewrite O in Q8. apply negb_true_iff. exact Q8.
Qed.

Record c13_facts (w : wire_view) (fl : flight) : Prop := {
  c_off : offers13 w = true;
  c_sh : compliant_hello13 w (f_sh fl) = true;
  c_tail : h_tail (f_sh fl) = 0;
  c_cookie : h_cookie (f_sh fl) = false;
  c_sel : h_selgroup (f_sh fl) = 0;
  c_gimpl : group_impl (h_share (f_sh fl)) = true;
  c_gw : memN (h_share (f_sh fl)) (w_groups w) = true;
  (* a HelloRetryRequest asks for a listed group without share, or carries a cookie only *)
  c_hrr : match f_hrr fl with
          | None => memN (h_share (f_sh fl)) (w_shares w) = true
          | Some h =>
              compliant_hello13 w h = true /\ h_tail h = 0 /\ h_share h = 0 /\ h_suite h = h_suite (f_sh fl)
              /\ (((h_selgroup h =? 0) = false /\ memN (h_selgroup h) (w_groups w) = true
                   /\ memN (h_selgroup h) (w_shares w) = false /\ h_share (f_sh fl) = h_selgroup h)
                  \/ (h_selgroup h = 0 /\ h_cookie h = true /\ memN (h_share (f_sh fl)) (w_shares w) = true))
          end;
  c_alpn : is_nil (f_ee_alpn fl) || memB (f_ee_alpn fl) (w_alpn w) = true;
  c_cc : match f_ccert fl with None => true | Some a => memN a (w_ccalgs w) && memN a [1; 2; 3] end = true;
  c_skx : f_skx fl = None;
  c_crypto : f_crypto_ok fl = true
}.

Lemma compliant13_inv w fl : compliant13 w fl = true -> c13_facts w fl.
Proof.
  unfold compliant13. intros H. bs H Q12. bs H Q11. bs H Q10. bs H Q9. bs H Q8. bs H Q7. bs H Q6. bs H Q5. bs H Q4. bs H Q3. bs H Q2.
  constructor; auto.
  - apply N.eqb_eq. exact Q3.
  - apply negb_true_iff. exact Q4.
  - apply N.eqb_eq. exact Q5.
  - destruct (f_hrr fl) as [h|]; [|exact Q8]. bs Q8 W. bs Q8 A3. bs Q8 A2. bs Q8 A1.
    apply N.eqb_eq in A1, A2, A3. repeat split; try assumption. apply orb_true_iff in W as [W|W].
    + left. bs W B1. bs W B2. bs W B3. apply negb_true_iff in W, B2. apply N.eqb_eq in B1. auto.
    + right. bs W B1. bs W B2. apply N.eqb_eq in W. auto.
  - destruct (f_skx fl); [discriminate|reflexivity].
Qed.

Record h13_facts (w : wire_view) (h : hello_msg) : Prop := {
  h_f_vers : h_vers h = V12; h_f_sv : h_sv h = V13; h_f_sid : h_sid h = w_sid w; h_f_comp : h_comp h = 0;
  h_f_suite : memN (h_suite h) (w_suites w) = true; h_f_s13 : memN (h_suite h) tls13_suites = true;
  h_f_alpn : h_alpn h = []; h_f_psk : h_psk h = None
}.
Lemma compliant_hello13_inv w h : compliant_hello13 w h = true -> h13_facts w h.
Proof.
  unfold compliant_hello13. intros H. bs H Q8. bs H Q7. bs H Q6. bs H Q5. bs H Q4. bs H Q3. bs H Q2.
  constructor; auto.
  - apply N.eqb_eq; auto. - apply N.eqb_eq; auto. - apply bytes_eqb_eq; auto. - apply N.eqb_eq; auto.
  - destruct (h_alpn h); [reflexivity|discriminate]. - destruct (h_psk h); [discriminate|reflexivity].
Qed.

Lemma memB_nonnil x l : memB x l = true -> l <> [].
Proof. destruct l; [discriminate|congruence]. Qed.

Lemma check_alpn_ok client server : is_nil server || memB server client = true -> check_alpn client server = true.
Proof.
  unfold check_alpn. destruct server as [|b s]; [reflexivity|]. simpl. intros H.
  destruct client; [discriminate|exact H].
Qed.

Lemma group_impl_nonzero g : group_impl g = true -> g <> 0.
Proof. intros H ->. vm_compute in H. discriminate. Qed.

Lemma offers13_adv m w : offers13 w = true -> memN V13 (advertised m w) = true.
Proof.
  unfold offers13, advertised. intros H. apply andb_true_iff in H as [A B]. rewrite A.
  apply memN_In. apply filter_In. split; [apply memN_In; exact B|reflexivity].
Qed.

Lemma versions_ok_in e v m w x : versions_ok e v m w = true -> memN x (advertised m w) = true ->
  memN x (client_versions v) = true /\ version_offered e v x = true.
Proof.
  unfold versions_ok. intros H M. apply andb_true_iff in H as [A _]. rewrite forallb_forall in A.
  apply memN_In in M. specialize (A _ M). apply andb_true_iff in A. exact A.
Qed.

Lemma check_hello13_ok v w prev h :
  cv_sid v = w_sid w -> cv_suites v = w_suites w -> compliant_hello13 w h = true ->
  (forall p, prev = Some p -> h_suite h = p) -> check_hello13 v prev h = inr (h_suite h).
Proof.
  intros S1 S2 C P. destruct (compliant_hello13_inv _ _ C) as [F1 F2 F3 F4 F5 F6 F7 F8].
  unfold check_hello13. rewrite F2, F1, F7, S1, <- F3, F4.
  change (V13 =? 0) with false. change (V13 =? V13) with true. change (V12 =? V12) with true. change (0 =? 0) with true. cbn [negb].
  replace (bytes_eqb (h_sid h) (h_sid h)) with true by (symmetry; apply bytes_eqb_eq; reflexivity). cbn [negb].
  unfold mutual13. rewrite S2, F5, F6. cbn [andb].
  destruct prev as [p|]; [|reflexivity]. rewrite (P p eq_refl), N.eqb_refl. reflexivity.
Qed.

Lemma eff_nonzero fixed ks g : sh_ecdhe ks <> 0 -> hybrid g = false -> g <> 0 -> eff_ecdhe fixed ks g <> 0.
Proof.
  intros NZ Hy G. unfold eff_ecdhe. destruct fixed; cbn [negb]; [|exact NZ].
  apply N.eqb_neq in NZ. rewrite NZ, Hy. apply N.eqb_neq in NZ.
  destruct (classical_impl g && negb (sh_ecdhe ks =? g) && memN g (sh_extra ks)); assumption.
Qed.

(* TLS 1.3: each stage of handshake_client_tls13.go on an input it lets through *)
Lemma process_hrr_group v h :
  (h_selgroup h =? 0) = false -> h_share h = 0 -> memN (h_selgroup h) (cv_curves v) = true ->
  memN (h_selgroup h) (cv_shares v) = false -> classical_impl (h_selgroup h) = true -> (0 <? cv_psk v) = false ->
  process_hrr v h = inr ([h_selgroup h], h_selgroup h).
Proof. intros H1 H2 H3 H4 H5 H6. unfold process_hrr. rewrite H1, H2, H3, H4, H5, H6. reflexivity. Qed.

Lemma process_hrr_cookie v h :
  h_selgroup h = 0 -> h_cookie h = true -> h_share h = 0 -> (0 <? cv_psk v) = false ->
  process_hrr v h = inr (cv_shares v, cv_ecdhe v).
Proof. intros H1 H2 H3 H4. unfold process_hrr. rewrite H1, H2, H3, H4. reflexivity. Qed.

Lemma process_sh13_ok v shares suite h :
  h_cookie h = false -> h_selgroup h = 0 -> h_share h <> 0 -> memN (h_share h) shares = true -> h_psk h = None ->
  process_sh13 v shares suite h = inr false.
Proof.
  intros H1 H2 H3 H4 H5. apply N.eqb_neq in H3. unfold process_sh13. rewrite H1, H2, H3, H4, H5. reflexivity.
Qed.

Lemma check_ccert_ok v w cc :
  cv_ccalgs v = w_ccalgs w -> (is_nil (w_ccalgs w) = false -> cv_ccext v = true) ->
  match cc with None => true | Some a => memN a (w_ccalgs w) && memN a [1; 2; 3] end = true ->
  check_ccert v cc = None.
Proof.
  intros Scc SCX Ccc. unfold check_ccert. destruct cc as [a|]; [|reflexivity]. apply andb_true_iff in Ccc as [A1 A2].
  rewrite Scc, A1, A2. destruct (w_ccalgs w); [discriminate|]. rewrite (SCX eq_refl). reflexivity.
Qed.

Lemma run13_no_hrr v fl s :
  f_hrr fl = None -> (cv_ecdhe v =? 0) = false -> is_nil (cv_shares v) = false ->
  check_hello13 v None (f_sh fl) = inr s -> process_sh13 v (cv_shares v) s (f_sh fl) = inr false ->
  establish_keys (cv_ecdhe v) (cv_mlkem v) (h_share (f_sh fl)) = None ->
  f_crypto_ok fl = true -> check_alpn (cv_alpn v) (f_ee_alpn fl) = true -> check_ccert v (f_ccert fl) = None ->
  run13 v fl = Complete (mkState V13 s (h_share (f_sh fl)) (f_ee_alpn fl) false false).
Proof.
  intros H0 H1 H2 H3 H4 H5 H6 H7 H8. unfold run13. change (match cv_shares v with [] => true | _ :: _ => false end) with (is_nil (cv_shares v)).
  rewrite H0, H1, H2, H3, H4, H5, H6, H7, H8. reflexivity.
Qed.

Lemma run13_hrr v fl h s0 shares ecdhe s :
  f_hrr fl = Some h -> (cv_ecdhe v =? 0) = false -> is_nil (cv_shares v) = false ->
  check_hello13 v None h = inr s0 -> process_hrr v h = inr (shares, ecdhe) ->
  check_hello13 v (Some s0) (f_sh fl) = inr s -> process_sh13 v shares s (f_sh fl) = inr false ->
  establish_keys ecdhe (cv_mlkem v) (h_share (f_sh fl)) = None ->
  f_crypto_ok fl = true -> check_alpn (cv_alpn v) (f_ee_alpn fl) = true -> check_ccert v (f_ccert fl) = None ->
  run13 v fl = Complete (mkState V13 s (h_share (f_sh fl)) (f_ee_alpn fl) true false).
Proof.
  intros H0 H1 H2 H3 H4 H5 H6 H7 H8 H9 H10. unfold run13. change (match cv_shares v with [] => true | _ :: _ => false end) with (is_nil (cv_shares v)).
  rewrite H0, H1, H2, H3, H4, H5, H6, H7, H8, H9, H10. reflexivity.
Qed.

(* a compliant TLS 1.3 flight passes every stage: without HelloRetryRequest and after a cookie-only one the server's share is
   for a group the hello sent a share for, backed by its key (keys_ok); after a request for another group the client makes a
   fresh key for that (classical) group *)
Lemma run13_complete fixed v ks m w fl e :
  spec_ok fixed e v ks m w = true -> psk_with_hrr v fl = false -> hrr_to_hybrid fl = false ->
  compliant13 w fl = true ->
  exists st, run13 (set_ecdhe v (if sh_ecdhe ks =? 0 then 0 else eff_ecdhe fixed ks (h_share (f_sh fl)))) fl = Complete st
             /\ cs_vers st = V13 /\ cs_suite st = h_suite (f_sh fl) /\ cs_group st = h_share (f_sh fl)
             /\ cs_alpn st = f_ee_alpn fl.
Proof.
  intros SO NP NH C.
  destruct (spec_ok_inv _ _ _ _ _ _ SO) as [SY SV SK SM SE SCX S13a S13b].
  destruct (synced_inv _ _ SY) as (Ss & Sc & Sh & Sa & Si & Sp & Scc & _).
  destruct (compliant13_inv _ _ C) as [Coff Csh Ctail Ccookie Csel Cgi Cgw Chrr Calpn Ccc Cskx Ccr].
  pose proof (S13b Coff) as B.
  unfold keys_ok in SK. apply andb_true_iff in SK as [K0 K1]. rewrite B in K0. cbn [orb] in K0.
  apply negb_true_iff in K0. rewrite K0. cbv beta iota. apply N.eqb_neq in K0.
  set (g := h_share (f_sh fl)) in *. set (v' := set_ecdhe v (eff_ecdhe fixed ks g)).
  pose proof (group_impl_nonzero _ Cgi) as Gnz.
  assert (KEY : memN g (cv_shares v) = true ->
                establish_keys (eff_ecdhe fixed ks g) (cv_mlkem v) g = None /\ (eff_ecdhe fixed ks g =? 0) = false).
  { intros M. rewrite forallb_forall in K1. apply memN_In in M. specialize (K1 _ M). rewrite Cgi in K1. cbn [negb orb] in K1.
    rewrite SM. destruct (establish_keys (eff_ecdhe fixed ks g) (sh_mlkem ks) g) eqn:E; [discriminate|]. split; [reflexivity|].
    apply N.eqb_neq. intros Z. rewrite Z in E. unfold establish_keys in E. destruct (hybrid g); [discriminate|].
    destruct (N.eqb_spec g 0); [congruence|discriminate]. }
  assert (CH : forall prev h, compliant_hello13 w h = true -> (forall p, prev = Some p -> h_suite h = p) ->
               check_hello13 v' prev h = inr (h_suite h)) by (intros prev h; apply (check_hello13_ok v' w); assumption).
  assert (SH : forall shares, memN g shares = true -> process_sh13 v' shares (h_suite (f_sh fl)) (f_sh fl) = inr false).
  { intros shares M. apply process_sh13_ok; auto. exact (h_f_psk _ _ (compliant_hello13_inv _ _ Csh)). }
  assert (ALPN : check_alpn (cv_alpn v') (f_ee_alpn fl) = true) by (change (cv_alpn v') with (cv_alpn v); rewrite Sa; apply check_alpn_ok; exact Calpn).
  assert (CC : check_ccert v' (f_ccert fl) = None) by (apply (check_ccert_ok v' w); assumption).
  destruct (f_hrr fl) as [h|] eqn:Ehrr.
  - destruct Chrr as (Chrr & _ & Chs & Csu & Cway).
    unfold psk_with_hrr in NP. rewrite Ehrr, andb_true_r in NP. unfold hrr_to_hybrid in NH. rewrite Ehrr in NH.
    assert (CH1 : check_hello13 v' None h = inr (h_suite h)) by (apply CH; [exact Chrr | discriminate]).
    assert (CH2 : check_hello13 v' (Some (h_suite h)) (f_sh fl) = inr (h_suite (f_sh fl))) by (apply CH; [exact Csh | intros p [= <-]; auto]).
    destruct Cway as [(W & B3 & B2 & B1)|(W & B2 & B1)].
    + (* the server asks for a group without share *)
      fold g in B1. rewrite <- B1 in *.
      assert (CL : classical_impl g = true) by (unfold group_impl in Cgi; rewrite NH, orb_false_r in Cgi; exact Cgi).
      assert (E0 : (cv_ecdhe v' =? 0) = false) by (apply N.eqb_neq, eff_nonzero; assumption).
      assert (PH : process_hrr v' h = inr ([g], g)).
      { rewrite B1. apply process_hrr_group; rewrite <- ?B1; auto;
          [change (cv_curves v') with (cv_curves v); rewrite Sc; exact B3 | change (cv_shares v') with (cv_shares v); rewrite Sh; exact B2]. }
      assert (M : memN g [g] = true) by (cbn; rewrite N.eqb_refl; reflexivity).
      assert (EK : establish_keys g (cv_mlkem v') g = None) by (unfold establish_keys; rewrite NH, N.eqb_refl; reflexivity).
      eexists. split; [exact (run13_hrr v' fl h _ _ _ _ Ehrr E0 B CH1 PH CH2 (SH _ M) EK Ccr ALPN CC) | cbn; auto].
    + (* cookie only *)
      fold g in B1. rewrite <- Sh in B1. destruct (KEY B1) as [EK E0].
      assert (PH : process_hrr v' h = inr (cv_shares v', cv_ecdhe v')) by (apply process_hrr_cookie; assumption).
      eexists. split; [exact (run13_hrr v' fl h _ _ _ _ Ehrr E0 B CH1 PH CH2 (SH _ B1) EK Ccr ALPN CC) | cbn; auto].
  - fold g in Chrr. rewrite <- Sh in Chrr. destruct (KEY Chrr) as [EK E0].
    assert (CH1 : check_hello13 v' None (f_sh fl) = inr (h_suite (f_sh fl))) by (apply CH; [exact Csh | discriminate]).
    eexists. split; [exact (run13_no_hrr v' fl _ Ehrr E0 B CH1 (SH _ Chrr) EK Ccr ALPN CC) | cbn; auto].
Qed.

Lemma run12_complete e v w vers fl :
  synced v w = true ->
  memN (h_suite (f_sh fl)) (w_suites w) = true -> memN (h_suite (f_sh fl)) (e_impl12 e) = true -> h_comp (f_sh fl) = 0 ->
  is_nil (h_alpn (f_sh fl)) || memB (h_alpn (f_sh fl)) (w_alpn w) = true ->
  (if memN (h_suite (f_sh fl)) (e_ecdhe12 e)
   then match f_skx fl with Some c => classical_impl c && memN c (w_groups w) | None => false end
   else is_none (f_skx fl)) = true ->
  f_crypto_ok fl = true ->
  exists st, run12 e v vers (f_sh fl) fl = Complete st /\ cs_vers st = vers /\ cs_suite st = h_suite (f_sh fl)
             /\ cs_alpn st = h_alpn (f_sh fl).
Proof.
  intros SY Hs Hi Hc Ha Hk Hcr.
  destruct (synced_inv _ _ SY) as (Ss & Sc & Sh & Sa & Si & Sp & Scc & _).
  unfold run12. rewrite Ss, Hs, Hi, Hc. change (0 =? 0) with true. cbn [andb negb].
  rewrite Sa, (check_alpn_ok _ _ Ha). cbn [negb].
  assert (SK : process_skx e v (h_suite (f_sh fl)) (f_skx fl) = None).
  { unfold process_skx. destruct (memN (h_suite (f_sh fl)) (e_ecdhe12 e)).
    - destruct (f_skx fl) as [cu|]; [|discriminate]. apply andb_true_iff in Hk as [K1 K2]. rewrite K1. cbn [negb].
      rewrite Sc, K2. cbn [negb]. rewrite andb_false_r. reflexivity.
    - destruct (f_skx fl); [discriminate|reflexivity]. }
  rewrite SK, Hcr. cbn [negb]. eexists. split; [reflexivity|]. simpl. auto.
Qed.

Theorem c10_holds_if fixed e v ks m w fl :
  c10_cond fixed e v ks m w fl = true -> compliant e m w fl = true ->
  exists st, client_run10 fixed e v ks fl = Complete st
             /\ cs_suite st = h_suite (f_sh fl)
             /\ ((cs_vers st = V13 /\ cs_group st = h_share (f_sh fl) /\ cs_alpn st = f_ee_alpn fl)
                 \/ (cs_vers st = h_vers (f_sh fl) /\ cs_vers st <> V13 /\ cs_alpn st = h_alpn (f_sh fl))).
Proof.
  unfold c10_cond. intros H C. bs H NH. bs H NP. apply negb_true_iff in NH, NP.
  destruct (spec_ok_inv _ _ _ _ _ _ H) as [SY SV SK SM SE SCX S13a S13b].
  unfold client_run10, client_run_gen. set (c := if sh_ecdhe ks =? 0 then 0 else _).
  unfold compliant in C.
  destruct (h_sv (match f_hrr fl with Some h => h | None => f_sh fl end) =? 0) eqn:SV0.
  - (* TLS <= 1.2 *)
    unfold compliant12 in C.
    bs C Ccr. bs C Cskx. bs C Calpn. bs C Ccomp. bs C Cimpl. bs C Csuite. bs C Ctail. bs C Cadv. bs C Clt. bs C Csv0.
    destruct (f_hrr fl); [discriminate|]. clear C.
    apply N.eqb_eq in Csv0. apply N.eqb_eq in Ccomp. apply N.ltb_lt in Clt.
    destruct (versions_ok_in e (set_ecdhe v c) _ _ _ SV Cadv) as [V1 V2].
    unfold pick_version. rewrite Csv0. change (0 =? 0) with true. cbv beta iota. rewrite V1, V2. cbn [negb].
    assert (CAN : canary_abort e (set_ecdhe v c) (h_vers (f_sh fl)) (f_sh fl) = false).
    { unfold canary_abort. change (offered_max e (set_ecdhe v c)) with (offered_max e v).
      unfold versions_ok in SV. apply andb_true_iff in SV as [_ OM].
      apply orb_true_iff in Ctail as [T|T]; [apply orb_true_iff in T as [T|T]|].
      - apply N.eqb_eq in T. rewrite T. change (0 =? 1) with false. change (0 =? 2) with false. cbn [orb]. rewrite !andb_false_r. reflexivity.
      - bs T T3. bs T T2. apply N.eqb_eq in T. apply N.eqb_eq in T2. apply negb_true_iff in T3.
        rewrite T, T2. change (1 =? 2) with false. rewrite !andb_false_r, orb_false_r.
        destruct (N.eqb_spec (offered_max e v) V13) as [E|_]; [rewrite E in OM; congruence|reflexivity].
      - bs T T4. bs T T3. bs T T2. apply negb_true_iff in T3, T4.
        destruct (N.eqb_spec (offered_max e v) V13) as [E|_]; [rewrite E in OM; congruence|].
        destruct (N.eqb_spec (offered_max e v) V12) as [E|_]; [rewrite E in OM; congruence|]. reflexivity. }
    rewrite CAN.
    assert (NE : h_vers (f_sh fl) <> V13) by (clear -Clt; unfold V13 in *; lia).
    replace (h_vers (f_sh fl) =? V13) with false by (symmetry; apply N.eqb_neq; exact NE).
    destruct (run12_complete e (set_ecdhe v c) w (h_vers (f_sh fl)) fl SY Csuite Cimpl Ccomp Calpn Cskx Ccr) as (st & R & A1 & A2 & A3).
    exists st. split; [exact R|]. split; [exact A2|]. right. split; [exact A1|]. split; [rewrite A1; exact NE|exact A3].
  - (* TLS 1.3 *)
    destruct (compliant13_inv _ _ C) as [Coff Csh Ctail Ccookie Csel Cgi Cgw Chrr Calpn Ccc Cskx Ccr].
    assert (F1 : h_sv (match f_hrr fl with Some h => h | None => f_sh fl end) = V13 /\ h_tail (match f_hrr fl with Some h => h | None => f_sh fl end) = 0).
    { destruct (f_hrr fl) as [h|].
      - destruct Chrr as (Chrr & Cht & _). split; [exact (h_f_sv _ _ (compliant_hello13_inv _ _ Chrr)) | exact Cht].
      - split; [exact (h_f_sv _ _ (compliant_hello13_inv _ _ Csh))|exact Ctail]. }
    destruct F1 as [F1 F2].
    destruct (versions_ok_in e (set_ecdhe v c) _ _ _ SV (offers13_adv m w Coff)) as [V1 V2].
    unfold pick_version. rewrite F1. change (V13 =? 0) with false. cbv beta iota. rewrite V1, V2. cbn [negb].
    unfold canary_abort. change (V13 <=? V12) with false. change (V13 <=? V11) with false. rewrite !andb_false_r. cbn [orb].
    change (V13 =? V13) with true. cbv beta iota.
    destruct (run13_complete fixed v ks m w fl e H NP NH C) as (st & R & A1 & A2 & A3 & A4).
    exists st. split; [exact R|]. split; [exact A2|]. left. auto.
Qed.

(* the excluded classes really abort: counterexamples to the full statement *)
Definition counterexample (fixed : bool) (v : client_view) (ks : kshape) (m : N) (w : wire_view) (fl : flight) (alert : N) : Prop :=
  spec_pre env_fixed v ks m w = true /\ wf_groups (cv_shares v) = true /\ preset_shape fixed (cv_shares v) = Some ks
  /\ compliant env_fixed m w fl = true /\ client_run10 fixed env_fixed v ks fl = Abort alert.

Lemma counterexample_refutes fixed v ks m w fl a : counterexample fixed v ks m w fl a -> ~ C10_full fixed.
Proof.
  intros (A & B & C & D & E) F. destruct (F v ks m w fl A B C D) as (st & G). rewrite E in G. discriminate.
Qed.
