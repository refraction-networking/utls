(* C22 over Model/Alps.v: the client's EncryptedExtensions is read back by the server-side parser of Model/RobustSrv.v
   (reader-after-writer lemmas of the cryptobyte calls); the client's loop over the server's EncryptedExtensions is
   a fold over the decoded extensions (ee_fold), in which the last ALPS extension decides; the client's own
   EncryptedExtensions enters the transcript before its Finished. *)
From UV Require Import Base.Common Model.Wire Model.RobustSrv Model.Alps Proofs.WireP Proofs.RobustSrvP.
From UV Require Model.Negotiate.

Lemma cb_read_app (b r : bytes) : cb_read (b ++ r) (Z.of_nat (length b)) = Ok (Some (b, r)).
Proof.
  rewrite cb_read_eq, app_length.
  destruct (Z.ltb_spec (Z.of_nat (length b + length r)) (Z.of_nat (length b))) as [H|H]; [lia|].
  destruct (Z.ltb_spec (Z.of_nat (length b)) 0) as [H0|H0]; [lia|].
  cbn [orb]. rewrite Nat2Z.id.
  rewrite firstn_app, skipn_app, Nat.sub_diag, firstn_all, skipn_all. cbn [firstn skipn app]. now rewrite app_nil_r.
Qed.

Lemma cb_uint1_enc x r : x < 256 -> cb_uint 1 (enc_u8 x ++ r) = Ok (Some (x, r)).
Proof.
  intros H. unfold cb_uint, enc_u8.
  change (Z.of_nat 1) with (Z.of_nat (length [x mod 256])). rewrite cb_read_app. cbn [bind be_acc idx nth_error].
  unfold u32. do 3 f_equal. zify. Z.div_mod_to_equations. lia.
Qed.
Lemma cb_uint2_enc x r : x < 65536 -> cb_uint 2 (enc_u16 x ++ r) = Ok (Some (x, r)).
Proof.
  intros H. unfold cb_uint, enc_u16.
  change (Z.of_nat 2) with (Z.of_nat (length [(x / 256) mod 256; x mod 256])). rewrite cb_read_app.
  cbn [bind be_acc idx nth_error]. unfold u32. do 3 f_equal. zify. Z.div_mod_to_equations. lia.
Qed.

Lemma cb_lp_enc k hdr b r : cb_uint k (hdr ++ b ++ r) = Ok (Some (blen b, b ++ r)) -> cb_lp k (hdr ++ b ++ r) = Ok (Some (b, r)).
Proof. intros E. unfold cb_lp. rewrite E. cbn [bind]. unfold blen. rewrite nat_N_Z. apply cb_read_app. Qed.
Lemma cb_lp1_enc b r : blen b < 256 -> cb_lp 1 (enc_u8lp b ++ r) = Ok (Some (b, r)).
Proof. intros H. unfold enc_u8lp. rewrite <- app_assoc. apply cb_lp_enc, cb_uint1_enc, H. Qed.
Lemma cb_lp2_enc b r : blen b < 65536 -> cb_lp 2 (enc_u16lp b ++ r) = Ok (Some (b, r)).
Proof. intros H. unfold enc_u16lp. rewrite <- app_assoc. apply cb_lp_enc, cb_uint2_enc, H. Qed.
Lemma cb_lp2_enc_nil b : blen b < 65536 -> cb_lp 2 (enc_u16lp b) = Ok (Some (b, [])).
Proof. intros H. rewrite <- (app_nil_r (enc_u16lp b)). now apply cb_lp2_enc. Qed.

Lemma cb_skip4_hdr t n body : cb_skip 4 (t :: enc_u24 n ++ body) = Ok (Some body).
Proof.
  unfold cb_skip, enc_u24.
  change (t :: [(n / 65536) mod 256; (n / 256) mod 256; n mod 256] ++ body)
    with ([t; (n / 65536) mod 256; (n / 256) mod 256; n mod 256] ++ body).
  change 4%Z with (Z.of_nat (length [t; (n / 65536) mod 256; (n / 256) mod 256; n mod 256])).
  rewrite cb_read_app. reflexivity.
Qed.

Lemma is_empty_enc_u16_app x r : is_empty (enc_u16 x ++ r) = false.
Proof. reflexivity. Qed.
Lemma length_enc_u16_app x r : length (enc_u16 x ++ r) = S (S (length r)).
Proof. reflexivity. Qed.
Lemma cee_loop_nil fuel st : cee_loop fuel [] st = Ok (Some st).
Proof. destruct fuel; reflexivity. Qed.

Definition alps_cp (cp : N) : Prop := cp = ext_alps_old \/ cp = ext_alps_new.

Lemma cee_marshal_ok cp settings :
  blen settings + 4 < 65536 -> cee_marshal cp settings [] = Ok (typeEncryptedExtensions :: enc_u24lp (enc_u16lp (cee_exts cp settings []))).
Proof.
  intros H. unfold cee_marshal. rewrite blen_nil. change (65536 <=? 0) with false.
  destruct (N.leb_spec 65536 (blen settings)) as [H1|H1]; [lia|]. rewrite andb_false_r. cbn [orb].
  assert (L : blen (cee_exts cp settings []) < 65536).
  { unfold cee_exts. cbn [is_empty]. rewrite app_nil_r. destruct (cp =? 0).
    - rewrite blen_nil. lia.
    - rewrite blen_app, blen_enc_u16, blen_enc_u16lp. lia. }
  destruct (N.leb_spec 65536 (blen (cee_exts cp settings []))) as [H3|_]; [lia|]. reflexivity.
Qed.

Lemma cee_marshal_unmarshal cp settings custom msg : cee_marshal cp settings custom = Ok msg ->
  blen (cee_exts cp settings custom) < 65536 /\
  cee_unmarshal msg =
    cee_loop (length (cee_exts cp settings custom)) (cee_exts cp settings custom) {| ee_codepoint := 0; ee_settings := [] |}.
Proof.
  unfold cee_marshal. destruct (_ || _); [discriminate|].
  destruct (N.leb_spec 65536 (blen (cee_exts cp settings custom))) as [|H]; [discriminate|]. intros [= <-]. split; [exact H|].
  unfold cee_unmarshal, enc_u24lp. rewrite cb_skip4_hdr. cbn [bind]. rewrite cb_lp2_enc_nil by exact H. reflexivity.
Qed.

Lemma cee_loop_one fuel id body st : id < 65536 -> blen body < 65536 ->
  cee_loop (S fuel) (enc_u16 id ++ enc_u16lp body) st =
    Ok (if (id =? ext_alps_old) || (id =? ext_alps_new) then Some {| ee_codepoint := id; ee_settings := body |} else None).
Proof.
  intros Hi Hb. cbn [cee_loop]. rewrite <- (app_nil_r (enc_u16lp body)), is_empty_enc_u16_app, cb_uint2_enc by exact Hi.
  cbn [bind]. rewrite cb_lp2_enc by exact Hb. destruct (_ || _); [apply cee_loop_nil | reflexivity].
Qed.

Theorem cee_roundtrip cp settings msg :
  cp = 0 \/ alps_cp cp -> cee_marshal cp settings [] = Ok msg ->
  cee_unmarshal msg = Ok (Some {| ee_codepoint := cp; ee_settings := if cp =? 0 then [] else settings |}).
Proof.
  intros Hcp E. destruct (cee_marshal_unmarshal _ _ _ _ E) as [H3 ->].
  unfold cee_exts in *. cbn [is_empty] in *. rewrite app_nil_r in *.
  destruct Hcp as [-> | Hcp]; [apply cee_loop_nil|].
  assert (Hc : (cp =? 0) = false /\ cp < 65536 /\ (cp =? ext_alps_old) || (cp =? ext_alps_new) = true)
    by (destruct Hcp as [-> | ->]; repeat split).
  destruct Hc as (Hne & Hc & Ht). rewrite Hne in *. rewrite blen_app, blen_enc_u16, blen_enc_u16lp in H3.
  rewrite length_enc_u16_app, cee_loop_one, Ht by (exact Hc || lia). reflexivity.
Qed.

(* a custom extension (never set by the library) would make the message unreadable for utlsClientEncryptedExtensionsMsg.unmarshal;
   with ALPS absent this is immediate: *)
Lemma cee_custom_not_roundtrip custom msg :
  custom <> [] -> cee_marshal 0 [] custom = Ok msg -> cee_unmarshal msg = Ok None.
Proof.
  intros Hne E. destruct (cee_marshal_unmarshal _ _ _ _ E) as [H3 ->].
  unfold cee_exts in *. cbn [N.eqb app] in *. destruct custom as [|c0 custom]; [congruence|]. cbn [is_empty] in *.
  rewrite blen_app, blen_enc_u16, blen_enc_u16lp in H3.
  rewrite length_enc_u16_app, cee_loop_one by (reflexivity || lia). reflexivity.
Qed.

(* wire form of an extension list, as every TLS stack writes it *)
Definition enc_ext (e : N * bytes) : bytes := enc_u16 (fst e) ++ enc_u16lp (snd e).
Definition enc_exts (exts : list (N * bytes)) : bytes := flat_map enc_ext exts.
Definition enc_ee (exts : list (N * bytes)) : bytes := typeEncryptedExtensions :: enc_u24lp (enc_u16lp (enc_exts exts)).
Definition ext_wf (e : N * bytes) : Prop := fst e < 65536 /\ blen (snd e) < 65536.

(* the switch applied to the decoded extensions, in order *)
Fixpoint ee_fold (exts : list (N * bytes)) (m : ee_msg) : res (option ee_msg) :=
  match exts with
  | [] => Ok (Some m)
  | (id, d) :: r => do h <- ee_handle id d m; match h with None => Ok None | Some m' => ee_fold r m' end
  end.

Lemma ee_loop_enc exts : Forall ext_wf exts -> forall fuel m, (length (enc_exts exts) <= fuel)%nat ->
  ee_loop fuel (enc_exts exts) m = ee_fold exts m.
Proof.
  induction 1 as [|[id d] exts [Hid Hd] _ IH]; intros fuel m Hf.
  - destruct fuel; reflexivity.
  - cbn [fst snd] in *. unfold enc_exts in *. cbn [flat_map] in *. unfold enc_ext at 1 in Hf. unfold enc_ext at 1. cbn [fst snd] in *.
    rewrite <- app_assoc in *. rewrite length_enc_u16_app in Hf.
    destruct fuel as [|fuel]; [lia|]. cbn [ee_loop ee_fold]. rewrite is_empty_enc_u16_app.
    rewrite cb_uint2_enc by exact Hid. cbn [bind]. rewrite cb_lp2_enc by exact Hd. cbn [bind].
    destruct (ee_handle id d m) as [[m'|]| |]; cbn [bind]; try reflexivity.
    apply IH. rewrite app_length in Hf. lia.
Qed.

Definition is_alps (id : N) : bool := (id =? ext_alps_old) || (id =? ext_alps_new).

Lemma ee_handle_alps id d m : is_alps id = true ->
  ee_handle id d m = Ok (Some (mkEE (ee_alpn m) (ee_quic m) (ee_early m) (ee_ech m) id d)).
Proof.
  unfold is_alps. intros H. apply orb_true_iff in H. rewrite !N.eqb_eq in H.
  unfold ee_handle, utls_unmarshal. destruct H as [-> | ->]; reflexivity.
Qed.

Lemma ee_handle_other id d m m' : is_alps id = false -> ee_handle id d m = Ok (Some m') ->
  ee_cp m' = ee_cp m /\ ee_alps m' = ee_alps m.
Proof.
  unfold is_alps. intros H. unfold ee_handle, utls_unmarshal. rewrite H.
  destruct (id =? ext_ALPN).
  { destruct (cb_lp 2 d) as [[[pl d']|]| |]; cbn [bind]; try discriminate.
    destruct (is_empty pl); [discriminate|].
    destruct (cb_lp 1 pl) as [[[pr pl']|]| |]; cbn [bind]; try discriminate.
    destruct (is_empty pr || negb (is_empty pl')); [discriminate|].
    destruct (negb (is_empty d')); [discriminate|]. intros E. injection E as <-. split; reflexivity. }
  destruct (id =? ext_quic_tp); [intros E; injection E as <-; split; reflexivity|].
  destruct (id =? ext_early_data).
  { destruct (negb (is_empty d)); [discriminate|]. intros E. injection E as <-. split; reflexivity. }
  destruct (id =? ext_ech); intros E; injection E as <-; split; reflexivity.
Qed.

Lemma ee_fold_other exts : Forall (fun e => is_alps (fst e) = false) exts -> forall m m',
  ee_fold exts m = Ok (Some m') -> ee_cp m' = ee_cp m /\ ee_alps m' = ee_alps m.
Proof.
  induction 1 as [|[id d] exts Hid _ IH]; intros m m' E; cbn [ee_fold fst] in *.
  - injection E as <-. split; reflexivity.
  - destruct (ee_handle id d m) as [[m1|]| |] eqn:Eh; cbn [bind] in E; try discriminate.
    destruct (ee_handle_other _ _ _ _ Hid Eh) as [H1 H2]. destruct (IH _ _ E) as [H3 H4]. split; congruence.
Qed.

Lemma ee_fold_app a b m : ee_fold (a ++ b) m =
  do r <- ee_fold a m; match r with None => Ok None | Some m1 => ee_fold b m1 end.
Proof.
  revert m. induction a as [|[id d] a IH]; intros m; cbn [app ee_fold bind]; [reflexivity|].
  destruct (ee_handle id d m) as [[m1|]| |]; cbn [bind]; try reflexivity. apply IH.
Qed.

(* the ALPS extension that counts is the last one on either code point *)
Lemma ee_fold_alps pre cp data post m m' :
  is_alps cp = true -> Forall (fun e => is_alps (fst e) = false) post ->
  ee_fold (pre ++ (cp, data) :: post) m = Ok (Some m') -> ee_cp m' = cp /\ ee_alps m' = data.
Proof.
  intros Hcp Hpost. rewrite ee_fold_app.
  destruct (ee_fold pre m) as [[m1|]| |]; cbn [bind]; try discriminate.
  cbn [ee_fold]. rewrite (ee_handle_alps _ _ _ Hcp). cbn [bind].
  intros E. destruct (ee_fold_other _ Hpost _ _ E) as [-> ->]. split; reflexivity.
Qed.

Lemma ee_handle_cp id d m m' : ee_handle id d m = Ok (Some m') -> ee_cp m = 0 \/ alps_cp (ee_cp m) -> ee_cp m' = 0 \/ alps_cp (ee_cp m').
Proof.
  intros E Hm. destruct (is_alps id) eqn:Ha.
  - rewrite (ee_handle_alps _ _ _ Ha) in E. injection E as <-. cbn [ee_cp]. right.
    unfold is_alps in Ha. apply orb_true_iff in Ha. rewrite !N.eqb_eq in Ha. exact Ha.
  - destruct (ee_handle_other _ _ _ _ Ha E) as [-> _]. exact Hm.
Qed.
Lemma ee_loop_cp : forall fuel exts m m', ee_loop fuel exts m = Ok (Some m') ->
  ee_cp m = 0 \/ alps_cp (ee_cp m) -> ee_cp m' = 0 \/ alps_cp (ee_cp m').
Proof.
  induction fuel as [|fuel IH]; intros exts m m'; cbn [ee_loop]; destruct (is_empty exts).
  1,3: intros E; injection E as <-; auto.
  - discriminate.
  - destruct (cb_uint 2 exts) as [[[id e1]|]| |]; cbn [bind]; try discriminate.
    destruct (cb_lp 2 e1) as [[[body e2]|]| |]; cbn [bind]; try discriminate.
    destruct (ee_handle id body m) as [[m1|]| |] eqn:Eh; cbn [bind]; try discriminate.
    intros E Hm. apply (IH _ _ _ E). exact (ee_handle_cp _ _ _ _ Eh Hm).
Qed.
Theorem ee_unmarshal_cp data m : ee_unmarshal data = Ok (Some m) -> ee_cp m = 0 \/ alps_cp (ee_cp m).
Proof.
  unfold ee_unmarshal. destruct (cb_skip 4 data) as [[s|]| |]; cbn [bind]; try discriminate.
  destruct (cb_lp 2 s) as [[[exts rest]|]| |]; cbn [bind]; try discriminate.
  destruct (negb (is_empty rest)); [discriminate|]. intros E. apply (ee_loop_cp _ _ _ _ E). left; reflexivity.
Qed.

Theorem rsp_accept fixed c m :
  cl_vers c = V13 -> ee_alpn m <> [] -> Negotiate.check_alpn (cl_offered c) (ee_alpn m) = true ->
  ee_quic m = None -> ee_early m = false ->
  read_server_parameters fixed c m =
    Ok (mkSt (ee_alpn m) (ee_alps m) (ee_cp m)
         (if ee_cp m =? 0 then [] else
          match lookup (if fixed then ee_alpn m else cl_sh_alpn c) (cl_settings c) with Some a => a | None => [] end)).
Proof.
  intros Hv Hp Ha Hq He. unfold read_server_parameters, utls_read_server_parameters. rewrite Ha, Hq, He, Hv. cbn [negb].
  destruct (ee_cp m =? 0); cbn [negb bind]; [reflexivity|].
  change (V13 <? V13) with false. cbv iota.
  destruct (ee_alpn m); [congruence|]. cbn [is_empty].
  destruct (lookup _ (cl_settings c)); reflexivity.
Qed.

Lemma rsp_ok fixed c m st : read_server_parameters fixed c m = Ok st ->
  st = mkSt (ee_alpn m) (ee_alps m) (ee_cp m)
         (if ee_cp m =? 0 then [] else
          match lookup (if fixed then ee_alpn m else cl_sh_alpn c) (cl_settings c) with Some a => a | None => [] end).
Proof.
  unfold read_server_parameters, utls_read_server_parameters.
  destruct (Negotiate.check_alpn _ _); cbn [negb]; [|discriminate].
  destruct (ee_cp m =? 0); cbn [negb].
  2: destruct (cl_vers c <? V13); [discriminate|]; destruct (is_empty (ee_alpn m)); [discriminate|]; destruct (lookup _ _).
  all: cbn [bind]; destruct (ee_quic m); [discriminate|]; destruct (ee_early m); [discriminate|]; intros [= <-]; reflexivity.
Qed.

Theorem alps_local_fixed c m st v :
  read_server_parameters true c m = Ok st -> ee_cp m <> 0 -> lookup (ee_alpn m) (cl_settings c) = Some v ->
  st_local st = v /\ st_cp st = ee_cp m /\ st_proto st = ee_alpn m.
Proof.
  intros E Hcp Hl. rewrite (rsp_ok _ _ _ _ E), Hl. cbn [st_local st_cp st_proto].
  destruct (N.eqb_spec (ee_cp m) 0); [contradiction|auto].
Qed.

(* when nothing is configured for the negotiated protocol the client still answers, with empty settings *)
Lemma alps_local_unconfigured c m st :
  read_server_parameters true c m = Ok st -> ee_cp m <> 0 -> lookup (ee_alpn m) (cl_settings c) = None -> st_local st = [] /\ st_cp st = ee_cp m.
Proof. intros E Hcp Hl. rewrite (rsp_ok _ _ _ _ E), Hl. cbn [st_local st_cp]. destruct (ee_cp m =? 0); auto. Qed.

(* without ALPS from the server nothing is stored and nothing is sent *)
Lemma no_alps_no_answer fixed c m st : read_server_parameters fixed c m = Ok st -> ee_cp m = 0 -> st_cp st = 0 /\ send_client_ee st = Ok [].
Proof. intros E H0. rewrite (rsp_ok _ _ _ _ E). unfold send_client_ee. cbn [st_cp]. rewrite H0. split; reflexivity. Qed.

(* whatever the server negotiated, what the client answers decodes (with the real server-side parser) to the code point
   the server used and the client's local settings *)
Theorem send_client_ee_decodes st :
  alps_cp (st_cp st) -> blen (st_local st) + 4 < 65536 ->
  exists msg, send_client_ee st = Ok [msg] /\ nth_error msg 0 = Some 8 /\
    cee_unmarshal msg = Ok (Some {| ee_codepoint := st_cp st; ee_settings := st_local st |}).
Proof.
  intros Hcp Hl. unfold send_client_ee.
  assert (Hne : (st_cp st =? 0) = false) by (destruct Hcp as [-> | ->]; reflexivity). rewrite Hne.
  pose proof (cee_marshal_ok (st_cp st) (st_local st) Hl) as Em. rewrite Em. cbn [bind].
  eexists; split; [reflexivity|]. split; [reflexivity|].
  rewrite (cee_roundtrip (st_cp st) (st_local st) _ (or_intror Hcp) Em). rewrite Hne. reflexivity.
Qed.
Lemma send_client_ee_none st : st_cp st = 0 -> send_client_ee st = Ok [].
Proof. intros H. unfold send_client_ee. now rewrite H. Qed.

Lemma take_msgs_app a b : take_msgs (length a) (a ++ b) = Some (a, b).
Proof. induction a as [|x a IH]; cbn [length take_msgs app]; [reflexivity|]. now rewrite IH. Qed.
(* a server that does NOT hash the client's EncryptedExtensions (or a client that does not) disagrees on the Finished
   input: the transcripts differ by exactly that message *)
Lemma client_flight_transcript (fin : bytes -> bytes) tr st certs sent tr2 ee :
  send_client_ee st = Ok ee -> client_flight fin tr st certs = Ok (sent, tr2) ->
  tr2 = tr ++ concat ee ++ concat certs /\ sent = ee ++ certs ++ [finished_msg fin tr2].
Proof. unfold client_flight. intros ->. cbn [bind]. intros E. injection E as <- <-. auto. Qed.

(* the client's EncryptedExtensions is the FIRST message of its second flight, before any Certificate / CertificateVerify *)
Theorem client_ee_first (fin : bytes -> bytes) tr st certs m sent tr2 :
  send_client_ee st = Ok [m] -> client_flight fin tr st certs = Ok (sent, tr2) ->
  sent = m :: certs ++ [finished_msg fin tr2] /\ tr2 = tr ++ m ++ concat certs.
Proof.
  intros Es Ef. destruct (client_flight_transcript fin tr st certs sent tr2 [m] Es Ef) as [-> ->].
  cbn [concat app]. rewrite app_nil_r. split; reflexivity.
Qed.

(* F-22, the code as found: settings configured for h2, none stored *)
Definition f22_client : client := mkClient V13 [[104; 50]; [104; 116; 116; 112; 47; 49; 46; 49]] [([104; 50], [1; 2; 3])] [].
Definition f22_ee : ee_msg := mkEE [104; 50] None false None ext_alps_old [9; 9].
Lemma f22_witness :
  exists st, read_server_parameters false f22_client f22_ee = Ok st /\
    lookup (ee_alpn f22_ee) (cl_settings f22_client) = Some [1; 2; 3] /\ st_local st = [].
Proof. eexists. split; [vm_compute; reflexivity|]. split; reflexivity. Qed.
