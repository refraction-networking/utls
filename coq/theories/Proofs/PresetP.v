(* Proofs for C03: the Chrome shuffle (Model/Shuffle.v) and ApplyPreset
   (Model/Preset.v) against the property oracle of Model/ParrotSpec.v. *)
From Coq Require Import Permutation.
From UV Require Import Base.Common Model.Wire.
From UV Require Model.Grease Model.Marshal Model.ChMarshal.
From UV Require Import Model.Ext Model.ExtSpec Model.Shuffle Model.Preset Model.PresetOk Model.ParrotSpec.
From UV Require Import Proofs.WireP Proofs.ExtP Proofs.GreaseP.

Section ShuffleP.
  Context {A : Type} (fixed : A -> bool).

  Lemma nth_error_firstn_lt (l : list A) : forall i k, (k < i)%nat -> nth_error (firstn i l) k = nth_error l k.
  Proof.
    induction l as [|x l IH]; intros [|i] [|k] H; cbn; try reflexivity; try lia. apply IH. lia.
  Qed.
  Lemma nth_error_skipn (l : list A) : forall n k, nth_error (skipn n l) k = nth_error l (n + k).
  Proof.
    induction l as [|x l IH]; intros [|n] k; cbn; try reflexivity.
    - destruct k; reflexivity.
    - apply IH.
  Qed.

  Lemma upd_length i (x : A) l : (i < length l)%nat -> length (upd i x l) = length l.
  Proof.
    intros H. unfold upd. rewrite app_length. cbn [length]. rewrite firstn_length, skipn_length. lia.
  Qed.

  Lemma upd_same i (x : A) l : (i < length l)%nat -> nth_error (upd i x l) i = Some x.
  Proof.
    intros H. unfold upd. rewrite nth_error_app2 by (rewrite firstn_length; lia).
    rewrite firstn_length. replace (i - Nat.min i (length l))%nat with 0%nat by lia. reflexivity.
  Qed.

  Lemma upd_other i k (x : A) l : (i < length l)%nat -> k <> i -> nth_error (upd i x l) k = nth_error l k.
  Proof.
    intros H Hk. unfold upd. destruct (Nat.ltb_spec k i) as [Hlt|Hge].
    - rewrite nth_error_app1 by (rewrite firstn_length; lia). apply nth_error_firstn_lt; exact Hlt.
    - rewrite nth_error_app2 by (rewrite firstn_length; lia). rewrite firstn_length.
      replace (Nat.min i (length l)) with i by lia.
      destruct (k - i)%nat as [|m] eqn:E; [lia|]. cbn [nth_error].
      rewrite nth_error_skipn. f_equal. lia.
  Qed.

  Lemma swap_nth l i j (a b : A) k : (i < length l)%nat -> (j < length l)%nat ->
    nth_error (upd i b (upd j a l)) k = if Nat.eqb k i then Some b else if Nat.eqb k j then Some a else nth_error l k.
  Proof.
    intros Li Lj. destruct (Nat.eqb_spec k i) as [->|Hi]; [apply upd_same; rewrite upd_length; lia|].
    rewrite upd_other by (rewrite ?upd_length; lia).
    destruct (Nat.eqb_spec k j) as [->|Hj]; [apply upd_same; lia|apply upd_other; lia].
  Qed.

  Lemma swap_perm l i j (a b : A) : nth_error l i = Some a -> nth_error l j = Some b ->
    Permutation l (upd i b (upd j a l)).
  Proof.
    intros Hi Hj.
    assert (Li : (i < length l)%nat) by (apply nth_error_Some; congruence).
    assert (Lj : (j < length l)%nat) by (apply nth_error_Some; congruence).
    apply Permutation_nth_error. split.
    - rewrite upd_length; rewrite upd_length; lia.
    - exists (fun n => if Nat.eqb n i then j else if Nat.eqb n j then i else n). split.
      + intros x y. destruct (Nat.eqb_spec x i), (Nat.eqb_spec y i), (Nat.eqb_spec x j), (Nat.eqb_spec y j); lia.
      + intros n. rewrite (swap_nth l i j a b n Li Lj).
        destruct (Nat.eqb_spec n i); [congruence|]. destruct (Nat.eqb_spec n j); [congruence|reflexivity].
  Qed.

  Definition fixed_kept (l l' : list A) : Prop :=
    and (forall k x, nth_error l k = Some x -> fixed x = true -> nth_error l' k = Some x)
        (forall k y, nth_error l' k = Some y -> fixed y = true -> nth_error l k = Some y).

  Lemma fixed_kept_refl l : fixed_kept l l.
  Proof. split; auto. Qed.
  Lemma fixed_kept_trans l1 l2 l3 : fixed_kept l1 l2 -> fixed_kept l2 l3 -> fixed_kept l1 l3.
  Proof. intros [A1 B1] [A2 B2]. split; intros k x H F; [apply A2; auto | apply B1; auto]. Qed.

  Lemma shuf_step_ok l ij l' : shuf_step fixed l ij = Ok l' -> Permutation l l' /\ fixed_kept l l'.
  Proof.
    destruct ij as [i j]. unfold shuf_step.
    destruct (nth_error l i) as [a|] eqn:Hi; [|discriminate].
    destruct (fixed a) eqn:Fa; [intros H; inversion H; subst; split; [reflexivity|apply fixed_kept_refl]|].
    destruct (nth_error l j) as [b|] eqn:Hj; [|discriminate].
    destruct (fixed b) eqn:Fb; [intros H; inversion H; subst; split; [reflexivity|apply fixed_kept_refl]|].
    intros H; inversion H; subst l'; clear H.
    assert (Li : (i < length l)%nat) by (apply nth_error_Some; congruence).
    assert (Lj : (j < length l)%nat) by (apply nth_error_Some; congruence).
    split; [apply swap_perm; assumption|].
    split; intros k x Hk Fx; [rewrite (swap_nth l i j a b k Li Lj)|rewrite (swap_nth l i j a b k Li Lj) in Hk];
      (destruct (Nat.eqb_spec k i); [congruence|]); (destruct (Nat.eqb_spec k j); [congruence|exact Hk]).
  Qed.

  Lemma shuffle_ok swaps : forall l l', shuffle fixed swaps l = Ok l' -> Permutation l l' /\ fixed_kept l l'.
  Proof.
    induction swaps as [|s r IH]; intros l l' H; cbn [shuffle] in H.
    - inversion H; subst. split; [reflexivity|apply fixed_kept_refl].
    - destruct (shuf_step fixed l s) as [l1| |] eqn:E; cbn [bind] in H; try discriminate.
      destruct (shuf_step_ok _ _ _ E) as [P1 K1]. destruct (IH _ _ H) as [P2 K2].
      split; [eapply Permutation_trans; eassumption | eapply fixed_kept_trans; eassumption].
  Qed.

End ShuffleP.

Lemma filter_perm {A} (f : A -> bool) l l' : Permutation l l' -> Permutation (filter f l) (filter f l').
Proof.
  induction 1 as [|x l l' _ IH|x y l|l1 l2 l3 _ IH1 _ IH2]; cbn [filter].
  - constructor.
  - destruct (f x); [constructor; exact IH | exact IH].
  - destruct (f x), (f y); try reflexivity. constructor.
  - eapply Permutation_trans; eassumption.
Qed.

Lemma wire_of_cons e es : wire_of (e :: es) = wire_of [e] ++ wire_of es.
Proof. unfold wire_of. cbn [flat_map]. rewrite app_nil_r. reflexivity. Qed.

Lemma seq_match_one c s e :
  match presence_of c s with
  | Must => ext_absent e = false /\ ext_matches c s (ext_id e, ext_body e) = true
  | MustNot => ext_absent e = true
  | May => ext_absent e = true \/ ext_matches c s (ext_id e, ext_body e) = true
  end ->
  seq_match c [s] (wire_of [e]) = true.
Proof.
  unfold wire_of, wire_pair. cbn [flat_map seq_match].
  destruct (presence_of c s), (ext_absent e); cbn [app]; try reflexivity.
  - intros [H _]. discriminate.
  - intros [_ ->]. reflexivity.
  - discriminate.
  - intros [H| ->]; [discriminate|reflexivity].
Qed.

Lemma seq_match_app c ss1 ss2 : forall ws1 ws2,
  seq_match c ss1 ws1 = true -> seq_match c ss2 ws2 = true -> seq_match c (ss1 ++ ss2) (ws1 ++ ws2) = true.
Proof.
  induction ss1 as [|s ss1 IH]; intros ws1 ws2 H1 H2; cbn [app seq_match] in *.
  - destruct ws1; [exact H2|discriminate].
  - destruct (presence_of c s); [| exact (IH _ _ H1 H2) |]; destruct ws1 as [|w ws1]; try discriminate; cbn [app].
    + apply andb_true_iff in H1. destruct H1 as [-> H1]. exact (IH _ _ H1 H2).
    + (* a skipped optional entry stays skipped *)
      pose proof (IH [] _ H1 H2) as H. cbn [app] in H. destruct ws2; [exact H|]. rewrite H. apply orb_true_r.
    + apply orb_true_iff in H1. destruct H1 as [H1|H1].
      * apply andb_true_iff in H1. destruct H1 as [-> H1]. rewrite (IH _ _ H1 H2). reflexivity.
      * pose proof (IH (w :: ws1) _ H1 H2) as H. cbn [app] in H. rewrite H. apply orb_true_r.
Qed.

Lemma boring_u16 sd idx v : Grease.boring_grease sd idx = Ok v -> Grease.is_grease v = true.
Proof. apply boring_is_grease. Qed.

Lemma regrease_match sd idx l l' : Grease.map_res (Grease.regrease sd idx) l = Ok l' -> list_match gmatch l l' = true.
Proof.
  intros H. pose proof (regreased_reserved _ _ _ (map_regrease _ _ _ _ H) (boring_is_grease sd idx)) as F.
  clear H. induction F as [|a b l l' Hab _ IH]; [reflexivity|].
  cbn [list_match]. unfold gmatch at 1. destruct (Grease.is_grease a).
  - rewrite Hab. exact IH.
  - subst b. rewrite N.eqb_refl. exact IH.
Qed.

(* The body of the loop u_parrots.go:2847-2931: the extension left for one spec entry, with the
   loop's state after it (GREASE extensions met so far, keys and ECH draws not yet used). *)
Definition preset_ext (sd : list N) (c : cfg) (seen : nat) (keys : list bytes) (echs : list ech_draw)
                      (s : sext) : res (ext * (nat * list bytes * list ech_draw)) :=
  match s with
  | SGreaseECH su ci en pl =>
      match echs with
      | [] => Err E_FRESH
      | d :: echs' => do e <- ech_init su ci en pl d; Ok (e, (seen, keys, echs'))
      end
  | SExt (ESNI host) => Ok (ESNI (if empty host then c_sni c else host), (seen, keys, echs))
  | SExt (EGREASE _ b) =>
      match seen with
      | O => do x <- Grease.boring_grease sd Grease.ssl_grease_extension1; Ok (EGREASE x b, (1%nat, keys, echs))
      | S O => do x <- Grease.boring_grease sd Grease.ssl_grease_extension2; Ok (EGREASE x [0], (2%nat, keys, echs))
      | _ => Err E_TOO_MANY_GREASE
      end
  | SExt (ESupportedCurves cs) =>
      do cs' <- Grease.map_res (Grease.regrease sd Grease.ssl_grease_group) cs;
      Ok (ESupportedCurves cs', (seen, keys, echs))
  | SExt (EKeyShare ks) =>
      do sk <- preset_shares sd keys ks; Ok (EKeyShare (fst sk), (seen, snd sk, echs))
  | SExt (ESupportedVersions vs) =>
      do vs' <- Grease.map_res (Grease.regrease sd Grease.ssl_grease_version) vs;
      Ok (ESupportedVersions vs', (seen, keys, echs))
  | SExt (EUtlsPreSharedKey se cl _ ids bs) => Ok (EUtlsPreSharedKey se cl (c_omit_psk c) ids bs, (seen, keys, echs))
  | SExt (EFakePreSharedKey _ ids bs) => Ok (EFakePreSharedKey (c_omit_psk c) ids bs, (seen, keys, echs))
  | SExt e => Ok (e, (seen, keys, echs))
  end.

Lemma preset_exts_cons sd c seen keys echs s r :
  preset_exts sd c seen keys echs (s :: r) =
  do x <- preset_ext sd c seen keys echs s;
  let '(e, (seen', keys', echs')) := x in
  do r' <- preset_exts sd c seen' keys' echs' r; Ok (e :: r').
Proof.
  destruct s as [e|su ci en pl]; [destruct e|destruct echs]; cbn [preset_exts preset_ext bind]; try reflexivity.
  - destruct (empty host); reflexivity.
  - destruct (Grease.map_res _ curves); reflexivity.
  - destruct seen as [|[|seen]]; [| |reflexivity]; destruct (Grease.boring_grease sd _); reflexivity.
  - destruct (preset_shares sd keys shares); reflexivity.
  - destruct (Grease.map_res _ versions); reflexivity.
  - destruct (ech_init su ci en pl e); reflexivity.
Qed.

(* the extensions ApplyPreset copies and the oracle compares byte for byte; padding is copied too, but the
   marshaller decides about it later *)
Definition plain (e : ext) : bool :=
  match e with
  | ESNI _ | EGREASE _ _ | ESupportedCurves _ | EKeyShare _ | ESupportedVersions _ | EPadding _ _ _
  | EUtlsPreSharedKey _ _ _ _ _ | EFakePreSharedKey _ _ _ => false
  | _ => true
  end.

Section Step.
  Variables (sd : list N) (c : cfg) (seen : nat) (keys : list bytes) (echs : list ech_draw).

  (* What a pass through the loop's body leaves when it does not fail, by kind of entry. The second
     GREASE extension gets the body [0] whatever the spec holds, as [expect_exts] says. *)
  Inductive preset_step : sext -> ext -> nat * list bytes * list ech_draw -> Prop :=
  | step_plain e : plain e = true -> preset_step (SExt e) e (seen, keys, echs)
  | step_sni host :
      preset_step (SExt (ESNI host)) (ESNI (if empty host then c_sni c else host)) (seen, keys, echs)
  | step_grease v b x : (seen < 2)%nat ->
      Grease.boring_grease sd (match seen with O => Grease.ssl_grease_extension1 | _ => Grease.ssl_grease_extension2 end) = Ok x ->
      preset_step (SExt (EGREASE v b)) (EGREASE x (match seen with S O => [0] | _ => b end)) (S seen, keys, echs)
  | step_curves cs cs' : Grease.map_res (Grease.regrease sd Grease.ssl_grease_group) cs = Ok cs' ->
      preset_step (SExt (ESupportedCurves cs)) (ESupportedCurves cs') (seen, keys, echs)
  | step_key_share ks ks' keys' : preset_shares sd keys ks = Ok (ks', keys') ->
      preset_step (SExt (EKeyShare ks)) (EKeyShare ks') (seen, keys', echs)
  | step_versions vs vs' : Grease.map_res (Grease.regrease sd Grease.ssl_grease_version) vs = Ok vs' ->
      preset_step (SExt (ESupportedVersions vs)) (ESupportedVersions vs') (seen, keys, echs)
  | step_padding l w pol : preset_step (SExt (EPadding l w pol)) (EPadding l w pol) (seen, keys, echs)
  | step_psk se cl o ids bs :
      preset_step (SExt (EUtlsPreSharedKey se cl o ids bs))
                  (EUtlsPreSharedKey se cl (c_omit_psk c) ids bs) (seen, keys, echs)
  | step_fake_psk o ids bs :
      preset_step (SExt (EFakePreSharedKey o ids bs)) (EFakePreSharedKey (c_omit_psk c) ids bs) (seen, keys, echs)
  | step_ech su ci en pl d echs' e : echs = d :: echs' -> ech_init su ci en pl d = Ok e ->
      preset_step (SGreaseECH su ci en pl) e (seen, keys, echs').

End Step.

Lemma preset_ext_inv sd c seen keys echs s e st :
  preset_ext sd c seen keys echs s = Ok (e, st) -> preset_step sd c seen keys echs s e st.
Proof.
  destruct s as [e0|su ci en pl]; [destruct e0|destruct echs as [|d echs']]; cbn [preset_ext]; intros H;
    try discriminate; try (inversion H; subst; constructor; reflexivity).
  - destruct (Grease.map_res _ curves) as [cs'| |] eqn:Ec; [|discriminate..]. inversion H; subst. constructor. exact Ec.
  - destruct seen as [|[|seen]]; [| |discriminate];
      (destruct (Grease.boring_grease sd _) as [x| |] eqn:Ex; [|discriminate..]); inversion H; subst.
    + exact (step_grease sd c 0 keys echs value body x Nat.lt_0_2 Ex).
    + exact (step_grease sd c 1 keys echs value body x Nat.lt_1_2 Ex).
  - destruct (preset_shares sd keys shares) as [[ks' keys']| |] eqn:Ek; [|discriminate..]. inversion H; subst. constructor. exact Ek.
  - destruct (Grease.map_res _ versions) as [vs'| |] eqn:Ec; [|discriminate..]. inversion H; subst. constructor. exact Ec.
  - destruct (ech_init su ci en pl d) as [e1| |] eqn:Ee; [|discriminate..]. inversion H; subst. econstructor; [reflexivity|exact Ee].
Qed.

Lemma preset_exts_inv sd c seen keys echs s r es' : preset_exts sd c seen keys echs (s :: r) = Ok es' ->
  exists e seen' keys' echs' r', es' = e :: r' /\ preset_step sd c seen keys echs s e (seen', keys', echs')
                                 /\ preset_exts sd c seen' keys' echs' r = Ok r'.
Proof.
  rewrite preset_exts_cons. destruct (preset_ext sd c seen keys echs s) as [[e [[seen' keys'] echs']]| |] eqn:Es; try discriminate.
  cbn [bind]. destruct (preset_exts sd c seen' keys' echs' r) as [r'| |] eqn:Er; try discriminate.
  intros H; inversion H. exists e, seen', keys', echs', r'. auto using preset_ext_inv.
Qed.

Definition seen_after (seen : nat) (s : sext) : nat := if is_sgrease s then S seen else seen.

Definition ngrease (ss : list sext) : nat := length (filter is_sgrease ss).

Lemma ngrease_cons seen s r : (seen + ngrease (s :: r) = seen_after seen s + ngrease r)%nat.
Proof. unfold ngrease, seen_after. cbn [filter]. destruct (is_sgrease s); cbn [length]; lia. Qed.

Lemma preset_step_seen sd c seen keys echs s e seen' keys' echs' :
  preset_step sd c seen keys echs s e (seen', keys', echs') -> seen' = seen_after seen s.
Proof. intros H. inversion H; subst; try reflexivity. destruct e; try discriminate; reflexivity. Qed.

Lemma expect_cons seen s r : expect_exts seen (s :: r) = expect_exts seen [s] ++ expect_exts (seen_after seen s) r.
Proof. destruct s as [e|]; [destruct e|]; reflexivity. Qed.

Lemma draw_inv {A} (l : list A) (d x : A) i :
  match l with [] => Ok d | _ => of_opt E_FRESH (nth_error l i) end = Ok x ->
  match l with [] => x = d | _ => In x l end.
Proof.
  destruct l as [|a l]; [intros H; inversion H; reflexivity|].
  destruct (nth_error (a :: l) i) as [y|] eqn:E; [|discriminate].
  intros H; inversion H; subst y. exact (nth_error_In _ _ E).
Qed.

Lemma ech_init_inv su ci en pl d e : ech_init su ci en pl d = Ok e ->
  exists kdf aead cfgid plen,
    e = EGREASEECH kdf aead cfgid (if empty en then ed_enc d else en) (ed_payload d)
    /\ match su with [] => (kdf, aead) = (1, 1) | _ => In (kdf, aead) su end
    /\ match ci with [] => cfgid = ed_cfg_byte d | _ => In cfgid ci end
    /\ match pl with [] => plen = 128 | _ => In plen pl end
    /\ ech_aead_ok aead = true /\ blen (ed_payload d) = plen + 16
    /\ (empty en = true -> blen (ed_enc d) = 32).
Proof.
  unfold ech_init. intros H.
  destruct (match ci with [] => Ok (ed_cfg_byte d) | _ => _ end) as [cfgid| |] eqn:Ec; cbn [bind] in H; try discriminate.
  destruct (match su with [] => Ok (1, 1) | _ => _ end) as [[kdf aead]| |] eqn:Es; cbn [bind] in H; try discriminate.
  destruct (match pl with [] => Ok 128 | _ => _ end) as [plen| |] eqn:Ep; cbn [bind] in H; try discriminate.
  destruct (ech_aead_ok aead) eqn:Ea; cbn [negb] in H; [|discriminate].
  destruct (blen (ed_payload d) =? plen + ECH_TAG_LEN) eqn:El; cbn [negb] in H; [|discriminate].
  destruct (empty en && negb (blen (ed_enc d) =? 32)) eqn:Ee; [discriminate|].
  inversion H; subst e. exists kdf, aead, cfgid, plen.
  split; [reflexivity|]. split; [exact (draw_inv _ _ _ _ Es)|]. split; [exact (draw_inv _ _ _ _ Ec)|].
  split; [exact (draw_inv _ _ _ _ Ep)|]. split; [exact Ea|]. split; [apply N.eqb_eq; exact El|].
  intros E0. rewrite E0 in Ee. apply negb_false_iff, N.eqb_eq in Ee. exact Ee.
Qed.

Lemma curves_match c cs cs' : list_match gmatch cs cs' = true -> wf_ext (ESupportedCurves cs') = true ->
  ext_matches c (SExt (ESupportedCurves cs)) (ext_id (ESupportedCurves cs'), ext_body (ESupportedCurves cs')) = true.
Proof.
  intros Hm Hwf. destruct (wf_parts _ Hwf) as (_ & Hf & Hl). cbn [fields_ok ext_len] in Hf, Hl.
  cbn [ext_matches ext_id ext_body]. rewrite N.eqb_refl. cbn [andb].
  unfold u16_list_of, u16s_body. rewrite read_enc_u16lp_nil by (rewrite blen_flat_u16; lia).
  rewrite read_u16s_flat by exact Hf. exact Hm.
Qed.

Lemma versions_match c vs vs' : list_match gmatch vs vs' = true -> wf_ext (ESupportedVersions vs') = true ->
  ext_matches c (SExt (ESupportedVersions vs)) (ext_id (ESupportedVersions vs'), ext_body (ESupportedVersions vs')) = true.
Proof.
  intros Hm Hwf. destruct (wf_parts _ Hwf) as (_ & Hf & Hl). cbn [fields_ok ext_len] in Hf, Hl.
  apply andb_true_iff in Hf. destruct Hf as [Hf1 Hf2].
  cbn [ext_matches ext_id ext_body]. rewrite N.eqb_refl. cbn [andb].
  unfold u16_list8_of. rewrite read_enc_u8lp_nil by (rewrite blen_flat_u16; lia).
  rewrite read_u16s_flat by exact Hf1. exact Hm.
Qed.

Lemma parse_shares_flat (ks : list (N * bytes)) : forall fuel,
  forallb (fun k => (fst k <? 65536) && (blen (snd k) <? 65536)) ks = true ->
  (length ks <= fuel)%nat ->
  parse_shares fuel (flat_map (fun k => enc_u16 (fst k) ++ enc_u16lp (snd k)) ks) = Some ks.
Proof.
  induction ks as [|[g d] ks IH]; intros fuel H Hf; [destruct fuel; reflexivity|].
  cbn [forallb fst snd] in H. rewrite !andb_true_iff in H. destruct H as [[Hg Hd] Hr].
  destruct fuel as [|fuel]; [cbn in Hf; lia|].
  cbn [flat_map fst snd]. rewrite <- !app_assoc.
  change (parse_shares (S fuel) (enc_u16 g ++ enc_u16lp d ++ flat_map (fun k => enc_u16 (fst k) ++ enc_u16lp (snd k)) ks))
    with (match read_u16 (enc_u16 g ++ enc_u16lp d ++ flat_map (fun k => enc_u16 (fst k) ++ enc_u16lp (snd k)) ks) with
          | None => None
          | Some (g0, s1) => match read_u16lp s1 with
                             | None => None
                             | Some (d0, s2) => match parse_shares fuel s2 with Some l => Some ((g0, d0) :: l) | None => None end
                             end
          end).
  rewrite read_enc_u16 by lia. rewrite read_enc_u16lp by lia. rewrite IH by (try exact Hr; cbn in Hf; lia). reflexivity.
Qed.

(* one key share, u_parrots.go:2877-2923: the share left, and the keys not yet used *)
Definition preset_share (sd : list N) (keys : list bytes) (k : N * bytes) : res ((N * bytes) * list bytes) :=
  let '(g, d) := k in
  if Grease.is_grease g then do g' <- Grease.boring_grease sd Grease.ssl_grease_group; Ok ((g', d), keys)
  else if 1 <? blen d then Ok ((g, d), keys)
  else match key_size g, keys with
       | None, _ => Err E_CURVE
       | Some _, [] => Err E_FRESH
       | Some n, k :: keys' => if negb (blen k =? n) then Err E_FRESH else Ok ((g, k), keys')
       end.

Lemma preset_shares_cons sd keys k r :
  preset_shares sd keys (k :: r) =
  do x <- preset_share sd keys k; do rk <- preset_shares sd (snd x) r; Ok (fst x :: fst rk, snd rk).
Proof.
  destruct k as [g d]. cbn [preset_shares preset_share].
  destruct (Grease.is_grease g); [destruct (Grease.boring_grease sd _); reflexivity|].
  destruct (1 <? blen d); [reflexivity|]. destruct (key_size g); [|reflexivity].
  destruct keys as [|k keys]; [reflexivity|]. destruct (negb (blen k =? n)); reflexivity.
Qed.

Lemma preset_shares_inv sd keys k r ks' keys' : preset_shares sd keys (k :: r) = Ok (ks', keys') ->
  exists k' keys1 r', ks' = k' :: r' /\ preset_share sd keys k = Ok (k', keys1) /\ preset_shares sd keys1 r = Ok (r', keys').
Proof.
  rewrite preset_shares_cons. destruct (preset_share sd keys k) as [[k' keys1]| |]; try discriminate.
  cbn [bind snd fst]. destruct (preset_shares sd keys1 r) as [[r' k2]| |] eqn:Er; try discriminate.
  intros H; inversion H; subst. exists k', keys1, r'. auto.
Qed.

Lemma preset_share_match sd keys k k' keys' : preset_share sd keys k = Ok (k', keys') -> share_match k k' = true.
Proof.
  destruct k as [g d]. cbn [preset_share]. destruct (Grease.is_grease g) eqn:Gg.
  - destruct (Grease.boring_grease sd _) as [g'| |] eqn:Bg; try discriminate. intros H; inversion H; subst.
    cbn [share_match]. rewrite Gg, (boring_is_grease _ _ _ Bg), bytes_eqb_refl. reflexivity.
  - destruct (1 <? blen d) eqn:Ed.
    + intros H; inversion H; subst. cbn [share_match]. rewrite Gg, N.eqb_refl, Ed. apply bytes_eqb_refl.
    + destruct (key_size g) as [n|] eqn:Ek; [|discriminate]. destruct keys as [|k keys]; [discriminate|].
      destruct (blen k =? n) eqn:En; [|discriminate]. intros H; inversion H; subst.
      cbn [share_match]. rewrite Gg, N.eqb_refl, Ed.
      (* the oracle's table of share lengths is the code's *)
      change (group_share_len g) with (key_size g). rewrite Ek. exact En.
Qed.

Lemma preset_shares_match sd : forall ks keys ks' keys',
  preset_shares sd keys ks = Ok (ks', keys') -> list_match share_match ks ks' = true.
Proof.
  induction ks as [|k ks IH]; intros keys ks' keys' H; [inversion H; reflexivity|].
  destruct (preset_shares_inv _ _ _ _ _ _ H) as (k' & keys1 & r' & -> & Hk & Hr).
  cbn [list_match]. rewrite (preset_share_match _ _ _ _ _ Hk). exact (IH _ _ _ Hr).
Qed.

Lemma sum_map_count {A} (f : A -> N) (l : list A) : (forall x, In x l -> 1 <= f x) -> N.of_nat (length l) <= sum_map f l.
Proof.
  induction l as [|y l IH]; intros H; cbn [sum_map length]; [lia|].
  pose proof (H y (or_introl eq_refl)). assert (N.of_nat (length l) <= sum_map f l) by (apply IH; intros; apply H; right; assumption). lia.
Qed.

Lemma keyshare_match c ks ks' : list_match share_match ks ks' = true -> wf_ext (EKeyShare ks') = true ->
  ext_matches c (SExt (EKeyShare ks)) (ext_id (EKeyShare ks'), ext_body (EKeyShare ks')) = true.
Proof.
  intros Hm Hwf. destruct (wf_parts _ Hwf) as (_ & Hf & Hl). cbn [fields_ok ext_len] in Hf, Hl.
  cbn [ext_matches ext_id ext_body]. rewrite N.eqb_refl. cbn [andb].
  set (X := flat_map (fun k : N * bytes => enc_u16 (fst k) ++ enc_u16lp (snd k)) ks').
  assert (HX : blen X = key_shares_len ks').
  { unfold X. rewrite <- key_shares_bytes_spec. apply blen_key_shares_bytes. }
  unfold shares_of. rewrite read_enc_u16lp_nil by lia.
  assert (HL : (length ks' <= length X)%nat).
  { assert (N.of_nat (length ks') <= key_shares_len ks') by (apply sum_map_count; intros; lia).
    unfold blen in HX. lia. }
  subst X. rewrite parse_shares_flat; [exact Hm| |exact HL].
  - apply forallb_forall. intros k Hk. rewrite forallb_forall in Hf. specialize (Hf k Hk).
    pose proof (sum_map_ge (fun k => 4 + blen (snd k)) ks' k Hk) as Hb. unfold key_shares_len in Hl.
    cbn beta in Hb. apply andb_true_iff. split; [exact Hf|lia].
Qed.

Lemma mem_N_In x l : mem_N x l = true <-> In x l.
Proof.
  unfold mem_N. rewrite existsb_exists. split.
  - intros (y & Hy & E). apply N.eqb_eq in E. subst. exact Hy.
  - intros H. exists x. split; [exact H|apply N.eqb_refl].
Qed.

Lemma ech_match c su ci en pl d e : ech_init su ci en pl d = Ok e -> wf_ext e = true ->
  ext_absent e = false /\ ext_matches c (SGreaseECH su ci en pl) (ext_id e, ext_body e) = true.
Proof.
  intros H Hwf. destruct (ech_init_inv _ _ _ _ _ _ H) as (kdf & aead & cfgid & plen & -> & Hsu & Hci & Hpl & _ & Hlen & Henc).
  destruct (wf_parts _ Hwf) as (_ & Hf & Hl). cbn [fields_ok ext_len] in Hf, Hl.
  apply andb_true_iff in Hf. destruct Hf as [Hk Ha].
  split; [reflexivity|].
  cbn [ext_matches ext_id ext_body]. rewrite N.eqb_refl. cbn [andb].
  unfold ech_body_ok. cbn [app].
  rewrite read_enc_u16 by lia. cbn [obind]. rewrite read_enc_u16 by lia. cbn [obind].
  cbn [app read_u8 obind]. rewrite read_enc_u16lp by lia. cbn [obind]. rewrite read_enc_u16lp_nil by lia. cbn [obind empty andb].
  repeat (apply andb_true_iff; split).
  - destruct su; [inversion Hsu; reflexivity|].
    apply existsb_exists. exists (kdf, aead). split; [exact Hsu|]. cbn [fst snd]. rewrite !N.eqb_refl. reflexivity.
  - destruct ci; [reflexivity|apply mem_N_In; exact Hci].
  - destruct (empty en); [apply N.eqb_eq, Henc; reflexivity|apply bytes_eqb_refl].
  - lia.
  - replace (blen (ed_payload d) - 16) with plen by lia.
    destruct pl; [subst plen; reflexivity|apply mem_N_In; exact Hpl].
Qed.

Lemma forallb_zbytes n : forallb (N.eqb 0) (zbytes n) = true.
Proof. induction n; [reflexivity|]. cbn [zbytes forallb]. rewrite IHn. reflexivity. Qed.

Lemma plain_oracle c e : plain e = true ->
  presence_of c (SExt e) = Must /\ ext_absent e = false
  /\ ext_matches c (SExt e) (ext_id e, ext_body e) = true
  /\ (forall seen, expect_exts seen [SExt e] = [SExt e]) /\ (forall l w, set_pad l w e = e).
Proof.
  destruct e; try discriminate; intros _; cbn [ext_matches]; rewrite N.eqb_refl, bytes_eqb_refl; repeat split.
Qed.

Lemma preset_step_match sd c pl pw seen keys echs s e st :
  preset_step sd c seen keys echs s e st -> wf_ext e = true ->
  seq_match c (expect_exts seen [s]) (wire_of [set_pad pl pw e]) = true.
Proof.
  intros H Hwf.
  destruct H as [e Hp|host|v b x _ Hx|cs cs' Ec|ks ks' keys' Ek|vs vs' Ec|l w pol|se cl o ids bs|o ids bs|su ci en pl0 d echs' e _ Ee];
    [|cbn [expect_exts]; apply seq_match_one..].
  - destruct (plain_oracle c e Hp) as (Hpr & Ha & Hm & Hex & Hsp).
    rewrite Hex, Hsp. apply seq_match_one. rewrite Hpr. split; assumption.
  - cbn [presence_of set_pad ext_absent ext_matches ext_id]. rewrite N.eqb_refl, bytes_eqb_refl.
    destruct (empty host) eqn:Eh; cbn [andb].
    + destruct (empty (c_sni c)) eqn:Ec; [apply empty_true_iff in Ec; rewrite Ec; reflexivity|].
      split; [apply N.eqb_neq, empty_false_iff, Ec|reflexivity].
    + split; [apply N.eqb_neq, empty_false_iff, Eh|reflexivity].
  - cbn [presence_of set_pad ext_absent ext_matches ext_id ext_body].
    rewrite (boring_is_grease _ _ _ Hx), bytes_eqb_refl. split; reflexivity.
  - split; [reflexivity|]. apply curves_match; [eapply regrease_match; exact Ec|exact Hwf].
  - split; [reflexivity|]. apply keyshare_match; [eapply preset_shares_match; exact Ek|exact Hwf].
  - split; [reflexivity|]. apply versions_match; [eapply regrease_match; exact Ec|exact Hwf].
  - cbn [presence_of set_pad ext_absent ext_matches ext_id ext_body].
    destruct pw; [right|left; reflexivity]. rewrite N.eqb_refl, forallb_zbytes. reflexivity.
  - right. reflexivity.
  - right. reflexivity.
  - destruct (ech_init_inv _ _ _ _ _ _ Ee) as (kdf & aead & cfgid & plen & He & _).
    replace (set_pad pl pw e) with e by (rewrite He; reflexivity). exact (ech_match c _ _ _ _ _ _ Ee Hwf).
Qed.

(* ApplyPreset's extension loop: whatever the seed, the keys, the ECH draws and the later padding
   decision are, the extensions it leaves - encoded by their codecs - match the spec's, one by one
   and in order, in the sense of the property oracle. *)
Lemma preset_exts_match sd c pl pw : forall es seen keys echs es',
  preset_exts sd c seen keys echs es = Ok es' ->
  forallb wf_ext es' = true ->
  seq_match c (expect_exts seen es) (wire_of (map (set_pad pl pw) es')) = true.
Proof.
  induction es as [|s r IH]; intros seen keys echs es' H Hwf.
  - inversion H. reflexivity.
  - destruct (preset_exts_inv _ _ _ _ _ _ _ _ H) as (e & seen' & keys' & echs' & r' & -> & He & Hr).
    cbn [forallb] in Hwf. apply andb_true_iff in Hwf. destruct Hwf as [Hw1 Hw2].
    rewrite expect_cons, <- (preset_step_seen _ _ _ _ _ _ _ _ _ _ He). cbn [map]. rewrite wire_of_cons.
    apply seq_match_app; [exact (preset_step_match _ _ _ _ _ _ _ _ _ _ He Hw1)|exact (IH _ _ _ _ Hr Hw2)].
Qed.

Lemma find_versions_max vs : forall mn mx,
  snd (fold_left (fun '(mn, mx) v =>
         if Grease.is_grease v then (mn, mx) else
         ((if (v <? mn) || (mn =? 0) then v else mn), (if (mx <? v) || (mx =? 0) then v else mx))) vs (mn, mx))
  = N.max mx (fold_right N.max 0 (filter (fun v => negb (Grease.is_grease v)) vs)).
Proof.
  induction vs as [|v vs IH]; intros mn mx; cbn [fold_left filter fold_right snd]; [lia|].
  destruct (Grease.is_grease v); cbn [negb]; [apply IH|].
  rewrite IH. cbn [fold_right]. destruct ((mx <? v) || (mx =? 0)) eqn:E; lia.
Qed.

(* the loop of SetTLSVers against the oracle's "first supported_versions extension": they agree when there is exactly one *)
Lemma scan_versions_spec : forall es c0 m0 x0 c1 m1 x1,
  scan_versions es (c0, m0, x0) = Ok (c1, m1, x1) ->
  match spec_versions es with
  | None => (c1, m1, x1) = (c0, m0, x0)
  | Some vs => (c0 < c1)%nat /\ (c1 = S c0 -> x1 = snd (find_versions vs))
  end.
Proof.
  induction es as [|s es IH]; intros c0 m0 x0 c1 m1 x1 H; [inversion H; reflexivity|].
  destruct s as [e|]; [destruct e|]; cbn [scan_versions] in H; unfold spec_versions; cbn [find]; fold (spec_versions es);
    try exact (IH _ _ _ _ _ _ H).
  destruct (find_versions versions) as [mn mx]. destruct ((mn =? 0) && (mx =? 0)); [discriminate|].
  specialize (IH _ _ _ _ _ _ H). destruct (spec_versions es) as [vs'|].
  - split; intros; lia.
  - inversion IH. split; [lia|reflexivity].
Qed.

Lemma set_tls_vers_max sp mn mx : set_tls_vers sp = Ok (mn, mx) -> mx = spec_max sp.
Proof.
  unfold set_tls_vers, spec_max. intros Hs. destruct ((sp_min sp =? 0) && (sp_max sp =? 0)).
  - destruct (scan_versions (sp_exts sp) (0%nat, 0, 0)) as [[[cnt m1] x1]| |] eqn:Esc; cbn [bind] in Hs; try discriminate.
    apply scan_versions_spec in Esc.
    destruct cnt as [|[|cnt]]; cbn [bind] in Hs; try discriminate; destruct (spec_versions (sp_exts sp)) as [vs|];
      try (exfalso; clear - Esc; lia); try discriminate.
    + cbv [VersionTLS10 VersionTLS12 VersionTLS13] in Hs. cbn in Hs. inversion Hs. reflexivity.
    + destruct Esc as [_ Hx]. rewrite (Hx eq_refl) in Hs.
      destruct ((m1 <? VersionTLS10) || (VersionTLS13 <? m1)); [discriminate|].
      destruct ((_ <? VersionTLS10) || (VersionTLS13 <? _)); [discriminate|].
      inversion Hs; subst. unfold find_versions. rewrite find_versions_max. lia.
  - cbn [bind] in Hs.
    destruct ((sp_min sp <? VersionTLS10) || (VersionTLS13 <? sp_min sp)); [discriminate|].
    destruct ((sp_max sp <? VersionTLS10) || (VersionTLS13 <? sp_max sp)); [discriminate|].
    inversion Hs; reflexivity.
Qed.

Lemma legacy_version sp mn mx v : set_tls_vers sp = Ok (mn, mx) -> hello_vers mn mx = Ok v ->
  v = N.min (spec_max sp) 771.
Proof.
  intros Hs Hv. rewrite <- (set_tls_vers_max _ _ _ Hs). unfold hello_vers in Hv.
  destruct (mx <? mn); [discriminate|]. inversion Hv. unfold VersionTLS12. destruct (771 <? mx) eqn:E; lia.
Qed.

Lemma apply_preset_inv sp c fr h es : apply_preset sp c fr = Ok (h, es) ->
  exists mn mx v sd su,
    set_tls_vers sp = Ok (mn, mx) /\ hello_vers mn mx = Ok v
    /\ blen (f_random fr) = 32 /\ blen (f_sid fr) = 32
    /\ Grease.grease_seed (f_grease fr) = Ok sd
    /\ Grease.map_res (Grease.regrease sd Grease.ssl_grease_cipher) (sp_suites sp) = Ok su
    /\ preset_exts sd c 0 (f_keys fr) (f_ech fr) (sp_exts sp) = Ok es
    /\ sync_session_exts es = Ok tt
    /\ h = {| Marshal.h_vers := v; Marshal.h_random := f_random fr; Marshal.h_sid := f_sid fr;
              Marshal.h_suites := su; Marshal.h_comp := [0] |}.
Proof.
  unfold apply_preset. intros H.
  destruct (set_tls_vers sp) as [[mn mx]| |] eqn:Ev; cbn [bind fst snd] in H; try discriminate.
  destruct (hello_vers mn mx) as [v| |] eqn:Eh; cbn [bind] in H; try discriminate.
  destruct (blen (f_random fr) =? 32) eqn:Er; cbn [negb] in H; [|discriminate].
  destruct (Grease.grease_seed (f_grease fr)) as [sd| |] eqn:Eg; cbn [bind] in H; try discriminate.
  destruct (Grease.map_res _ (sp_suites sp)) as [su| |] eqn:Es; cbn [bind] in H; try discriminate.
  destruct (blen (f_sid fr) =? 32) eqn:Ei; cbn [negb] in H; [|discriminate].
  destruct (preset_exts sd c 0 (f_keys fr) (f_ech fr) (sp_exts sp)) as [es0| |] eqn:Ee; cbn [bind] in H; try discriminate.
  destruct (sync_session_exts es0) as [[]| |] eqn:Ey; cbn [bind] in H; try discriminate.
  inversion H; subst h es. apply N.eqb_eq in Er, Ei. exists mn, mx, v, sd, su. repeat split; assumption.
Qed.

Lemma apply_preset_matches sp c fr h es name pl pw :
  apply_preset sp c fr = Ok (h, es) ->
  forallb wf_ext es = true ->
  sp_comp sp = [0] ->
  ast_matches_specb (ast_of h (map (set_pad pl pw) es)) {| p_name := name; p_spec := sp; p_shuffles := false |} c = true.
Proof.
  intros H Hwf Hcomp.
  destruct (apply_preset_inv _ _ _ _ _ H) as (mn & mx & v & sd & su & Ev & Eh & Er & Ei & _ & Es & Ee & _ & ->).
  unfold ast_matches_specb, ast_of.
  cbn [a_vers a_random a_sid a_suites a_comp a_exts p_spec p_shuffles
       Marshal.h_vers Marshal.h_random Marshal.h_sid Marshal.h_suites Marshal.h_comp].
  rewrite (legacy_version _ _ _ _ Ev Eh), Er, Ei, !N.eqb_refl, (regrease_match _ _ _ _ Es), Hcomp, bytes_eqb_refl.
  exact (preset_exts_match _ _ _ _ _ _ _ _ _ Ee Hwf).
Qed.

(* The premise "sp_comp sp = [0]" cannot be dropped: ApplyPreset never reads p.CompressionMethods. *)
Lemma compression_not_copied sp c fr h es : apply_preset sp c fr = Ok (h, es) -> Marshal.h_comp h = [0].
Proof.
  intros H. destruct (apply_preset_inv _ _ _ _ _ H) as (mn & mx & v & sd & su & _ & _ & _ & _ & _ & _ & _ & _ & ->).
  reflexivity.
Qed.

Lemma preset_exts_cfg sd c c' : c_sni c = c_sni c' -> c_omit_psk c = c_omit_psk c' ->
  forall es seen keys echs, preset_exts sd c seen keys echs es = preset_exts sd c' seen keys echs es.
Proof.
  intros H1 H2. induction es as [|s es IH]; intros seen keys echs; [reflexivity|]. rewrite !preset_exts_cons.
  replace (preset_ext sd c' seen keys echs s) with (preset_ext sd c seen keys echs s)
    by (destruct s as [e|]; [destruct e|]; cbn [preset_ext]; rewrite ?H1, ?H2; reflexivity).
  destruct (preset_ext sd c seen keys echs s) as [[e [[seen' keys'] echs']]| |]; cbn [bind]; rewrite ?IH; reflexivity.
Qed.

(* Preset.build and C02's marshaller see the same abstract extensions once the padding policy is nil or Boring *)
Lemma to_aext_same padto e : pad_other e = false -> to_aext e = ChMarshal.to_aext padto e.
Proof. destruct e; try reflexivity. destruct policy; try reflexivity. discriminate. Qed.

Lemma map_to_aext_same padto es : existsb pad_other es = false -> map to_aext es = map (ChMarshal.to_aext padto) es.
Proof.
  induction es as [|e es IH]; [reflexivity|]. cbn [existsb map]. intros H. apply orb_false_iff in H. destruct H as [He Hes].
  rewrite (to_aext_same padto e He), (IH Hes). reflexivity.
Qed.
