(* Byte-string arithmetic for Model/Record.v, and [prims_ok]: what is assumed of the
   record layer's primitives (AEAD, CBC, RC4, HMAC, PRF). Every record theorem takes it as a premise. *)
From UV Require Import Base.Common Model.Record.
Open Scope N_scope.

Record prims_ok (P : prims) : Prop := mkPrimsOk {
  (* AEAD (AES-GCM, ChaCha20-Poly1305): round trip *)
  aead_rt : forall a k n ad p, aead_open P a k n ad (aead_seal P a k n ad p) = Some p;
  (* stream form: ciphertext = plaintext xor keystream(key, nonce), followed by a 16-byte tag *)
  aead_stream : forall a k n ad p,
      aead_seal P a k n ad p = bxor p (aead_ks P a k n (length p)) ++ aead_tag P a k n ad p;
  aead_ks_len : forall a k n l, length (aead_ks P a k n l) = l;
  (* the keystream for (key, nonce) does not depend on how much of it is requested *)
  aead_ks_prefix : forall a k n l1 l2, (l1 <= l2)%nat -> firstn l1 (aead_ks P a k n l2) = aead_ks P a k n l1;
  aead_tag_len : forall a k n ad p, length (aead_tag P a k n ad p) = aead_overhead;
  (* CBC over whole blocks (the model panics before calling these on partial blocks) *)
  cbc_rt : forall a k iv p, cbc_dec P a k iv (cbc_enc P a k iv p) = p;
  cbc_enc_len : forall a k iv p, length (cbc_enc P a k iv p) = length p;
  (* RC4: a keystream indexed by position *)
  stream_len : forall a k pos l, length (stream_ks P a k pos l) = l;
  stream_split : forall a k pos n m,
      stream_ks P a k pos (n + m) = stream_ks P a k pos n ++ stream_ks P a k (pos + N.of_nat n) m;
  hmac_len : forall a k m, length (hmac P a k m) = mac_len a;
  prf_len : forall v s sec seed n, length (prf P v s sec seed n) = n
}.

Lemma len_app a b : len (a ++ b) = len a + len b.
Proof. unfold len. rewrite app_length. lia. Qed.

Lemma be_length k n : length (be k n) = k.
Proof. revert n; induction k as [|k IH]; intros n; cbn [be]; [reflexivity|]. rewrite app_length, IH. cbn. lia. Qed.

Lemma seq8_length s : length (seq8 s) = 8%nat.
Proof. apply be_length. Qed.

Lemma be16_length n : length (be16 n) = 2%nat.
Proof. reflexivity. Qed.

Lemma de_app a b acc : de (a ++ b) acc = de b (de a acc).
Proof. revert acc; induction a as [|x a IH]; intros acc; cbn [de app]; auto. Qed.

Lemma de_be k : forall n acc, de (be k n) acc = acc * 256 ^ N.of_nat k + n mod 256 ^ N.of_nat k.
Proof.
  induction k as [|k IH]; intros n acc.
  - cbn. rewrite N.mod_1_r. lia.
  - cbn [be]. rewrite de_app, IH. cbn [de].
    replace (N.of_nat (S k)) with (N.succ (N.of_nat k)) by lia. rewrite N.pow_succ_r'.
    assert (Hp : 256 ^ N.of_nat k <> 0) by (apply N.pow_nonzero; lia).
    rewrite (N.mod_mul_r n 256 (256 ^ N.of_nat k)) by lia. nia.
Qed.

Lemma be_inj k a b : a < 256 ^ N.of_nat k -> b < 256 ^ N.of_nat k -> be k a = be k b -> a = b.
Proof.
  intros Ha Hb H. apply (f_equal (fun l => de l 0)) in H. rewrite !de_be in H.
  rewrite !N.mod_small in H by assumption. lia.
Qed.

Lemma seq8_inj a b : a < 18446744073709551616 -> b < 18446744073709551616 -> seq8 a = seq8 b -> a = b.
Proof. intros Ha Hb. apply be_inj; exact Ha || exact Hb. Qed.

Lemma bxor_length a b : length (bxor a b) = Nat.min (length a) (length b).
Proof. revert b; induction a as [|x a IH]; intros [|y b]; cbn; auto. Qed.

Lemma bxor_app a1 a2 b1 b2 : length a1 = length b1 -> bxor (a1 ++ a2) (b1 ++ b2) = bxor a1 b1 ++ bxor a2 b2.
Proof.
  revert b1; induction a1 as [|x a IH]; intros [|y b] H; cbn in *; try discriminate; auto.
  f_equal. apply IH. lia.
Qed.

Lemma bxor_invol a k : length a = length k -> bxor (bxor a k) k = a.
Proof.
  revert k; induction a as [|x a IH]; intros [|y k] H; cbn in *; try discriminate; auto.
  rewrite IH by lia. f_equal. rewrite N.lxor_assoc, N.lxor_nilpotent, N.lxor_0_r. reflexivity.
Qed.

Lemma firstn_app_exact {A} (a b : list A) n : n = length a -> firstn n (a ++ b) = a.
Proof. intros ->. rewrite firstn_app, Nat.sub_diag, firstn_all. cbn. apply app_nil_r. Qed.

Lemma skipn_app_exact {A} (a b : list A) n : n = length a -> skipn n (a ++ b) = b.
Proof. intros ->. rewrite skipn_app, Nat.sub_diag, skipn_all. reflexivity. Qed.

Lemma rev_repeat {A} (x : A) n : rev (repeat x n) = repeat x n.
Proof.
  induction n as [|n IH]; cbn; auto. rewrite IH. clear IH.
  induction n as [|n IH]; cbn; auto. f_equal. exact IH.
Qed.

Lemma forallb_repeat (x : N) n : forallb (N.eqb x) (repeat x n) = true.
Proof. induction n; cbn; auto. rewrite N.eqb_refl. auto. Qed.

Lemma be16_eq n : n < 65536 -> de (be16 n) 0 = n.
Proof. intros H. unfold be16. cbn [de]. pose proof (N.div_mod n 256). rewrite (N.mod_small (n / 256)); [lia|].
  apply N.div_lt_upper_bound; lia. Qed.

Lemma be16_bytes n : Forall (fun b => b < 256) (be16 n).
Proof. unfold be16. repeat constructor; apply N.mod_lt; lia. Qed.

Lemma extract_padding_ok (x : bytes) (pl : nat) :
  (1 <= pl <= 256)%nat ->
  extract_padding (x ++ repeat ((N.of_nat pl - 1) mod 256) pl) = (pl, true).
Proof.
  intros Hpl. unfold extract_padding.
  rewrite N.mod_small by lia.
  destruct pl as [|p]; [lia|].
  set (v := N.of_nat (S p) - 1).
  assert (Hlast : last (x ++ repeat v (S p)) 0 = v).
  { change (repeat v (S p)) with (v :: repeat v p). rewrite repeat_cons, app_assoc. apply last_last. }
  rewrite Hlast, rev_app_distr, rev_repeat, app_length, repeat_length.
  replace (length x + S p <? 1)%nat with false by (symmetry; apply Nat.ltb_ge; lia).
  replace (S (N.to_nat v)) with (S p) by lia.
  rewrite firstn_app_exact by (rewrite repeat_length; reflexivity).
  rewrite forallb_repeat.
  replace (S p <=? length x + S p)%nat with true by (symmetry; apply Nat.leb_le; lia).
  reflexivity.
Qed.

Lemma round_up_le a b m : (0 < b)%nat -> (m mod b = 0)%nat -> (a <= m)%nat -> (round_up a b <= m)%nat.
Proof.
  intros Hb Hm Ha. unfold round_up.
  pose proof (Nat.div_mod a b ltac:(lia)) as Da. pose proof (Nat.mod_upper_bound a b ltac:(lia)) as Ua.
  apply Nat.mod_divides in Hm; [|lia]. destruct Hm as [q Hq].
  destruct (Nat.eq_dec (a mod b) 0) as [E|E].
  - rewrite E, Nat.sub_0_r, Nat.mod_same by lia. lia.
  - rewrite (Nat.mod_small (b - a mod b)) by lia.
    (* a + b - a mod b = b * (a/b + 1) <= b * q *)
    assert (a / b < q)%nat by nia. nia.
Qed.

Lemma pad_multiple n b : (0 < b)%nat -> ((n + (b - n mod b)) mod b = 0)%nat.
Proof.
  intros Hb. pose proof (Nat.div_mod n b ltac:(lia)) as D. pose proof (Nat.mod_upper_bound n b ltac:(lia)) as U.
  replace (n + (b - n mod b))%nat with ((n / b + 1) * b)%nat by nia. apply Nat.mod_mul. lia.
Qed.

Lemma strip13_ok p t : t <> 0 -> strip13 (rev (p ++ [t])) = Some (t, p).
Proof.
  intros Ht. rewrite rev_app_distr. cbn [rev app strip13].
  destruct (t =? 0) eqn:E; [lia|]. rewrite rev_involutive. reflexivity.
Qed.
