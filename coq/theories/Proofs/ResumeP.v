(* Proofs about Model/Resume.v (C19).  A connection is used through load_inv / build_inv (what its hello may offer)
   and step_cache_ind (it only deletes or replaces the cache entry under its own key).  Resumption of the next
   connection is step_stores (a completed handshake leaves a `good` session) followed by good_resumes (a good,
   unexpired session is offered and accepted); chain_inv carries that along a history. *)
From UV Require Import Base.Common Model.Resume.

Lemma lookup_put_same k s ca : lookup k (put k s ca) = Some s.
Proof. unfold lookup, put. cbn [find fst snd]. rewrite N.eqb_refl. reflexivity. Qed.

Lemma find_del_other k k' (ca : cache) : k' <> k ->
  find (fun e => fst e =? k') (del k ca) = find (fun e => fst e =? k') ca.
Proof.
  intros Hne. unfold del. induction ca as [|[a s] r IH]; [reflexivity|].
  cbn [filter find fst]. destruct (a =? k) eqn:Ea; cbn [negb].
  - apply N.eqb_eq in Ea. subst a. destruct (k =? k') eqn:E; [apply N.eqb_eq in E; congruence|]. exact IH.
  - cbn [find fst]. destruct (a =? k'); [reflexivity|exact IH].
Qed.

Lemma lookup_del_other k k' ca : k' <> k -> lookup k' (del k ca) = lookup k' ca.
Proof. intros H. unfold lookup. rewrite (find_del_other _ _ _ H). reflexivity. Qed.

Lemma lookup_put_other k k' s ca : k' <> k -> lookup k' (put k s ca) = lookup k' ca.
Proof.
  intros H. unfold lookup, put. cbn [find fst]. destruct (k =? k') eqn:E; [apply N.eqb_eq in E; congruence|].
  rewrite (find_del_other _ _ _ H). reflexivity.
Qed.

Lemma lookup_In k ca s : lookup k ca = Some s -> In (k, s) ca.
Proof.
  unfold lookup. destruct (find _ ca) as [[a s']|] eqn:F; [|discriminate]. intros H. inversion H; subst.
  apply find_some in F. destruct F as [Hin He]. cbn in He. apply N.eqb_eq in He. subst. exact Hin.
Qed.

Definition names_ok (ca : cache) : Prop := Forall (fun e => s_name (snd e) = fst e) ca.

Lemma names_ok_del k ca : names_ok ca -> names_ok (del k ca).
Proof. unfold names_ok, del. intros H. apply Forall_forall. intros e He. apply filter_In in He. rewrite Forall_forall in H. apply H, He. Qed.

Lemma names_ok_put k s ca : s_name s = k -> names_ok ca -> names_ok (put k s ca).
Proof. intros Hs H. unfold put. constructor; [exact Hs|apply names_ok_del, H]. Qed.

Lemma names_ok_lookup k ca s : names_ok ca -> lookup k ca = Some s -> s_name s = k.
Proof. intros H L. apply lookup_In in L. unfold names_ok in H. rewrite Forall_forall in H. exact (H _ L). Qed.

(* case analysis on everything the goal matches on, with (destr_goal) or without (case_goal) an equation for each;
   bool_hyps splits the boolean guards those equations record into their atoms *)
Ltac destr_goal := repeat match goal with |- context [match ?x with _ => _ end] => destruct x eqn:? end.
Ltac case_goal := repeat match goal with |- context [match ?x with _ => _ end] => destruct x end.
Ltac bool_hyps := repeat match goal with
  | H : _ && _ = true |- _ => apply andb_prop in H; destruct H
  | H : _ || _ = false |- _ => apply orb_false_elim in H; destruct H
  | H : negb _ = false |- _ => apply negb_false_iff in H
  | H : negb _ = true |- _ => apply negb_true_iff in H
  end.

Lemma load_inv ca c e :
  (l_cache (load_session ca c e) = ca \/ l_cache (load_session ca c e) = del (c_name c) ca) /\
  forall k s, l_sess (load_session ca c e) = Some (k, s) ->
    lookup (c_name c) ca = Some s /\
    (c_skipverify c = false -> s_verified s = true /\ name_ok (c_vn c) (s_certnames s) = true) /\
    (k = ViaPsk /\ s_vers s = V13 \/ k = ViaTicket /\ s_vers s <> V13 /\ (s_ems s = true -> e = true)).
Proof.
  (* one case per guard of loadSession: every exit leaves the cache alone or deletes the entry, and offers nothing;
     the two exits that offer s have passed all guards above them, whose negations bool_hyps turns into the clauses.
     The bullets are the session_ticket and the pre_shared_key exit. *)
  unfold load_session. destruct (lookup (c_name c) ca) as [s0|]; [|split; [auto | discriminate]].
  destr_goal; cbn [l_sess l_cache].
  all: split; [auto|]; try discriminate.
  all: intros k s [= <- <-]; split; [reflexivity|]; bool_hyps.
  all: split; [intros Sk; rewrite Sk in *; cbn in *; bool_hyps; auto|].
  - right. split; [reflexivity|]. split; [apply N.eqb_neq; assumption|].
    intros Hs. rewrite Hs in *. destruct e; [reflexivity | cbn in *; congruence].
  - left. split; [reflexivity | apply N.eqb_eq; assumption].
Qed.

Definition built_cache (b : built) : cache := match b with BOk ca _ _ | BErr ca _ | BPanic ca _ => ca end.

(* the fix shows in the last clause: an EMS session is offered through session_ticket only by a hello that carries EMS *)
Lemma build_inv ca c :
  (built_cache (build ca c) = ca \/ built_cache (build ca c) = del (c_name c) ca) /\
  forall ca' k s p, build ca c = BOk ca' (Some (k, s)) p ->
    lookup (c_name c) ca = Some s /\
    (c_skipverify c = false -> s_verified s = true /\ name_ok (c_vn c) (s_certnames s) = true) /\
    (k = ViaTicket -> s_ems s = true -> has_ems (c_spec c) = true).
Proof.
  unfold build, has_ems. destruct (sp_go (c_spec c)).
  - destruct (load_inv ca c true) as [LC LS]. split; [exact LC|]. intros ca' k s p [= _ L _].
    destruct (LS _ _ L) as (A & B & _). auto.
  - (* the uTLS path: build only adds refusals to what load_inv gives; a ViaPsk offer reaching the session_ticket
       exit would have s_vers = V13 and = V12 at once *)
    destruct (load_inv ca c (has XEms (sp_exts (c_spec c)))) as [LC LS]. cbn [orb].
    destruct (l_sess (load_session ca c _)) as [[k0 s0]|]; cbv beta iota zeta; destr_goal; cbn [built_cache].
    all: split; [auto|]; try discriminate.
    all: intros ca' k s p [= _ <- <- _]; destruct (LS _ _ eq_refl) as (A & B & C).
    all: split; [exact A|]; split; [exact B|]; try discriminate.
    all: destruct C as [[_ C] | (_ & _ & C)]; [|intros _; exact C].
    all: match goal with H : (s_vers _ =? V12) = true |- _ => rewrite C in H; discriminate H end.
Qed.

Lemma step_offer ca c k s : o_offer (snd (step ca c)) = Some (k, s) ->
  lookup (c_name c) ca = Some s /\ (k = ViaTicket -> s_ems s = true -> o_ems (snd (step ca c)) = true).
Proof.
  unfold step. destruct (build ca c) as [ca' off p|ca' e|ca' p] eqn:B; [|discriminate..].
  assert (O : off = Some (k, s) -> lookup (c_name c) ca = Some s /\ (k = ViaTicket -> s_ems s = true -> has_ems (c_spec c) = true)).
  { intros ->. destruct (proj2 (build_inv ca c) _ _ _ _ B) as (A & _ & C). auto. }
  case_goal; cbn [snd o_offer o_ems]; exact O.
Qed.

Lemma stored_name c v su e r t : s_name (stored c v su e r t) = c_name c.
Proof. unfold stored. destruct r; reflexivity. Qed.

(* all a connection does to the cache is delete or replace the entry under its own key *)
Lemma step_cache_ind (P : cache -> Prop) ca c :
  P ca -> (forall x, P x -> P (del (c_name c) x)) ->
  (forall x s, s_name s = c_name c -> P x -> P (put (c_name c) s x)) -> P (fst (step ca c)).
Proof.
  intros H0 Hd Hp. unfold step.
  assert (H' : P (built_cache (build ca c))) by (destruct (proj1 (build_inv ca c)) as [-> | ->]; auto).
  destruct (build ca c) as [ca' off p|ca' e|ca' p]; cbn [built_cache] in H'; [|exact H'..].
  assert (F : P (fail ca' c off)) by (unfold fail; destruct off; auto).
  case_goal; cbn [fst]; try exact F; try apply Hp; try apply stored_name; exact H'.
Qed.

Lemma step_names_ok ca c : names_ok ca -> names_ok (fst (step ca c)).
Proof.
  intros H. apply step_cache_ind; [exact H | intros x; apply names_ok_del | intros x s; apply names_ok_put].
Qed.

Lemma step_other_keys ca c k : k <> c_name c -> lookup k (fst (step ca c)) = lookup k ca.
Proof.
  intros Hk. apply (step_cache_ind (fun x => lookup k x = lookup k ca)); [reflexivity| |];
  intros x; intros; [rewrite lookup_del_other | rewrite lookup_put_other]; assumption.
Qed.

Definition offers_ok (P : conn -> obs -> Prop) (h : list conn) (os : list obs) : Prop :=
  Forall (fun co => P (fst co) (snd co)) (combine h os).

Lemma run_length ca h : length (run ca h) = length h.
Proof. revert ca. induction h as [|c r IH]; intros ca; cbn [run]; [reflexivity|]. destruct (step ca c). cbn. rewrite IH. reflexivity. Qed.

Lemma run_invariant (I : cache -> Prop) (P : conn -> obs -> Prop) :
  (forall ca c, I ca -> I (fst (step ca c)) /\ P c (snd (step ca c))) ->
  forall h ca, I ca -> offers_ok P h (run ca h) /\ I (final ca h).
Proof.
  intros S h. induction h as [|c r IH]; intros ca Hca; cbn [run final].
  - split; [constructor|exact Hca].
  - destruct (S ca c Hca) as [Hi Hp]. destruct (step ca c) as [ca' o] eqn:E. cbn [fst snd] in *.
    destruct (IH ca' Hi) as [A B]. split; [constructor; [exact Hp|exact A]|exact B].
Qed.

Definition same_name (c : conn) (o : obs) : Prop :=
  forall k s, o_offer o = Some (k, s) -> s_name s = c_name c.
Definition ems_safe (c : conn) (o : obs) : Prop :=
  forall s, o_offer o = Some (ViaTicket, s) -> s_ems s = true -> o_ems o = true.

Lemma no_cross_name_run h ca : names_ok ca -> offers_ok same_name h (run ca h) /\ names_ok (final ca h).
Proof.
  apply (run_invariant names_ok same_name). intros ca0 c H. split; [apply step_names_ok, H|].
  intros k s Ho. destruct (step_offer _ _ _ _ Ho) as [L _]. eapply names_ok_lookup; eassumption.
Qed.

Definition spec_wf (sp : spec) (omit : bool) : Prop :=
  sp_go sp = false ->
  psk_positions_ok (sp_exts sp) = true /\ (count_ticket (sp_exts sp) <= 1)%nat /\ (has XPsk (sp_exts sp) = true -> omit = true).

Definition can_resume (sp : spec) (sv : server) (v : N) : Prop :=
  (v = V12 /\ has_ticket sp = true) \/
  (v = V13 /\ has_psk sp = true /\ has_modes sp = true /\ selected_group sv sp <> None).

Definition same_config (c1 c2 : conn) : Prop :=
  c_spec c2 = c_spec c1 /\ c_name c2 = c_name c1 /\ c_srv c2 = c_srv c1 /\
  c_skipverify c2 = c_skipverify c1 /\ c_suite c2 = c_suite c1 /\
  c_vn c2 = c_vn c1 /\ c_skiptime c2 = c_skiptime c1.

Definition hrr_ok (c : conn) : Prop := sp_go (c_spec c) = true \/ needs_hrr (c_srv c) (c_spec c) = false.

Definition unexpired (s : session) (now : N) : Prop :=
  now <= s_notafter s /\ now <= s_useby s /\ now <= t_created (s_ticket s) + LIFETIME.

(* a cached session that a connection configured like c, negotiating version v, will offer and the server accept *)
Record good (c : conn) (v : N) (s : session) : Prop := mkGood {
  g_vers : s_vers s = v;
  g_key : t_key (s_ticket s) = sv_key (c_srv c);
  g_tvers : t_vers (s_ticket s) = v;
  g_tsuite : t_suite (s_ticket s) = s_suite s;
  g_tems : t_ems (s_ticket s) = s_ems s;
  g_ver : c_skipverify c = false -> s_verified s = true /\ name_ok (c_vn c) (s_certnames s) = true;
  g_12 : v <> V13 -> mem (s_suite s) (sp_suites (c_spec c)) = true /\ mem (s_suite s) (sv_suites (c_srv c)) = true /\
                     s_ems s = has_ems (c_spec c);
  g_13 : v = V13 -> hash_len (s_suite s) = hash_len (c_suite c) /\ hash_len (c_suite c) <> 0;
  g_ok : s_bad s = false
}.

Lemma good_same c1 c2 v s : same_config c1 c2 -> good c1 v s <-> good c2 v s.
Proof.
  intros (E1 & _ & E3 & E4 & E5 & E6 & _). split; intros []; constructor.
  all: rewrite ?E1, ?E3, ?E4, ?E5, ?E6; try assumption.
  all: rewrite <- ?E1, <- ?E3, <- ?E4, <- ?E5, <- ?E6; assumption.
Qed.

Lemma can_resume_exts sp sv v : can_resume sp sv v ->
  (v = V13 -> has_modes sp = true) /\ (v <> V13 -> has_ticket sp = true).
Proof. intros [[-> T]|(-> & _ & M & _)]; split; intros E; try assumption; discriminate || congruence. Qed.

Lemma negotiate_mem sv sp v : negotiate sv sp = Some v -> mem v (sp_vers sp) = true.
Proof. unfold negotiate. intros H. apply find_some in H. apply H. Qed.

Lemma mem_In x l : mem x l = true <-> In x l.
Proof. unfold mem. rewrite existsb_exists. split; [intros [y [Hy E]]; apply N.eqb_eq in E; subst; exact Hy|intros H; exists x; split; [exact H|apply N.eqb_refl]]. Qed.

Lemma ver_cond skip (s : session) name :
  (skip = false -> s_verified s = true /\ name_ok name (s_certnames s) = true) ->
  negb skip && (negb (s_verified s) || negb (name_ok name (s_certnames s))) = false.
Proof. destruct skip; [reflexivity|]. intros H. destruct (H eq_refl) as [-> ->]. reflexivity. Qed.

Lemma verify_ok_name c : verify_ok c = true -> c_skipverify c = false ->
  negb (c_skipverify c) = true /\ name_ok (c_vn c) (sv_certnames (c_srv c)) = true.
Proof. unfold verify_ok. intros H Sk. rewrite Sk in *. apply andb_prop in H. split; [reflexivity | apply H]. Qed.

Lemma load13 ca c s e : good c V13 s -> lookup (c_name c) ca = Some s ->
  mem V13 (sp_vers (c_spec c)) = true -> mem (c_suite c) (sp_suites (c_spec c)) = true ->
  c_now c <= s_notafter s -> c_now c <= s_useby s ->
  load_session ca c e = mkLoaded ca (Some (ViaPsk, s)).
Proof.
  intros [gv _ _ _ _ gver _ g13 _] L Mv Ms T1 T2. destruct (g13 eq_refl) as [Hh Hn].
  unfold load_session. rewrite L, gv, Mv. cbn [negb].
  rewrite (proj2 (N.ltb_ge _ _) T1), andb_false_r, (ver_cond _ _ _ gver), N.eqb_refl. cbn [negb].
  rewrite (proj2 (N.ltb_ge _ _) T2), Hh, (proj2 (N.eqb_neq _ _) Hn).
  assert (X : existsb (fun o => negb (hash_len o =? 0) && (hash_len o =? hash_len (c_suite c))) (sp_suites (c_spec c)) = true).
  { apply existsb_exists. exists (c_suite c). split; [apply mem_In, Ms|].
    rewrite N.eqb_refl, (proj2 (N.eqb_neq _ _) Hn). reflexivity. }
  rewrite X. reflexivity.
Qed.

Lemma load12 ca c s : good c V12 s -> lookup (c_name c) ca = Some s ->
  mem V12 (sp_vers (c_spec c)) = true -> c_now c <= s_notafter s ->
  load_session ca c (has_ems (c_spec c)) = mkLoaded ca (Some (ViaTicket, s)).
Proof.
  intros [gv _ _ _ _ gver g12 _ _] L Mv T1. destruct g12 as (M1 & _ & E); [discriminate|].
  unfold load_session. rewrite L, gv, Mv. cbn [negb].
  rewrite (proj2 (N.ltb_ge _ _) T1), andb_false_r, (ver_cond _ _ _ gver).
  cbn. rewrite M1, E. cbn [negb]. rewrite andb_negb_r. reflexivity.
Qed.

Lemma build_offers ca c k s :
  load_session ca c (has_ems (c_spec c)) = mkLoaded ca (Some (k, s)) ->
  spec_wf (c_spec c) (c_omit c) ->
  match k with
  | ViaTicket => s_vers s = V12 /\ has_ticket (c_spec c) = true
  | ViaPsk => s_vers s = V13 /\ has_psk (c_spec c) = true
  end ->
  exists p, build ca c = BOk ca (Some (k, s)) p.
Proof.
  intros LD Wf Hk. unfold build. unfold has_ems, has_ticket, has_psk in *.
  destruct (sp_go (c_spec c)) eqn:Go; cbn [orb] in *.
  - rewrite LD. eexists. reflexivity.
  - destruct (Wf Go) as (W1 & W2 & W3).
    rewrite (proj2 (Nat.ltb_ge _ _) W2), W1, LD. cbn [negb l_sess l_cache].
    destruct k; destruct Hk as [-> Hx]; rewrite Hx.
    + destruct (has XPsk (sp_exts (c_spec c))) eqn:P; [rewrite (W3 eq_refl)|]; cbn; eexists; reflexivity.
    + rewrite andb_false_r. cbn. eexists. reflexivity.
Qed.

Lemma good_resumes ca c v s :
  good c v s -> lookup (c_name c) ca = Some s ->
  negotiate (c_srv c) (c_spec c) = Some v -> can_resume (c_spec c) (c_srv c) v ->
  spec_wf (c_spec c) (c_omit c) -> mem (c_suite c) (sp_suites (c_spec c)) = true ->
  (v = V13 -> hrr_ok c) -> unexpired s (c_now c) ->
  resumed (snd (step ca c)) = true /\ exists k, o_offer (snd (step ca c)) = Some (k, s).
Proof.
  intros G L Ng Cr Wf Ms Hr (T1 & T2 & T3). pose proof (negotiate_mem _ _ _ Ng) as Mv.
  apply N.leb_le in T3. destruct Cr as [[-> Ht]|(-> & Hp & Hm & Sg)].
  - destruct (build_offers ca c ViaTicket s (load12 ca c s G L Mv T1) Wf (conj (g_vers _ _ _ G) Ht)) as [p B].
    destruct G as [_ gk gtv gts gte _ g12 _ gbad]. destruct g12 as (M1 & M2 & E); [discriminate|].
    unfold step, opens, fresh. rewrite B, Ng. change (V12 =? V13) with false. cbv beta iota.
    rewrite gk, gtv, gts, gte, T3, !N.eqb_refl, M1, M2, E.
    cbn [negb]. rewrite andb_negb_l, andb_negb_r. cbn. rewrite gbad. cbn. eauto.
  - destruct (build_offers ca c ViaPsk s (load13 ca c s _ G L Mv Ms T1 T2) Wf (conj (g_vers _ _ _ G) Hp)) as [p B].
    destruct G as [_ gk gtv gts _ _ _ g13 gbad]. destruct (g13 eq_refl) as [Hh Hn].
    (* hrr_ok keeps the client from aborting on a HelloRetryRequest (handshake_client_tls13.go:391-395) *)
    assert (HR : needs_hrr (c_srv c) (c_spec c) && negb (sp_go (c_spec c)) && p = false).
    { destruct (Hr eq_refl) as [-> | ->]; [rewrite andb_false_r|]; reflexivity. }
    unfold step, opens, fresh. rewrite B, Ng, N.eqb_refl. cbv beta iota.
    destruct (selected_group (c_srv c) (c_spec c)) as [g|]; [|congruence].
    rewrite HR, (proj2 (N.eqb_neq _ _) Hn), Hm, gk, gtv, gts, Hh, T3, !N.eqb_refl.
    cbn. rewrite gbad. cbn. eauto.
Qed.

(* what a completed handshake leaves under the connection's key: a good session, made from the offered one
   exactly when the handshake was a resumption *)
Lemma step_stores ca c v :
  completed (snd (step ca c)) = true ->
  negotiate (c_srv c) (c_spec c) = Some v ->
  (v = V13 -> has_modes (c_spec c) = true) ->
  (v <> V13 -> has_ticket (c_spec c) = true) ->
  exists su e from tc, lookup (c_name c) (fst (step ca c)) = Some (stored c v su e from tc) /\
    good c v (stored c v su e from tc) /\
    match from with
    | Some s => resumed (snd (step ca c)) = true /\ (exists k, o_offer (snd (step ca c)) = Some (k, s)) /\
                (tc = t_created (s_ticket s) \/ tc = c_now c)
    | None => resumed (snd (step ca c)) = false /\ tc = c_now c
    end.
Proof.
  (* a completed handshake went through one of the exits of step that end in [put (c_name c) (stored ..)]: full
     handshake, ticket resumption, PSK resumption, at TLS 1.3 or below. In each, the guards passed on the way
     (bool_hyps) are the fields of [good]; CK carries the certificate clause over from an offered session. *)
  intros Hc Ng Hm Ht. unfold step in *. rewrite Ng in *.
  destruct (build ca c) as [ca' off p|ca' e|ca' p] eqn:B; [|discriminate Hc..].
  assert (CK : forall k s, off = Some (k, s) -> c_skipverify c = false ->
               s_verified s = true /\ name_ok (c_vn c) (s_certnames s) = true).
  { intros k s ->. exact (proj1 (proj2 (proj2 (build_inv ca c) _ _ _ _ B))). }
  destruct (v =? V13) eqn:EV;
    [ apply N.eqb_eq in EV; subst v; rewrite (Hm eq_refl) in *
    | apply N.eqb_neq in EV; unfold wire_ticket in *; rewrite (Ht EV) in *; cbn [orb] in * ].
  all: destr_goal; cbn [fst snd] in *; try discriminate Hc.
  all: repeat match goal with
    | H : match ?x with _ => _ end = Some _ |- _ => destruct x eqn:?; try discriminate H
    | H : Some _ = Some _ |- _ => inversion H; subst; clear H
    end.
  all: do 4 eexists; split; [apply lookup_put_same|]; (split; [|cbn; eauto]); bool_hyps.
  all: constructor; unfold stored; cbn [s_vers s_ticket t_key t_vers t_suite t_ems s_suite s_ems s_verified s_certnames s_bad];
    try reflexivity; try congruence.
  all: try exact (CK _ _ eq_refl); try (apply verify_ok_name; assumption).
  all: try (intros _; split; [reflexivity | apply N.eqb_neq; assumption]).
  all: intros _; repeat split; try assumption.
  (* left: ticket resumption stores the ticket's EMS flag, which the two EMS guards force to equal the hello's *)
  destruct (t_ems (s_ticket s)), (has_ems (c_spec c)); cbn in *; congruence.
Qed.

Definition resume_next_stmt (hrr_side : conn -> Prop) : Prop :=
  forall ca c1 c2 v,
  completed (snd (step ca c1)) = true ->
  negotiate (c_srv c1) (c_spec c1) = Some v ->
  can_resume (c_spec c1) (c_srv c1) v ->
  same_config c1 c2 -> spec_wf (c_spec c2) (c_omit c2) ->
  mem (c_suite c1) (sp_suites (c_spec c1)) = true ->
  (v = V13 -> hrr_side c2) ->
  exists s, lookup (c_name c1) (fst (step ca c1)) = Some s /\
    (unexpired s (c_now c2) ->
      resumed (snd (step (fst (step ca c1)) c2)) = true /\
      exists k, o_offer (snd (step (fst (step ca c1)) c2)) = Some (k, s)).

Lemma good_resumes_same ca c1 c v s :
  same_config c1 c -> good c1 v s -> lookup (c_name c1) ca = Some s ->
  negotiate (c_srv c1) (c_spec c1) = Some v -> can_resume (c_spec c1) (c_srv c1) v ->
  spec_wf (c_spec c) (c_omit c) -> mem (c_suite c1) (sp_suites (c_spec c1)) = true ->
  (v = V13 -> hrr_ok c) -> unexpired s (c_now c) ->
  resumed (snd (step ca c)) = true /\ exists k, o_offer (snd (step ca c)) = Some (k, s).
Proof.
  intros Sc G L Ng Cr Wf Ms Hr U. pose proof (proj1 (good_same _ _ _ _ Sc) G) as G'.
  destruct Sc as (E1 & E2 & E3 & _ & E5 & _). rewrite <- E1, <- E3 in Ng, Cr. rewrite <- E1, <- E5 in Ms. rewrite <- E2 in L.
  exact (good_resumes ca c v s G' L Ng Cr Wf Ms Hr U).
Qed.

Lemma resume_next : resume_next_stmt hrr_ok.
Proof.
  intros ca c1 c2 v Hc Ng Cr Sc Wf Ms Hr. destruct (can_resume_exts _ _ _ Cr) as [Hm Ht].
  destruct (step_stores ca c1 v Hc Ng Hm Ht) as (su & e & from & tc & L & G & _).
  eexists. split; [exact L|]. apply (good_resumes_same _ c1 c2 v); assumption.
Qed.

Lemma psk_positions_last l : psk_positions_ok l = true -> has XPsk l = true -> exists l', l = l' ++ [XPsk].
Proof.
  induction l as [|x r IH]; cbn [psk_positions_ok has existsb]; [discriminate|].
  destruct x; cbn [ext_eqb orb];
  try (intros P H; destruct (IH P H) as [l' ->]; eexists (_ :: l'); reflexivity).
  destruct r; [intros _ _; exists []; reflexivity|discriminate].
Qed.

Lemma concat_binders_len bs : length (concat (map enc_binder bs)) = N.to_nat (binders_len bs).
Proof.
  induction bs as [|b r IH]; [reflexivity|]. cbn [map concat binders_len fold_right]. rewrite app_length, IH.
  unfold enc_binder. cbn [length]. fold (binders_len r). lia.
Qed.

Lemma enc_binders_len bs : length (enc_binders bs) = N.to_nat (2 + binders_len bs).
Proof. unfold enc_binders. rewrite app_length, concat_binders_len. cbn [be16 length]. lia. Qed.

Definition psk_head (ids : list ident) (blen : N) : bytes :=
  be16 41 ++ be16 (4 + 2 + idents_len ids + 2 + blen - 4) ++ be16 (idents_len ids) ++ concat (map enc_ident ids).

Lemma psk_ext_split ids bs : ids <> [] -> bs <> [] -> psk_ext ids bs = psk_head ids (binders_len bs) ++ enc_binders bs.
Proof.
  intros Hi Hb. unfold psk_ext, psk_ext_len, psk_head. destruct ids; [congruence|]. destruct bs; [congruence|].
  replace (4 + 2 + idents_len (i :: ids) + 2 + binders_len (b :: bs) =? 0) with false by (symmetry; apply N.eqb_neq; lia).
  rewrite <- !app_assoc. reflexivity.
Qed.

Lemma patch_tail pre old new : binders_len old = binders_len new ->
  patch (pre ++ enc_binders old) old new = Ok (pre ++ enc_binders new) /\
  length (pre ++ enc_binders new) = length (pre ++ enc_binders old).
Proof.
  intros E.
  assert (L : length (pre ++ enc_binders new) = length (pre ++ enc_binders old)).
  { rewrite !app_length, !enc_binders_len, E. reflexivity. }
  split; [|exact L]. unfold patch.
  replace (length (pre ++ enc_binders old) - N.to_nat (2 + binders_len old))%nat with (length pre)
    by (rewrite app_length, enc_binders_len; lia).
  rewrite firstn_app, firstn_all, Nat.sub_diag. cbn [firstn]. rewrite app_nil_r, L, Nat.eqb_refl. reflexivity.
Qed.

Lemma patch_ok prefix ids old new :
  ids <> [] -> old <> [] -> new <> [] -> binders_len old = binders_len new ->
  patch (prefix ++ psk_ext ids old) old new = Ok (prefix ++ psk_ext ids new) /\
  length (prefix ++ psk_ext ids new) = length (prefix ++ psk_ext ids old).
Proof.
  intros Hi Ho Hn E. rewrite (psk_ext_split ids old Hi Ho), (psk_ext_split ids new Hi Hn), E, !app_assoc.
  apply patch_tail, E.
Qed.

Section Binder.
  (* cipherSuite.finishedHash(binderKey, transcript): HMAC of the suite's hash *)
  Variable mac : N -> bytes -> bytes -> bytes.
  Hypothesis mac_len : forall su k t, length (mac su k t) = N.to_nat (hash_len su).

  Lemma binder_len_invariant prefix ids su key :
    ids <> [] ->
    let old := [placeholder su] in
    let raw := prefix ++ psk_ext ids old in
    let new := [mac su key (firstn (length raw - N.to_nat (2 + binders_len old)) raw)] in
    patch raw old new = Ok (prefix ++ psk_ext ids new) /\ length (prefix ++ psk_ext ids new) = length raw.
  Proof.
    intros Hi old raw new. apply patch_ok; try exact Hi; try discriminate.
    unfold old, new, placeholder. cbn [binders_len fold_right]. rewrite mac_len, repeat_length. reflexivity.
  Qed.
End Binder.

Lemma run_app ca h1 h2 : run ca (h1 ++ h2) = run ca h1 ++ run (final ca h1) h2.
Proof.
  revert ca. induction h1 as [|c r IH]; intros ca; cbn [app run final]; [reflexivity|].
  destruct (step ca c) as [ca' o] eqn:E. cbn [fst]. rewrite IH. reflexivity.
Qed.

Lemma key_same_iff c1 c2 : c_name c1 = c_name c2 <->
  (if c_sname c1 =? 0 then c_addr c1 else c_sname c1) = (if c_sname c2 =? 0 then c_addr c2 else c_sname c2).
Proof. unfold c_name. reflexivity. Qed.

Definition agree (k : N) (ca1 ca2 : cache) : Prop := lookup k ca1 = lookup k ca2.

Lemma lookup_del_same k ca : lookup k (del k ca) = None.
Proof.
  unfold lookup, del. induction ca as [|[a s] r IH]; [reflexivity|]. cbn [filter fst].
  destruct (a =? k) eqn:E; cbn [negb]; [exact IH|]. cbn [find fst]. rewrite E. exact IH.
Qed.

Lemma agree_del k ca1 ca2 : agree k (del k ca1) (del k ca2).
Proof. unfold agree. rewrite !lookup_del_same. reflexivity. Qed.
Lemma agree_put k s ca1 ca2 : agree k (put k s ca1) (put k s ca2).
Proof. unfold agree. rewrite !lookup_put_same. reflexivity. Qed.

Lemma load_local ca1 ca2 c e : agree (c_name c) ca1 ca2 ->
  l_sess (load_session ca1 c e) = l_sess (load_session ca2 c e) /\
  agree (c_name c) (l_cache (load_session ca1 c e)) (l_cache (load_session ca2 c e)).
Proof.
  intros A. unfold load_session. rewrite A. destruct (lookup (c_name c) ca2) as [s|]; [|split; [reflexivity|exact A]].
  case_goal; cbn [l_sess l_cache]; (split; [reflexivity|]); try exact A; apply agree_del.
Qed.

Definition built_agree (k : N) (b1 b2 : built) : Prop :=
  match b1, b2 with
  | BOk c1 o1 p1, BOk c2 o2 p2 => agree k c1 c2 /\ o1 = o2 /\ p1 = p2
  | BErr c1 e1, BErr c2 e2 => agree k c1 c2 /\ e1 = e2
  | BPanic c1 e1, BPanic c2 e2 => agree k c1 c2 /\ e1 = e2
  | _, _ => False
  end.

Lemma build_local ca1 ca2 c : agree (c_name c) ca1 ca2 -> built_agree (c_name c) (build ca1 c) (build ca2 c).
Proof.
  intros A. unfold build. destruct (sp_go (c_spec c)).
  - destruct (load_local ca1 ca2 c true A) as [S C]. rewrite S. cbn. auto.
  - destruct (load_local ca1 ca2 c (has XEms (sp_exts (c_spec c))) A) as [S C]. rewrite S.
    destruct (l_sess (load_session ca2 c (has XEms (sp_exts (c_spec c))))) as [[k0 s0]|];
    cbv beta iota zeta; case_goal; cbn; auto.
Qed.

Lemma agree_fail ca1 ca2 c off :
  agree (c_name c) ca1 ca2 -> agree (c_name c) (fail ca1 c off) (fail ca2 c off).
Proof. intros A. unfold fail. destruct off; [apply agree_del|exact A]. Qed.

Lemma step_local ca1 ca2 c : agree (c_name c) ca1 ca2 ->
  snd (step ca1 c) = snd (step ca2 c) /\ agree (c_name c) (fst (step ca1 c)) (fst (step ca2 c)).
Proof.
  intros A. pose proof (build_local ca1 ca2 c A) as B. unfold step.
  destruct (build ca1 c) as [c1 o1 p1|c1 e1|c1 e1], (build ca2 c) as [c2 o2 p2|c2 e2|c2 e2]; cbn in B; try contradiction.
  - destruct B as [Ag [-> ->]].
    pose proof (fun o => agree_fail _ _ c o Ag) as F.
    case_goal; cbn [fst snd]; (split; [reflexivity|]); try apply F; try apply agree_put; exact Ag.
  - destruct B as [Ag ->]. cbn. auto.
  - destruct B as [Ag ->]. cbn. auto.
Qed.

(* observations of the connections whose cache key is k, in a history of arbitrary connections *)
Fixpoint run_key (k : N) (ca : cache) (h : list conn) : list obs :=
  match h with
  | [] => []
  | c :: r => let (ca', o) := step ca c in if c_name c =? k then o :: run_key k ca' r else run_key k ca' r
  end.

Lemma interleave_local h : forall ca1 ca2 k, agree k ca1 ca2 ->
  run_key k ca1 h = run ca2 (filter (fun c => c_name c =? k) h).
Proof.
  induction h as [|c r IH]; intros ca1 ca2 k A; cbn [run_key filter run]; [reflexivity|].
  destruct (c_name c =? k) eqn:E.
  - apply N.eqb_eq in E. subst k. destruct (step_local ca1 ca2 c A) as [So Sc].
    cbn [run]. destruct (step ca1 c) as [ca1' o1], (step ca2 c) as [ca2' o2]. cbn [fst snd] in *. subst o2.
    f_equal. apply IH. exact Sc.
  - apply N.eqb_neq in E. pose proof (step_other_keys ca1 c k (fun H => E (eq_sym H))) as K.
    destruct (step ca1 c) as [ca1' o1]. cbn [fst] in K. apply IH. unfold agree. rewrite K. exact A.
Qed.

Definition chain_inv (c1 : conn) (v B : N) (ca : cache) : Prop :=
  exists s, lookup (c_name c1) ca = Some s /\ good c1 v s /\ unexpired s B.

(* c continues the history started by c1: same configuration, its clock within the window ending at B *)
Definition follows (c1 : conn) (v B : N) (c : conn) : Prop :=
  same_config c1 c /\ spec_wf (c_spec c) (c_omit c) /\ (v = V13 -> hrr_ok c) /\ c_now c <= B /\ B <= c_now c + LIFETIME.

Fixpoint chain_ok (key : N) (ca : cache) (h : list conn) : Prop :=
  match h with
  | [] => True
  | c :: r =>
    resumed (snd (step ca c)) = true /\
    (exists k s, lookup key ca = Some s /\ o_offer (snd (step ca c)) = Some (k, s)) /\
    chain_ok key (fst (step ca c)) r
  end.

(* The resumed connection stores a session made from the one it offered: the certificate's expiry is kept, useBy is
   renewed, and the ticket's creation time is kept (TLS 1.2) or renewed (TLS 1.3); so the invariant survives. *)
Lemma chain_step c1 v B ca c :
  negotiate (c_srv c1) (c_spec c1) = Some v ->
  can_resume (c_spec c1) (c_srv c1) v ->
  mem (c_suite c1) (sp_suites (c_spec c1)) = true ->
  chain_inv c1 v B ca -> follows c1 v B c ->
  resumed (snd (step ca c)) = true /\
  (exists k s, lookup (c_name c1) ca = Some s /\ o_offer (snd (step ca c)) = Some (k, s)) /\
  chain_inv c1 v B (fst (step ca c)).
Proof.
  intros Ng Cr Ms (s & L & G & U1 & U2 & U3) (Sc & Wf & Hr & T1 & T2).
  destruct (good_resumes_same ca c1 c v s Sc G L Ng Cr Wf Ms Hr) as [R [k O]].
  { repeat split; eapply N.le_trans; eassumption. }
  split; [exact R|]. split; [eauto|].
  destruct (can_resume_exts _ _ _ Cr) as [Hm Ht]. pose proof Sc as (E1 & E2 & E3 & _).
  assert (Hc : completed (snd (step ca c)) = true).
  { unfold resumed in R. unfold completed. destruct (o_out (snd (step ca c))); try discriminate. reflexivity. }
  rewrite <- E1 in Ng, Hm, Ht. rewrite <- E3 in Ng.
  destruct (step_stores ca c v Hc Ng Hm Ht) as (su & e & from & tc & L' & G' & F).
  destruct from as [s0|]; [|destruct F; congruence]. destruct F as (_ & [k0 O0] & Ftc).
  assert (s0 = s) by congruence. subst s0.
  eexists. split; [rewrite <- E2; exact L'|]. split; [apply (good_same _ _ _ _ Sc), G'|].
  unfold unexpired, stored. cbn [s_notafter s_useby s_ticket t_created].
  split; [exact U1|]. split; [exact T2|]. destruct Ftc as [-> | ->]; assumption.
Qed.

Lemma resume_chain c1 v B :
  negotiate (c_srv c1) (c_spec c1) = Some v ->
  can_resume (c_spec c1) (c_srv c1) v ->
  mem (c_suite c1) (sp_suites (c_spec c1)) = true ->
  forall rest ca, chain_inv c1 v B ca -> Forall (follows c1 v B) rest -> chain_ok (c_name c1) ca rest.
Proof.
  intros Ng Cr Ms rest. induction rest as [|c r IH]; intros ca I F; cbn [chain_ok]; [exact Logic.I|].
  inversion F as [|c' r' Fc Fr]; subst.
  destruct (chain_step c1 v B ca c Ng Cr Ms I Fc) as [R [O I']].
  split; [exact R|]. split; [exact O|]. apply IH; assumption.
Qed.
