(* Composition, part 2 (see Proofs/ComposeP.v): when Hello.PskIdentities agrees with the wire, and the input on which
   ApplyConfig without fixes/C13-no-supported-versions-extension.diff lets the client complete at a version
   the hello did not advertise. *)
From UV Require Import Base.Common Model.Wire Model.Ext Model.ExtSpec.
From UV Require Import Model.Marshal Model.ChMarshal.
From UV Require Import Model.WriteToUConn Proofs.ComposeP.
From UV Require Model.Negotiate Proofs.NegotiateP.

(* no session in play: the field starts empty (ApplyPreset makes a fresh hello), the cache holds no session, and the
   pre_shared_key extension - if any - writes nothing (UtlsPreSharedKeyExtension without session + OmitEmptyPsk) *)
Lemma psk_agree_no_session env marsh s es s' :
  apply_config env marsh s es = Ok s' -> we_cache_session env = false -> us_psk_ids s = [] -> psk_sent es = 0 ->
  psk_agree (finish false es s') es = true.
Proof.
  intros H Hc H0 Hs. destruct (apply_config_fields _ _ _ _ _ H) as (_ & _ & Hp).
  unfold psk_agree, finish. rewrite (Hp Hc), H0, Hs. reflexivity.
Qed.

(* a session was loaded (setPskToUConn ran) and the extension serialises its identities: both sides are its Identities *)
Lemma psk_agree_loaded es s e : find is_psk_ext es = Some e -> ext_absent e = false -> psk_agree (finish true es s) es = true.
Proof.
  intros Hf Ha. unfold psk_agree, finish, set_psk_to_uconn, psk_sent. rewrite Hf.
  destruct e; try (apply find_some in Hf; destruct Hf as [_ Hf]; discriminate); rewrite Ha; cbn; apply N.eqb_refl.
Qed.

(* FakePreSharedKeyExtension without a cached session: its Read sends the identities, its writeToUConn does not record
   them. The view then holds FEWER identities than the wire - the direction in which the client can only refuse more. *)
Example psk_disagree_fake :
  let es := [EFakePreSharedKey true [([1; 2; 3], 7)] [repeat 0 32]] in
  let h := {| h_vers := 771; h_random := repeat 1 32; h_sid := []; h_suites := [4865]; h_comp := [0] |} in
  let s := mkUS h [] false [] [] false [] false false [] false [771] [] [] [] [] false [] false [] [] 0 771 771 false in
  match apply_config (mkEnvW false) (Ok []) s es with
  | Ok s' => psk_agree s' es = false /\ us_psk_ids s' = [] /\ psk_sent es = 1
  | _ => False
  end.
Proof. vm_compute. repeat split; reflexivity. Qed.

(* C13 for the function as it was: same statement as compose_version_advertised *)
Definition version_statement_before : Prop :=
  forall env bbs padto s es raw s' ecdhe mlkem sess specmin fl st,
    wf_specb (us_hdr s) es = true -> forallb typed_ext es = true ->
    marshal_hello bbs padto (us_hdr s) es = Ok raw ->
    apply_config_before env (marshal_hello bbs padto (us_hdr s) es) s es = Ok s' ->
    specmin <= (if us_cfg_min s =? 0 then 771 else us_cfg_min s) ->
    Negotiate.client_run (view_of s' es ecdhe mlkem sess) fl = Negotiate.Complete st ->
    exists w, wire_of raw = Some w /\ In (Negotiate.cs_vers st) (Negotiate.advertised specmin w).

(* spec with TLSVersMin 1.2 / TLSVersMax 1.3 and no SupportedVersionsExtension: SetTLSVers leaves Config 1.2..1.3 and
   Hello.SupportedVersions [1.3; 1.2]; the hello goes out with legacy_version 1.2 only *)
Definition w13_hdr : hello_hdr :=
  {| h_vers := 771; h_random := repeat 7 32; h_sid := repeat 9 32; h_suites := [4865; 49199]; h_comp := [0] |}.
Definition w13_exts : list ext := [ESupportedCurves [29; 23]; EKeyShare [(29, repeat 5 32)]; ESignatureAlgorithms [1027; 2052]].
Definition w13_state : uconn_state :=
  mkUS w13_hdr [] false [] [] false [] false false [] false [772; 771] [] [] [] [] false [] false [] [] 0 771 772 false.
Definition w13_flight : Negotiate.flight :=
  Negotiate.mkFlight None (Negotiate.mkHello 771 772 0 (repeat 9 32) 4865 0 29 0 false None []) [] None None true.

Definition w13_raw : bytes :=
  match marshal_hello (fun _ => 512) 0%Z w13_hdr w13_exts with Ok raw => raw | _ => [] end.
Definition w13_after : uconn_state :=
  match apply_config_before (mkEnvW false) (Ok w13_raw) w13_state w13_exts with Ok s' => s' | _ => w13_state end.

(* every premise holds of this input by evaluation; the client completes at TLS 1.3, the hello advertises 1.2 only *)
Theorem version_before_refuted : ~ version_statement_before.
Proof.
  intros H.
  destruct (H (mkEnvW false) (fun _ => 512) 0%Z w13_state w13_exts w13_raw w13_after 29 false 0 771 w13_flight
              (Negotiate.mkState 772 4865 29 [] false false)) as (w & Hw & Hin);
    try (vm_compute; reflexivity); [vm_compute; discriminate|].
  assert (Hx : option_map (Negotiate.advertised 771) (wire_of w13_raw) = Some [771]) by (vm_compute; reflexivity).
  rewrite Hw in Hx. cbn [option_map] in Hx. inversion Hx as [Hy]. rewrite Hy in Hin.
  cbn [Negotiate.cs_vers] in Hin. destruct Hin as [Hin|[]]. discriminate.
Qed.

(* the fixed function refuses the same handshake *)
Example version_after_fix :
  match marshal_hello (fun _ => 512) 0%Z w13_hdr w13_exts with
  | Ok raw =>
    match apply_config (mkEnvW false) (Ok raw) w13_state w13_exts with
    | Ok s' => us_versions s' = [771]
               /\ Negotiate.client_run (view_of s' w13_exts 29 false 0) w13_flight = Negotiate.Abort Negotiate.a_protocol_version
    | _ => False
    end
  | _ => False
  end.
Proof. vm_compute. split; reflexivity. Qed.

(* starting from a ClientHelloSpec: ApplyPreset (Model/Preset.v), then the above *)
From UV Require Model.Preset Proofs.PresetP Gen.Parrots.

(* SetTLSVers u_conn.go:800: Hello.SupportedVersions = makeSupportedVersions(min, max) = [max .. min] *)
Definition make_versions (mn mx : N) : list N := filter (fun x => (mn <=? x) && (x <=? mx)) [772; 771; 770; 769].

(* The UConn after ApplyPreset, as far as ApplyConfig and the handshake's checks can tell: the header fields and
   Config.MinVersion/MaxVersion written by SetTLSVers, Hello.SupportedVersions likewise, no PSK identities (fresh hello),
   no ECH configuration. The fields ApplyConfig clears or the extensions overwrite are irrelevant (the theorems above
   hold for EVERY state); they are given as empty here. *)
Definition preset_state (h : hello_hdr) (mn mx : N) : uconn_state :=
  mkUS h [] false [] [] false [] false false [] false (make_versions mn mx) [] [] [] [] false [] false [] [] 0 mn mx false.

Lemma set_tls_vers_range sp mn mx : Preset.set_tls_vers sp = Ok (mn, mx) -> 769 <= mn /\ mn <= 772.
Proof.
  unfold Preset.set_tls_vers. match goal with |- bind ?r _ = _ -> _ => destruct r as [[a b]|c|c] end; cbn [bind]; try discriminate.
  unfold Preset.VersionTLS10, Preset.VersionTLS13.
  destruct ((a <? 769) || (772 <? a)) eqn:E1; [discriminate|].
  destruct ((b <? 769) || (772 <? b)) eqn:E2; [discriminate|].
  intros H; inversion H; subst. apply orb_false_iff in E1. lia.
Qed.

(* C13 for a spec: [mn] = the spec's minimum as SetTLSVers determines it (TLSVersMin; with both bounds 0 the lowest
   non-GREASE entry of its supported_versions extension, TLS 1.0 without one) *)
Theorem version_advertised_preset sp c fr h es mn mx env bbs padto raw s' load ecdhe mlkem sess fl st :
  Preset.apply_preset sp c fr = Ok (h, es) -> Preset.set_tls_vers sp = Ok (mn, mx) ->
  wf_specb h es = true -> forallb typed_ext es = true ->
  marshal_hello bbs padto h es = Ok raw ->
  apply_config env (marshal_hello bbs padto h es) (preset_state h mn mx) es = Ok s' ->
  Negotiate.client_run (view_of (finish load es s') es ecdhe mlkem sess) fl = Negotiate.Complete st ->
  exists w, wire_of raw = Some w /\ In (Negotiate.cs_vers st) (Negotiate.advertised mn w).
Proof.
  intros _ Hv Hwf Hty Hm Ha Hrun. destruct (set_tls_vers_range sp mn mx Hv) as [H1 H2].
  apply (compose_version_advertised env bbs padto (preset_state h mn mx) es raw s' load ecdhe mlkem sess Hwf Hty Hm Ha mn fl st); [|exact Hrun].
  cbn [preset_state us_cfg_min]. destruct (mn =? 0) eqn:E; lia.
Qed.

(* C12 for a spec: compression [0] is what ApplyPreset always writes (PresetP.compression_not_copied), the hello is fresh *)
Theorem synced_preset sp c fr h es mn mx env bbs padto raw s' load ecdhe mlkem sess :
  Preset.apply_preset sp c fr = Ok (h, es) ->
  wf_specb h es = true -> forallb typed_ext es = true ->
  marshal_hello bbs padto h es = Ok raw ->
  apply_config env (marshal_hello bbs padto h es) (preset_state h mn mx) es = Ok s' ->
  psk_agree (finish load es s') es = true ->
  exists w, wire_of raw = Some w /\ Negotiate.synced (view_of (finish load es s') es ecdhe mlkem sess) w = true.
Proof.
  intros Hp Hwf Hty Hm Ha Hpsk.
  apply (compose_synced env bbs padto (preset_state h mn mx) es raw s' load ecdhe mlkem sess Hwf Hty Hm Ha); [|exact Hpsk].
  cbn [preset_state us_hdr]. rewrite (PresetP.compression_not_copied sp c fr h es Hp). reflexivity.
Qed.

(* a shipped parrot through the whole chain, inside Coq *)
Definition ex_cfg : Preset.cfg :=
  {| Preset.c_sni := [97; 46; 105; 111]; Preset.c_omit_psk := true;
     Preset.c_min_version := 0; Preset.c_max_version := 0; Preset.c_next_protos := [] |}.
Definition ex_ech : Preset.ech_draw :=
  {| Preset.ed_cfg_idx := 0; Preset.ed_cfg_byte := 7; Preset.ed_suite_idx := 1; Preset.ed_enc := repeat 9 32;
     Preset.ed_plen_idx := 2; Preset.ed_payload := repeat 5 208 |}.
Definition ex_fresh : Preset.fresh :=
  {| Preset.f_random := repeat 1 32; Preset.f_grease := [16; 0; 32; 0; 48; 0; 48; 0; 64; 0]; Preset.f_sid := repeat 2 32;
     Preset.f_keys := [repeat 3 1216; repeat 4 32]; Preset.f_ech := [ex_ech] |}.

(* TLS 1.3 on X25519 with h2, certificate compressed with brotli; session id echoed *)
Definition ex_flight : Negotiate.flight :=
  Negotiate.mkFlight None (Negotiate.mkHello 771 772 0 (repeat 2 32) 4865 0 29 0 false None []) [104; 50] (Some 2) None true.

(* every premise of compose_synced / compose_version_advertised holds for Chrome_133 with these bytes, the conclusions hold
   by computation as well, and the client completes against ex_flight *)
Definition ex_chrome133 : bool :=
  match Preset.apply_preset (Preset.p_spec Parrots.p_Chrome_133) ex_cfg ex_fresh,
        Preset.set_tls_vers (Preset.p_spec Parrots.p_Chrome_133) with
  | Ok (h, es), Ok (mn, mx) =>
    wf_specb h es && forallb typed_ext es &&
    match marshal_hello (fun _ => 512) 0%Z h es with
    | Ok raw =>
      match apply_config (mkEnvW false) (Ok raw) (preset_state h mn mx) es, wire_of raw with
      | Ok s', Some w =>
        let v := view_of (finish false es s') es 29 true 0 in
        psk_agree (finish false es s') es && Negotiate.synced v w && Negotiate.versions_synced v mn w
        && Negotiate.offers13 w
        && match Negotiate.client_run v ex_flight with
           | Negotiate.Complete st => (Negotiate.cs_vers st =? 772) && (Negotiate.cs_suite st =? 4865) && (Negotiate.cs_group st =? 29)
           | _ => false
           end
      | _, _ => false
      end
    | _ => false
    end
  | _, _ => false
  end.

Lemma ex_chrome133_ok : ex_chrome133 = true.
Proof. vm_compute. reflexivity. Qed.

(* imported last, for the driver's closure scan only (see the end of Props/C12.v) *)
From UV Require Import Model.Preset Proofs.PresetP Gen.Parrots.
