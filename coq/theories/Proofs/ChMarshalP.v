(* C02: the (fixed) marshaller over the concrete extension types emits a valid ClientHello
   or returns an error.  Glue between
     - the generic marshal theorems of Proofs/MarshalP.v (framing for well-behaved extensions),
     - the per-extension layout theorem of Proofs/ExtP.v (Read = id || u16 len || RFC body),
     - the grammar lemmas of Proofs/StrictP.v. *)
From UV Require Import Base.Common Model.Wire Model.Varint Model.Ext Model.ExtSpec Model.Strict.
From UV Require Import Proofs.WireP Proofs.ExtP Proofs.StrictP.
From UV Require Import Model.Padding Model.Marshal Model.ChMarshal Proofs.MarshalP.

Lemma len_is_blen (b : bytes) : len b = blen b. Proof. reflexivity. Qed.

(* what a non-padding extension puts on the wire *)
Definition wire_of (e : ext) : bytes :=
  if ext_absent e then [] else enc_ext (ext_id e, ext_body e).

Definition is_padding (e : ext) : bool := match e with EPadding _ _ _ => true | _ => false end.

Lemma to_aext_nonpad padto e : is_padding e = false ->
  to_aext padto e = AExt (is_psk_ext e) (ext_len e) (fun b => ext_read e (len b)).
Proof. destruct e; try reflexivity. discriminate. Qed.

Lemma read_wire e n : wf_ext e = true -> ext_len e <= n -> ext_read e n = Ok (wire_of e).
Proof.
  intros Hwf Hn. destruct (wf_parts e Hwf) as (Hst & _ & _).
  rewrite (read_enough e n Hst Hn). pose proof (read_layout e Hwf) as H. unfold wire_of, enc_ext. cbn [fst snd].
  destruct (ext_absent e); apply H.
Qed.

Lemma emits_wire padto e : wf_ext e = true -> is_padding e = false -> emits (to_aext padto e) (wire_of e).
Proof.
  intros Hwf Hnp. rewrite (to_aext_nonpad padto e Hnp). cbn [emits]. destruct (wf_parts e Hwf) as (Hst & _ & _). split.
  - rewrite len_is_blen. apply (len_read e (ext_len e)); [exact Hst | apply read_wire; [exact Hwf | lia]].
  - intros s Hs. apply read_wire; [exact Hwf | exact Hs].
Qed.

Lemma aext_ok_of_wf padto e : wf_ext e = true -> aext_ok (to_aext padto e).
Proof.
  intros Hwf. destruct (is_padding e) eqn:Hp.
  - destruct e; try discriminate. exact I.
  - pose proof (emits_wire padto e Hwf Hp) as H. rewrite (to_aext_nonpad padto e Hp) in *. exists (wire_of e). exact H.
Qed.

(* the objects after the padding Update: every extension still stands for its spec entry *)
Definition rel (padto : Z) (e : ext) (x : aext) : Prop :=
  if is_padding e then exists pol st, x = APad pol st else x = to_aext padto e.

Lemma rel_map padto es : Forall2 (rel padto) es (map (to_aext padto) es).
Proof.
  induction es as [|e es IH]; cbn [map]; constructor; [|exact IH].
  unfold rel. destruct (is_padding e) eqn:Hp; [|reflexivity]. destruct e; try discriminate. cbn [to_aext]. eauto.
Qed.

Lemma rel_update padto u es xs : Forall2 (rel padto) es xs -> Forall2 (rel padto) es (update_padding u xs).
Proof.
  induction 1 as [|e x es xs Hr _ IH]; cbn [update_padding map]; constructor; [|exact IH].
  unfold rel in *. destruct (is_padding e) eqn:Hp.
  - destruct Hr as (pol & st & ->). eauto.
  - subst x. rewrite (to_aext_nonpad padto e Hp). reflexivity.
Qed.

Lemma prepare_rel padto h es p : marshal_prepare h (map (to_aext padto) es) = Ok p -> Forall2 (rel padto) es (pr_exts p).
Proof.
  intros H. destruct (prepare_inv _ _ _ H) as [[-> | ->] _]; [apply rel_map | apply rel_update, rel_map].
Qed.

Lemma prepare_no_panic h xs c : marshal_prepare h xs <> Panic c.
Proof.
  unfold marshal_prepare. pose proof (find_padding_count xs None) as H.
  destruct (find_padding xs None) as [pe| |]; cbn [bind]; [discriminate | discriminate | contradiction].
Qed.

Lemma zeros_zbytes n : zeros n = zbytes (N.to_nat n).
Proof. unfold zeros. induction (N.to_nat n) as [|k IH]; [reflexivity|]. cbn [repeat zbytes]. now rewrite IH. Qed.

Lemma pad_emit_wire st : pad_len st < 65536 ->
  pad_emit st = if p_will st then enc_ext (ID_PADDING, zbytes (N.to_nat (p_len st))) else [].
Proof.
  intros Hl. unfold pad_emit, pad_len in *. destruct (p_will st); [|reflexivity].
  unfold enc_ext, enc_u16lp, enc_u16, u8. cbn [fst snd]. rewrite blen_zbytes, N2Nat.id, zeros_zbytes. reflexivity.
Qed.

Definition present_ok (x : N * bytes) : Prop := fst x < 65536 /\ blen (snd x) < 65536.

Lemma block_of_outs padto es : forall xs outs,
  Forall (fun e => wf_ext e = true /\ rfc_ok e = true) es ->
  Forall2 (rel padto) es xs -> Forall2 emits xs outs -> len (concat outs) < 65536 ->
  exists present, concat outs = flat_map enc_ext present
    /\ subseq (map fst present) (map ext_id es)
    /\ Forall present_ok present
    /\ forallb (fun x => body_okb (fst x) (snd x)) present = true
    /\ (forall e, In e es -> is_padding e = false -> ext_absent e = false -> In (ext_id e, ext_body e) present).
Proof.
  induction es as [|e es IH]; intros xs outs Hwf Hrel Hem Hlen.
  - inversion Hrel; subst. inversion Hem; subst. exists []. repeat split; try constructor. intros e [].
  - inversion Hrel as [|? x ? xs' Hr Hrel']; subst. inversion Hem as [|? o ? outs' Ho Hem']; subst.
    inversion Hwf as [|? ? [Hw Hrfc] Hwf']; subst.
    cbn [concat] in Hlen. rewrite len_app in Hlen.
    destruct (IH xs' outs' Hwf' Hrel' Hem') as (present & Hcat & Hsub & Hok & Hbody & Hin); [lia|].
    assert (Hcase : (o = [] /\ (is_padding e = false -> ext_absent e = true))
                    \/ exists b, o = enc_ext (ext_id e, b) /\ present_ok (ext_id e, b) /\ body_okb (ext_id e) b = true
                                 /\ (is_padding e = false -> b = ext_body e)).
    { unfold rel in Hr. destruct (is_padding e) eqn:Hp.
      - destruct Hr as (pol & st & ->). cbn [emits] in Ho. subst o.
        destruct e; try discriminate. cbn [ext_id].
        assert (Hpl : pad_len st < 65536) by (rewrite <- len_pad_emit; lia).
        rewrite (pad_emit_wire st Hpl). destruct (p_will st) eqn:Hw'; [right | left; split; [reflexivity | discriminate]].
        exists (zbytes (N.to_nat (p_len st))). split; [reflexivity|]. split; [|split; [|discriminate]].
        + unfold present_ok, pad_len in *. cbn [fst snd]. rewrite Hw' in Hpl. rewrite blen_zbytes, N2Nat.id.
          (* here and below lia gets only what it needs: it translates every hypothesis of the context *)
          unfold ID_PADDING. clear -Hpl. lia.
        + rewrite bo_padding. apply all_zero_zbytes.
      - subst x. pose proof (emits_inj _ _ _ Ho (emits_wire padto e Hw Hp)) as ->. unfold wire_of. destruct (ext_absent e) eqn:Habs; [left; split; reflexivity | right].
        exists (ext_body e). split; [reflexivity|]. destruct (wf_parts e Hw) as (_ & Hf & Hl). split; [|split; [|reflexivity]].
        + unfold present_ok. cbn [fst snd]. split; [apply ext_id_u16; exact Hf|].
          pose proof (body_len e Hw Habs) as Hb. clear -Hb Hl. lia.
        + apply body_ok_ext; assumption. }
    destruct Hcase as [[-> Habs']|(b & -> & Hpo & Hbo & Hb)].
    + exists present. cbn [concat app map]. split; [exact Hcat|]. split; [constructor; exact Hsub|].
      split; [assumption|]. split; [assumption|].
      intros e' [<-|He'] Hp' Ha'; [rewrite (Habs' Hp') in Ha'; discriminate | apply Hin; assumption].
    + exists ((ext_id e, b) :: present). cbn [concat flat_map map forallb fst snd]. rewrite Hcat, Hbo, Hbody.
      split; [reflexivity|]. split; [constructor; exact Hsub|]. split; [constructor; assumption|]. split; [reflexivity|].
      intros e' [<-|He'] Hp' Ha'; [left; rewrite (Hb Hp'); reflexivity | right; apply Hin; assumption].
Qed.

Lemma u16be_small n : n < 65536 -> u16be (u16 n) = enc_u16 n.
Proof. intros H. unfold u16, u16be, enc_u16, u8. rewrite (N.mod_small n 65536 H). reflexivity. Qed.

Lemma layout_eq (h : hello_hdr) (has : bool) present (eb : bytes) :
  eb = flat_map enc_ext present -> len eb < 65536 -> 2 * blen (h_suites h) < 65536 ->
  let body := u16be (h_vers h) ++ h_random h ++ [u8 (len (h_sid h))] ++ h_sid h
              ++ u16be (u16 (len (suites_bytes (h_suites h)))) ++ suites_bytes (h_suites h)
              ++ [u8 (len (h_comp h))] ++ h_comp h
              ++ (if has then u16be (u16 (len eb)) ++ eb else []) in
  [typeClientHello] ++ u24be (len body) ++ body
  = hello_layout {| c_vers := h_vers h; c_random := h_random h; c_sid := h_sid h; c_suites := h_suites h;
                    c_comp := h_comp h; c_has_exts := has; c_exts := present |}.
Proof.
  intros Heb Hlen Hs body. unfold hello_layout. cbn [c_vers c_random c_sid c_suites c_comp c_has_exts c_exts].
  change ([typeClientHello] ++ u24be (len body) ++ body) with ([1] ++ enc_u24lp body). f_equal. f_equal.
  unfold body. change (suites_bytes (h_suites h)) with (flat_map enc_u16 (h_suites h)).
  rewrite len_is_blen, blen_flat_u16, (u16be_small _ Hs).
  rewrite <- Heb. rewrite (u16be_small _ Hlen).
  change (u16be (h_vers h)) with (enc_u16 (h_vers h)).
  unfold enc_u8lp, enc_u16lp, enc_u8, u8. rewrite blen_flat_u16, <- !len_is_blen.
  repeat rewrite <- app_assoc. reflexivity.
Qed.

Lemma wf_spec_parts h es : wf_specb h es = true ->
  h_vers h < 65536 /\ len (h_random h) = 32 /\ len (h_sid h) <= 32 /\ nonempty (h_suites h) = true
  /\ all_u16 (h_suites h) = true /\ nonempty (h_comp h) = true
  /\ Forall (fun e => wf_ext e = true /\ rfc_ok e = true) es
  /\ NoDup (map ext_id es) /\ psk_lastb (map ext_id es) = true.
Proof.
  unfold wf_specb, hdr_wfb. rewrite !andb_true_iff. intros [[[[[[[[H1 H2] H3] H4] H5] H6] H7] H8] H9].
  apply N.ltb_lt in H1. apply N.eqb_eq in H2. apply N.leb_le in H3.
  repeat split; try assumption.
  - apply Forall_forall. rewrite forallb_forall in H7. intros e He. specialize (H7 e He).
    apply andb_true_iff in H7. exact H7.
  - apply nodupb_spec. assumption.
Qed.

Lemma aext_ok_spec padto h es : wf_specb h es = true -> Forall aext_ok (map (to_aext padto) es).
Proof.
  intros Hwf. destruct (wf_spec_parts h es Hwf) as (_ & _ & _ & _ & _ & _ & Hall & _).
  apply Forall_forall. intros x Hx. apply in_map_iff in Hx. destruct Hx as (e & <- & He).
  rewrite Forall_forall in Hall. apply aext_ok_of_wf, (Hall e He).
Qed.

(* MarshalClientHelloNoECH up to the extension block: whatever list of (type, body) pairs the emitted block is the
   encoding of, the result is the layout of the header fields followed by that list *)
Lemma marshal_hello_block bbs padto h es p : wf_specb h es = true ->
  marshal_prepare h (map (to_aext padto) es) = Ok p -> fits h p = true ->
  exists outs, Forall2 emits (pr_exts p) outs /\ len (concat outs) < 65536
    /\ forall present, concat outs = flat_map enc_ext present -> Forall present_ok present ->
         forallb (fun x => body_okb (fst x) (snd x)) present = true ->
         marshal_hello bbs padto h es = Ok (hello_layout {| c_vers := h_vers h; c_random := h_random h; c_sid := h_sid h; c_suites := h_suites h;
                          c_comp := h_comp h; c_has_exts := nonempty es; c_exts := present |})
         /\ ast_ok {| c_vers := h_vers h; c_random := h_random h; c_sid := h_sid h; c_suites := h_suites h;
                          c_comp := h_comp h; c_has_exts := nonempty es; c_exts := present |}.
Proof.
  intros Hwf Hp Hfit.
  destruct (wf_spec_parts h es Hwf) as (Hv & Hr & Hsid & Hsne & Hsu & Hcne & Hall & Hnd & Hpsk).
  pose proof Hfit as F. unfold fits in F.
  set (aes := map (to_aext padto) es) in *.
  pose proof (aext_ok_spec padto h es Hwf) as Hok. fold aes in Hok.
  destruct (marshal_framing bbs h aes p Hr Hok Hp) as (body & eb & outs & Hm & Hbody & Heb & Hem & Hlen).
  destruct (prepare_ok h aes p Hok Hp) as (Htot & _ & Hnil & _).
  pose proof (emits_total _ _ Hem) as Hcat. rewrite Htot in Hcat.
  assert (Heblen : len eb < 65536) by (rewrite Heb, Hcat; clear -F; lia).
  exists outs. split; [exact Hem|]. split; [rewrite <- Heb; exact Heblen|]. intros present Hpres Hpok Hbok.
  assert (Hs2 : 2 * blen (h_suites h) < 65536) by (rewrite <- len_is_blen; clear -F; lia).
  assert (Hhas : match aes with [] => [] | _ :: _ => u16be (u16 (len eb)) ++ eb end
                 = if nonempty es then u16be (u16 (len eb)) ++ eb else []).
  { unfold aes. destruct es; reflexivity. }
  split.
  - unfold marshal_hello. fold aes. rewrite Hp. cbn [bind]. rewrite Hfit. cbn [negb].
    rewrite Hm. f_equal. rewrite Hhas in Hbody. rewrite Hbody.
    apply (layout_eq h (nonempty es) present eb); [rewrite Heb; exact Hpres | exact Heblen | exact Hs2].
  - unfold ast_ok. cbn [c_vers c_random c_sid c_suites c_comp c_has_exts c_exts].
    rewrite <- !len_is_blen.
    split; [exact Hv|]. split; [exact Hr|]. split; [exact Hsid|]. split; [exact Hsne|]. split; [exact Hsu|].
    split; [exact Hs2|]. split; [exact Hcne|]. split; [clear -F; unfold blen, len in *; lia|].
    destruct (nonempty es) eqn:Hne.
    + split; [exact Hpok|]. split; [exact Hbok|]. rewrite <- Hpres, <- Heb, <- len_is_blen. exact Heblen.
    + destruct es; [|discriminate]. specialize (Hnil eq_refl). rewrite Hnil in Hem. inversion Hem; subst outs.
      cbn [concat] in Hpres. destruct present as [|x pr]; [reflexivity|].
      exfalso. cbn [flat_map] in Hpres. unfold enc_ext, enc_u16 in Hpres. discriminate.
Qed.

Lemma marshal_hello_ok bbs padto h es p : wf_specb h es = true ->
  marshal_prepare h (map (to_aext padto) es) = Ok p -> fits h p = true ->
  exists present,
    marshal_hello bbs padto h es =
      Ok (hello_layout {| c_vers := h_vers h; c_random := h_random h; c_sid := h_sid h; c_suites := h_suites h;
                          c_comp := h_comp h; c_has_exts := nonempty es; c_exts := present |})
    /\ subseq (map fst present) (map ext_id es)
    /\ ast_ok {| c_vers := h_vers h; c_random := h_random h; c_sid := h_sid h; c_suites := h_suites h;
                 c_comp := h_comp h; c_has_exts := nonempty es; c_exts := present |}
    /\ (forall e, In e es -> is_padding e = false -> ext_absent e = false -> In (ext_id e, ext_body e) present).
Proof.
  intros Hwf Hp Hfit.
  destruct (marshal_hello_block bbs padto h es p Hwf Hp Hfit) as (outs & Hem & Hlen & Hblock).
  destruct (wf_spec_parts h es Hwf) as (_ & _ & _ & _ & _ & _ & Hall & _).
  destruct (block_of_outs padto es (pr_exts p) outs Hall (prepare_rel padto h es p Hp) Hem Hlen)
    as (present & Hpres & Hsub & Hpok & Hbok & Hin).
  destruct (Hblock present Hpres Hpok Hbok) as [Hm Hast].
  exists present. split; [exact Hm|]. split; [exact Hsub|]. split; [exact Hast | exact Hin].
Qed.

Lemma unchecked_nopad bbs padto h es : wf_specb h es = true -> Forall (fun e => is_padding e = false) es ->
  let aes := map (to_aext padto) es in
  marshal_hello_unchecked bbs padto h es =
    Ok (header_bytes h (match aes with [] => header_length h | _ => header_length h + (2 + total_len aes) end)
        ++ ext_block aes (total_len aes) (map wire_of es)).
Proof.
  intros Hwf Hnp aes. destruct (wf_spec_parts h es Hwf) as (_ & Hr & _ & _ & _ & _ & Hall & _).
  assert (Hnop : nopad aes).
  { apply Forall_map. refine (Forall_impl _ _ Hnp). intros e He. rewrite (to_aext_nonpad padto e He). reflexivity. }
  destruct (marshal_nopad bbs h aes Hr (aext_ok_spec padto h es Hwf) Hnop) as (outs & Hem & Hm).
  unfold marshal_hello_unchecked. fold aes. rewrite Hm. do 3 f_equal.
  (* what each extension emits is determined by it *)
  clear -Hall Hnp Hem. unfold aes in Hem. revert outs Hem.
  induction Hnp as [|e es He _ IH]; intros outs Hem; inversion Hem; subst; [reflexivity|].
  inversion Hall as [|? ? [Hw _] Hall']; subst. cbn [map].
  f_equal; [eapply emits_inj; [eassumption | apply emits_wire; assumption] | apply IH; assumption].
Qed.

Lemma valid_of_layout a types : ast_ok a -> subseq (ext_types a) types -> NoDup types -> psk_lastb types = true ->
  valid_ch (hello_layout a).
Proof.
  intros Hok Hsub Hnd Hpsk. exists a. split; [apply strict_parse_layout; exact Hok|]. split.
  - eapply subseq_NoDup; eassumption.
  - eapply subseq_psk_last; eassumption.
Qed.

Lemma npad_count padto es : (npad (map (to_aext padto) es) <= count_occ N.eq_dec (map ext_id es) ID_PADDING)%nat.
Proof.
  unfold npad. induction es as [|e es IH]; [reflexivity|]. cbn [map filter count_occ].
  destruct (is_padding e) eqn:Hp.
  - destruct e; try discriminate. cbn [to_aext a_is_pad length ext_id].
    destruct (N.eq_dec ID_PADDING ID_PADDING); [lia | contradiction].
  - rewrite (to_aext_nonpad padto e Hp). cbn [a_is_pad]. destruct (N.eq_dec _ _); lia.
Qed.

Lemma encodes_when_fits bbs padto h es : wf_specb h es = true -> spec_fitsb padto h es = true ->
  exists raw, marshal_hello bbs padto h es = Ok raw /\ valid_ch raw.
Proof.
  intros Hwf Hfit. unfold spec_fitsb in Hfit.
  destruct (marshal_prepare h (map (to_aext padto) es)) as [p|c|c] eqn:Hp; try discriminate.
  destruct (marshal_hello_ok bbs padto h es p Hwf Hp Hfit) as (present & Hm & Hsub & Hok & _).
  destruct (wf_spec_parts h es Hwf) as (_ & _ & _ & _ & _ & _ & _ & Hnd & Hpsk).
  eexists; split; [exact Hm | exact (valid_of_layout _ _ Hok Hsub Hnd Hpsk)].
Qed.

Lemma prepare_of_wf padto h es : wf_specb h es = true -> exists p, marshal_prepare h (map (to_aext padto) es) = Ok p.
Proof.
  intros Hwf. destruct (wf_spec_parts h es Hwf) as (_ & _ & _ & _ & _ & _ & _ & Hnd & _).
  (* extension types pairwise distinct: at most one of them is padding *)
  pose proof (proj1 (NoDup_count_occ N.eq_dec _) Hnd ID_PADDING) as H1. pose proof (npad_count padto es) as Hn.
  pose proof (find_padding_count (map (to_aext padto) es) None) as Hc.
  unfold marshal_prepare. destruct (find_padding _ None) as [pe| |]; cbn [bind]; [eauto | lia | contradiction].
Qed.

Lemma too_large_is_error bbs padto h es : spec_fitsb padto h es = false ->
  exists c, marshal_hello bbs padto h es = Err c.
Proof.
  unfold spec_fitsb, marshal_hello. destruct (marshal_prepare h (map (to_aext padto) es)) as [p|c|c] eqn:Hp; cbn [bind].
  - intros ->. cbn [negb]. eauto.
  - eauto.
  - exfalso. eapply prepare_no_panic; exact Hp.
Qed.

Lemma fits_hello_len padto h es p : marshal_prepare h (map (to_aext padto) es) = Ok p -> fits h p = true ->
  pr_hello_len p < 16777216.
Proof.
  intros Hp Hfit. unfold fits in Hfit.
  destruct (prepare_inv _ _ _ Hp) as [_ ->]. unfold header_length.
  destruct (map (to_aext padto) es); lia.
Qed.

Lemma ok_has_length bbs padto h es raw : marshal_hello bbs padto h es = Ok raw ->
  exists p, marshal_prepare h (map (to_aext padto) es) = Ok p /\ fits h p = true /\ len raw = 4 + pr_hello_len p.
Proof.
  unfold marshal_hello. destruct (marshal_prepare h (map (to_aext padto) es)) as [p|c|c] eqn:Hp; cbn [bind]; try discriminate.
  destruct (fits h p) eqn:Hfit; cbn [negb]; [|discriminate]. intros Hm.
  destruct (marshal_len_any bbs h _ raw Hm) as (p' & Hp' & Hl). rewrite Hp in Hp'. inversion Hp'; subst p'.
  exists p. auto.
Qed.
