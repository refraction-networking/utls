(* C19 — session resumption works and never breaks the next handshake.
   State of these files: they model the FIXED code (fixes/C19-ems-downgrade.diff applied:
   loadSession does not offer an extended-master-secret session in a hello without the extension).
   The HelloRetryRequest clause of the property is NOT true of the code for uTLS-built hellos
   (finding psk-hrr/<id>): stated in full, refuted, and proved under the strongest true condition. *)
From UV Require Import Base.Common Model.Resume Proofs.ResumeP.

(* After a history h of any length, c1 completes (full or resumed) at TLS 1.2 with session_ticket in the spec / TLS 1.3
   with pre_shared_key and psk_key_exchange_modes; c2 has the same parrot, name, server configuration; the stored
   session is unexpired at c2's time; no HelloRetryRequest unless the hello is built by crypto/tls. Then c2 offers
   exactly that session and resumes. *)
Theorem C19_resume_next : forall h c1 c2 v,
  let ca := final [] h in
  completed (snd (step ca c1)) = true ->
  negotiate (c_srv c1) (c_spec c1) = Some v ->
  can_resume (c_spec c1) (c_srv c1) v ->
  same_config c1 c2 -> spec_wf (c_spec c2) (c_omit c2) ->
  mem (c_suite c1) (sp_suites (c_spec c1)) = true ->
  (v = V13 -> hrr_ok c2) ->
  exists s, lookup (c_name c1) (fst (step ca c1)) = Some s /\
    (unexpired s (c_now c2) ->
      resumed (snd (step (fst (step ca c1)) c2)) = true /\
      exists k, o_offer (snd (step (fst (step ca c1)) c2)) = Some (k, s)).
Proof. intros h c1 c2 v ca. apply resume_next. Qed.
Print Assumptions C19_resume_next.

(* the same from an arbitrary cache state (a fortiori any reachable one) *)
Theorem C19_resume_next_any_cache : resume_next_stmt hrr_ok.
Proof. exact resume_next. Qed.
Print Assumptions C19_resume_next_any_cache.

(* "unexpired" is what one expects after a full handshake: 7 days, and the certificate's NotAfter *)
Theorem C19_unexpired_after_full : forall ca c v s now,
  completed (snd (step ca c)) = true -> resumed (snd (step ca c)) = false ->
  negotiate (c_srv c) (c_spec c) = Some v ->
  (v = V13 -> has_modes (c_spec c) = true) -> (v <> V13 -> has_ticket (c_spec c) = true) ->
  lookup (c_name c) (fst (step ca c)) = Some s ->
  now <= c_now c + LIFETIME -> now <= sv_notafter (c_srv c) -> unexpired s now.
Proof.
  intros ca c v s now Hc Hr Ng Hm Ht L T1 T2.
  destruct (step_stores ca c v Hc Ng Hm Ht) as (su & e & from & tc & L' & _ & F).
  assert (E : s = stored c v su e from tc) by congruence. subst s.
  destruct from as [s0|]; [destruct F; congruence|]. destruct F as [_ ->].
  unfold unexpired, stored. cbn [s_notafter s_useby s_ticket t_created]. auto.
Qed.
Print Assumptions C19_unexpired_after_full.

(* c1 completes; every connection of `rest` has c1's parrot, name, server, verify mode (follows), its clock in a
   window [B - 7 days, B] in which the session stored by c1 is unexpired, no HelloRetryRequest unless HelloGolang.
   Then each of them resumes and offers exactly the session its predecessor left under the cache key (chain_ok):
   the Go server issues a new ticket on every resumed connection (TLS 1.2 doResumeHandshake always; TLS 1.3 after
   each handshake), the client stores it, and the invariant (good session, unexpired until B) is re-established. *)
Theorem C19_resume_all : forall ca c1 rest v B,
  completed (snd (step ca c1)) = true ->
  negotiate (c_srv c1) (c_spec c1) = Some v ->
  can_resume (c_spec c1) (c_srv c1) v ->
  mem (c_suite c1) (sp_suites (c_spec c1)) = true ->
  (forall s, lookup (c_name c1) (fst (step ca c1)) = Some s -> unexpired s B) ->
  Forall (follows c1 v B) rest ->
  chain_ok (c_name c1) (fst (step ca c1)) rest.
Proof.
  intros ca c1 rest v B Hc Ng Cr Ms U F. destruct (can_resume_exts _ _ _ Cr) as [Hm Ht].
  destruct (step_stores ca c1 v Hc Ng Hm Ht) as (su & e & from & tc & L & G & _).
  apply (resume_chain c1 v B Ng Cr Ms); [|exact F]. eexists. split; [exact L|]. split; [exact G|]. apply U, L.
Qed.
Print Assumptions C19_resume_all.

(* the same with the window made explicit when c1 is a full handshake: B within 7 days of c1 and the certificate's NotAfter *)
Theorem C19_resume_all_after_full : forall ca c1 rest v B,
  completed (snd (step ca c1)) = true -> resumed (snd (step ca c1)) = false ->
  negotiate (c_srv c1) (c_spec c1) = Some v ->
  can_resume (c_spec c1) (c_srv c1) v ->
  mem (c_suite c1) (sp_suites (c_spec c1)) = true ->
  B <= c_now c1 + LIFETIME -> B <= sv_notafter (c_srv c1) ->
  Forall (follows c1 v B) rest ->
  chain_ok (c_name c1) (fst (step ca c1)) rest.
Proof.
  intros ca c1 rest v B Hc Hr Ng Cr Ms T1 T2 F. apply (C19_resume_all ca c1 rest v B Hc Ng Cr Ms); [|exact F].
  intros s L. destruct (can_resume_exts _ _ _ Cr) as [Hm Ht].
  exact (C19_unexpired_after_full ca c1 v s B Hc Hr Ng Hm Ht L T1 T2).
Qed.
Print Assumptions C19_resume_all_after_full.

(* arbitrary interleavings: a connection depends only on the entry under its own cache key *)
Theorem C19_step_local : forall ca1 ca2 c, lookup (c_name c) ca1 = lookup (c_name c) ca2 ->
  snd (step ca1 c) = snd (step ca2 c) /\ lookup (c_name c) (fst (step ca1 c)) = lookup (c_name c) (fst (step ca2 c)).
Proof. exact step_local. Qed.
Print Assumptions C19_step_local.

(* in any history of connections to different names / with different parrots sharing the cache, the connections with
   cache key k observe exactly what they would observe if the other connections had not happened *)
Theorem C19_interleave_local : forall h ca k,
  run_key k ca h = run ca (filter (fun c => c_name c =? k) h).
Proof. intros h ca k. apply interleave_local. reflexivity. Qed.
Print Assumptions C19_interleave_local.

(* including when the server answers with a HelloRetryRequest: full statement, refuted *)
Definition C19_resume_hrr_full : Prop := resume_next_stmt (fun _ => True).

Definition chrome_psk : spec :=
  mkSpec false [XOther; XEms; XTicket; XOther; XPskModes; XOther; XPsk] [V13; V12] [4865; 4866; 4867; 49195; 49199] [29; 23; 24] [29].
Definition chrome : spec :=
  mkSpec false [XOther; XEms; XTicket; XOther; XPskModes; XOther] [V13; V12] [4865; 4866; 4867; 49195; 49199] [29; 23; 24] [29].
Definition p360 : spec := mkSpec false [XOther; XTicket; XOther] [V12; V11; V10] [49195; 49199; 47] [23; 24; 25] [].
Definition golang : spec := mkSpec true [] [V13; V12] [4865; 4866; 4867; 49195; 49199] [4588; 29; 23; 24; 25] [4588; 29].
Definition srv12 : server := mkServer 7 [V12] [49195; 49199; 47] [4588; 29; 23; 24; 25] 5000000 [1; 2; 3; 4; 5; 6].
Definition srv13 : server := mkServer 7 [V13] [49195; 49199; 47] [4588; 29; 23; 24; 25] 5000000 [1; 2; 3; 4; 5; 6].
Definition srv13hrr : server := mkServer 7 [V13] [49195; 49199; 47] [24] 5000000 [1; 2; 3; 4; 5; 6].
Definition offer_code_ex (o : obs) : N := match o_offer o with None => 0 | Some (ViaTicket, _) => 1 | Some (ViaPsk, _) => 2 end.
Definition at_ (sp : spec) (sv : server) (name now suite : N) : conn := mkConn sp name 100 sv now true false suite 120 0 false.
Example C19_ex_chrome_psk_wf : spec_wf chrome_psk true.
Proof. intros _. split; [reflexivity|]. split; [vm_compute; apply le_n|]. intros _. reflexivity. Qed.

Theorem C19_resume_hrr_refuted : ~ C19_resume_hrr_full.
Proof.
  intros H.
  set (c1 := at_ chrome_psk srv13hrr 1 1000 4865). set (c2 := at_ chrome_psk srv13hrr 1 2000 4865).
  assert (H1 : completed (snd (step [] c1)) = true) by (vm_compute; reflexivity).
  assert (H2 : negotiate (c_srv c1) (c_spec c1) = Some V13) by reflexivity.
  assert (H3 : can_resume (c_spec c1) (c_srv c1) V13).
  { right. repeat split. vm_compute. discriminate. }
  assert (H4 : same_config c1 c2).
  { repeat split. }
  assert (H5 : spec_wf (c_spec c2) (c_omit c2)) by exact C19_ex_chrome_psk_wf.
  assert (H6 : mem (c_suite c1) (sp_suites (c_spec c1)) = true) by reflexivity.
  destruct (H [] c1 c2 V13 H1 H2 H3 H4 H5 H6 (fun _ => I)) as [s [L R]].
  vm_compute in L. inversion L; subst s. clear L.
  assert (U : unexpired (mkSession V13 4865 false 1000 605800 true 5000000 [1; 2; 3; 4; 5; 6] 1 (mkTicket 7 V13 4865 false 1000 120) false) (c_now c2)).
  { split; [|split]; apply N.leb_le; reflexivity. }
  destruct (R U) as [Rs _]. vm_compute in Rs. discriminate.
Qed.
Print Assumptions C19_resume_hrr_refuted.

(* strongest true condition: the hello is rebuilt by crypto/tls (HelloGolang), whatever the server's groups *)
Theorem C19_resume_hrr_holds_if : forall ca c1 c2,
  sp_go (c_spec c1) = true ->
  completed (snd (step ca c1)) = true ->
  negotiate (c_srv c1) (c_spec c1) = Some V13 ->
  selected_group (c_srv c1) (c_spec c1) <> None ->
  same_config c1 c2 ->
  mem (c_suite c1) (sp_suites (c_spec c1)) = true ->
  exists s, lookup (c_name c1) (fst (step ca c1)) = Some s /\
    (unexpired s (c_now c2) -> resumed (snd (step (fst (step ca c1)) c2)) = true).
Proof.
  intros ca c1 c2 G Hc Ng Sg Sc Ms.
  destruct (resume_next ca c1 c2 V13 Hc Ng) as [s [L R]]; try assumption.
  - right. unfold has_psk, has_modes. rewrite G. auto.
  - destruct Sc as [E _]. unfold spec_wf. rewrite E, G. discriminate.
  - intros _. left. destruct Sc as [E _]. rewrite E. exact G.
  - exists s. split; [exact L|]. intros U. apply R, U.
Qed.
Print Assumptions C19_resume_hrr_holds_if.

(* pre_shared_key is last; inserting the real binder leaves the hello length unchanged *)
Theorem C19_psk_last : forall ca c ca' off,
  build ca c = BOk ca' off true -> sp_go (c_spec c) = false -> exists l', sp_exts (c_spec c) = l' ++ [XPsk].
Proof.
  intros ca c ca' off H G. unfold build in H. rewrite G in H.
  destruct (psk_positions_ok (sp_exts (c_spec c))) eqn:P; [|destruct (1 <? count_ticket (sp_exts (c_spec c)))%nat; discriminate].
  destruct (has XPsk (sp_exts (c_spec c))) eqn:X; [apply psk_positions_last; assumption|].
  exfalso.
  destruct (l_sess (load_session ca c (has XEms (sp_exts (c_spec c))))) as [[k0 s0]|];
  cbv beta iota zeta in H;
  repeat match type of H with context [if ?b then _ else _] => destruct b eqn:? end; try discriminate.
Qed.
Print Assumptions C19_psk_last.

(* for every MAC whose output has the size of the suite's hash (HMAC does), every prefix (everything marshalled before
   the extension), every non-empty identity list: PatchBuiltHello succeeds, yields the same hello with the real binder,
   and the length is unchanged — uApplyPatch's length assertion cannot fire *)
Theorem C19_binder_len_invariant : forall (mac : N -> bytes -> bytes -> bytes),
  (forall su k t, length (mac su k t) = N.to_nat (hash_len su)) ->
  forall prefix ids su key, ids <> [] ->
    let old := [placeholder su] in
    let raw := prefix ++ psk_ext ids old in
    let new := [mac su key (firstn (length raw - N.to_nat (2 + binders_len old)) raw)] in
    patch raw old new = Ok (prefix ++ psk_ext ids new) /\ length (prefix ++ psk_ext ids new) = length raw.
Proof. exact binder_len_invariant. Qed.
Print Assumptions C19_binder_len_invariant.

(* c_name is the real key function clientSessionCacheKey: Config.ServerName exactly as configured when non-empty
   (DNS name, name with a trailing dot, IPv4/IPv6 literal: no normalisation), else the remote address.
   In every history from an empty cache every offered session was stored by a connection with the same key *)
Theorem C19_no_cross_name : forall h, offers_ok same_name h (run [] h).
Proof. intros h. apply (no_cross_name_run h []). constructor. Qed.
Print Assumptions C19_no_cross_name.

(* ... and two connections with different non-empty ServerNames never have the same key, whatever their remote
   addresses; a connection without ServerName is keyed by its remote address *)
Theorem C19_key_separates_names : forall c1 c2,
  c_sname c1 <> 0 -> c_sname c2 <> 0 -> c_sname c1 <> c_sname c2 -> c_name c1 <> c_name c2.
Proof. unfold c_name. intros c1 c2 H1 H2 H3. apply N.eqb_neq in H1, H2. rewrite H1, H2. exact H3. Qed.
Print Assumptions C19_key_separates_names.

Theorem C19_key_function : forall c, c_name c = if c_sname c =? 0 then c_addr c else c_sname c.
Proof. reflexivity. Qed.

(* and a connection reads and writes only its own cache key *)
Theorem C19_cache_key_only : forall ca c k s,
  (o_offer (snd (step ca c)) = Some (k, s) -> lookup (c_name c) ca = Some s) /\
  (forall n, n <> c_name c -> lookup n (fst (step ca c)) = lookup n ca).
Proof. intros ca c k s. split; [intros H; apply (step_offer _ _ _ _ H)|apply step_other_keys]. Qed.
Print Assumptions C19_cache_key_only.

(* never an EMS session in a hello without extended_master_secret (any cache, any history) *)
Theorem C19_ems_safe : forall h ca, offers_ok ems_safe h (run ca h).
Proof.
  intros h ca. apply (run_invariant (fun _ => True) ems_safe); [|exact I]. intros ca0 c _. split; [exact I|].
  intros s Ho Hs. destruct (step_offer _ _ _ _ Ho) as [_ E]. apply E; [reflexivity|exact Hs].
Qed.
Print Assumptions C19_ems_safe.

(* the history that made the server abort before the fix: Chrome (EMS) then 360 (no EMS), one cache, TLS 1.2 *)
Example C19_ex_former_ems_witness :
  map (fun o => (offer_code_ex o, o_out o)) (run [] [at_ chrome srv12 1 1000 49195; at_ p360 srv12 1 2000 49195; at_ p360 srv12 1 3000 49195])
  = [(0, Done false); (0, Done false); (1, Done true)].
Proof. vm_compute. reflexivity. Qed.
Example C19_ex_resume12 : map resumed (run [] [at_ chrome srv12 1 1000 49195; at_ chrome srv12 1 2000 49195; at_ chrome srv12 2 2500 49195]) = [false; true; false].
Proof. vm_compute. reflexivity. Qed.
Example C19_ex_resume13 : map resumed (run [] [at_ chrome_psk srv13 1 1000 4865; at_ chrome_psk srv13 1 2000 4865; at_ chrome srv13 1 3000 4865]) = [false; true; false].
Proof. vm_compute. reflexivity. Qed.
Example C19_ex_expired : map resumed (run [] [at_ chrome_psk srv13 1 1000 4865; at_ chrome_psk srv13 1 700000 4865]) = [false; false].
Proof. vm_compute. reflexivity. Qed.
Example C19_ex_hrr_golang : map resumed (run [] [at_ golang srv13hrr 1 1000 4865; at_ golang srv13hrr 1 2000 4865]) = [false; true].
Proof. vm_compute. reflexivity. Qed.
Example C19_ex_hrr_psk : map o_out (run [] [at_ chrome_psk srv13hrr 1 1000 4865; at_ chrome_psk srv13hrr 1 2000 4865; at_ chrome_psk srv13hrr 1 3000 4865])
  = [Done false; CliErr E_PSK_HRR; Done false].
Proof. vm_compute. reflexivity. Qed.
(* the hypotheses of C19_resume_next hold for a concrete pair *)
Example C19_ex_hyps :
  let c1 := at_ chrome_psk srv13 1 1000 4865 in let c2 := at_ chrome_psk srv13 1 2000 4865 in
  completed (snd (step [] c1)) = true /\ negotiate srv13 chrome_psk = Some V13 /\ can_resume chrome_psk srv13 V13 /\
  same_config c1 c2 /\ spec_wf chrome_psk true /\ hrr_ok c2 /\
  (forall s, lookup 1 (fst (step [] c1)) = Some s -> unexpired s 2000).
Proof.
  cbv zeta. split; [vm_compute; reflexivity|]. split; [reflexivity|].
  split. { right. repeat split. vm_compute. discriminate. }
  split. { repeat split. }
  split. { exact C19_ex_chrome_psk_wf. }
  split. { right. reflexivity. }
  intros s L. vm_compute in L. inversion L; subst s. split; [|split]; apply N.leb_le; reflexivity.
Qed.
(* IP-literal names 4 / 5 reaching the same address 100; then no ServerName at all (InsecureSkipVerify), key = address *)
Example C19_ex_ip_names : map resumed (run [] [at_ golang srv13 4 1000 4865; at_ golang srv13 5 2000 4865; at_ golang srv13 4 3000 4865]) = [false; false; true].
Proof. vm_compute. reflexivity. Qed.
Example C19_ex_no_name :
  let c n t := mkConn golang n 100 srv13 t true true 4865 120 0 false in
  map resumed (run [] [c 0 1000; c 4 2000; c 0 3000; c 4 4000]) = [false; false; true; true].
Proof. vm_compute. reflexivity. Qed.
(* five connections: the chain resumes throughout (TLS 1.2 keeps the server-side creation time, TLS 1.3 refreshes it) *)
Example C19_ex_chain12 : map resumed (run [] (map (fun t => at_ chrome srv12 1 t 49195) [1000; 2000; 90000; 400000; 605000; 606000])) = [false; true; true; true; true; false].
Proof. vm_compute. reflexivity. Qed.
Example C19_ex_chain13 : map resumed (run [] (map (fun t => at_ chrome_psk srv13 1 t 4865) [1000; 2000; 90000; 400000; 605000; 1200000])) = [false; true; true; true; true; true].
Proof. vm_compute. reflexivity. Qed.
Example C19_ex_follows :
  let c1 := at_ chrome_psk srv13 1 1000 4865 in
  Forall (follows c1 V13 605800) [at_ chrome_psk srv13 1 2000 4865; at_ chrome_psk srv13 1 90000 4865; at_ chrome_psk srv13 1 605800 4865].
Proof.
  cbv zeta.
  assert (F : forall t, (t <=? 605800) = true -> (605800 <=? t + LIFETIME) = true ->
              follows (at_ chrome_psk srv13 1 1000 4865) V13 605800 (at_ chrome_psk srv13 1 t 4865)).
  { intros t H1 H2. split.
    { repeat split. }
    split. { exact C19_ex_chrome_psk_wf. }
    split. { intros _. right. reflexivity. }
    split; apply N.leb_le; assumption. }
  repeat constructor; apply F; reflexivity.
Qed.
Example C19_ex_interleave :
  let a t := at_ chrome srv12 1 t 49195 in let b t := at_ golang srv13 2 t 4865 in
  map resumed (run_key 1 [] [a 1000; b 1500; a 2000; b 2500; b 3000; a 3500]) = [false; true; true].
Proof. vm_compute. reflexivity. Qed.
(* a verifying client with InsecureServerNameToVerify = "*" (no host name check) or another name the leaf covers, and one
   with InsecureSkipTimeVerify after the leaf expired, still resume; a name the leaf does not cover is refused *)
Example C19_ex_verify_modes :
  let c vn st t := mkConn chrome 1 100 srv12 t true false 49195 120 vn st in
  (map resumed (run [] [c STAR false 1000; c STAR false 2000]),
   map resumed (run [] [c 2 false 1000; c 2 false 2000]),
   map resumed (run [] [c 0 true 5000001; c 0 true 5000002]),
   map o_out (run [] [c 77 false 1000]))
  = ([false; true], [false; true], [false; true], [CliErr E_CERT]).
Proof. vm_compute. reflexivity. Qed.
Example C19_ex_binder : psk_ext_len [mkIdent [1; 2; 3] 5] [placeholder 4866] = 4 + 2 + (2 + 3 + 4) + 2 + 49.
Proof. vm_compute. reflexivity. Qed.
