(* C07 — Spec importers never panic and valid captures always yield usable specs.

   State: the models describe /repo WITH fixes/C07-import-key-share-length.diff and
   fixes/C07-json-nil-members.diff; the statements below are the full ones. The code
   as shipped violates two of them; its witnesses are kept as C07_shipped_* (the
   [false] argument of import_hello / json_spec selects the shipped code). *)
From Coq Require Import String.
From UV Require Import Base.Common Model.Padding Model.Marshal.
From UV Require Import Model.Wire Model.Varint Model.Ext Model.FromRaw Model.Import Model.Json
  Model.SetVers Proofs.FromRawP Proofs.ImportP Proofs.JsonP.
Open Scope list_scope.

(* FingerprintClientHello / RawClientHello / FromRaw: any bytes, any flags *)
Theorem C07_no_panic_from_raw : forall (blunt real : bool) (raw : bytes) (p : N),
  from_raw blunt real raw <> Panic p.
Proof. intros blunt real raw. apply np_neq. exact (sat_np _ _ (from_raw_sat blunt real raw)). Qed.
Print Assumptions C07_no_panic_from_raw.

Theorem C07_no_panic_fingerprint : forall (f : fp_flags) (raw : bytes) (p : N),
  fingerprint f raw <> Panic p.
Proof. intros f raw. apply np_neq. exact (sat_np _ _ (fingerprint_sat f raw)). Qed.
Print Assumptions C07_no_panic_fingerprint.

(* every extension's Write (on the value ExtensionFromID makes; both PSK choices) *)
Theorem C07_no_panic_ext_write : forall (id : N) (body : bytes) (p : N),
  ext_write id body <> Panic p /\ ext_write_realpsk id body <> Panic p.
Proof.
  intros id body p. split; revert p; apply np_neq; [exact (ext_write_np id body) | exact (sat_np _ _ (ext_write_realpsk_sat id body))].
Qed.
Print Assumptions C07_no_panic_ext_write.

(* ImportTLSClientHello(FromJSON): any map (the key_share slice obeys len <= cap, as every Go slice) *)
Theorem C07_no_panic_import : forall (vmin vmax : N) (m : imap) (p : N),
  imap_ok m -> import_hello true vmin vmax m <> Panic p.
Proof. intros vmin vmax m p Hok. revert p. apply np_neq. exact (import_hello_np vmin vmax m Hok). Qed.
Print Assumptions C07_no_panic_import.

(* ClientHelloSpec.UnmarshalJSON / Fingerprinter.UnmarshalJSONClientHello: any decoded document,
   whatever the dicttls tables contain *)
Theorem C07_no_panic_json : forall (d_suite d_comp d_ext d_group d_point d_sig d_certcomp d_pskmode : string -> option N)
  (always_pad : bool) (v : jval) (p : N),
  json_spec d_suite d_comp d_ext d_group d_point d_sig d_certcomp d_pskmode true v <> Panic p /\
  json_fingerprint d_suite d_comp d_ext d_group d_point d_sig d_certcomp d_pskmode true always_pad v <> Panic p.
Proof.
  intros. split; revert p; apply np_neq; [apply json_spec_np | apply json_fingerprint_np].
Qed.
Print Assumptions C07_no_panic_json.

(* Whatever FingerprintClientHello accepts (in particular every syntactically valid ClientHello it
   accepts) yields a spec whose extensions, after any in-place update that keeps each object's
   type (what ApplyPreset does), are marshalled by MarshalClientHello without a panic, for every
   header, allocator behaviour of bytes.Buffer and padding target. *)
Theorem C07_valid_usable : forall (f : fp_flags) (raw : bytes) (s : spec),
  fingerprint f raw = Ok s ->
  forall (es' : list ext), applied (sp_exts s) es' ->
  forall (bbs : N -> N) (h : hello_hdr) (padto : Z) (p : N),
  marshal_client_hello bbs h (map (aext_of padto) es') <> Panic p.
Proof. intros f raw s Hf es' Ha bbs h padto. apply np_neq. exact (usable f raw s es' bbs h padto Hf Ha). Qed.
Print Assumptions C07_valid_usable.

(* Read of every non-QUIC extension stays inside the buffer it is given (the fact usability rests on) *)
Theorem C07_read_within_buffer : forall (e : ext) (n : N) (b : bytes), ext_read e n = Ok b -> blen b <= n.
Proof. exact ext_read_le. Qed.
Print Assumptions C07_read_within_buffer.

(* Applying a spec starts with UConn.SetTLSVers(TLSVersMin, TLSVersMax, Extensions) and
   makeSupportedVersions: no version pair (in particular no record-layer version / legacy_version
   pair FromRaw stored, in either order) and no extension list makes them panic; an unusable
   range is an ordinary error or a (useless) wrapped list. *)
Theorem C07_no_panic_set_tls_vers : forall (minV maxV : N) (es : list ext) (p : N),
  set_tls_vers minV maxV es <> Panic p.
Proof. intros minV maxV es. apply np_neq. exact (set_tls_vers_np minV maxV es). Qed.
Print Assumptions C07_no_panic_set_tls_vers.

Theorem C07_valid_usable_versions : forall (f : fp_flags) (raw : bytes) (s : spec) (p : N),
  fingerprint f raw = Ok s -> spec_set_tls_vers s <> Panic p.
Proof. intros f raw s p _. apply C07_no_panic_set_tls_vers. Qed.
Print Assumptions C07_valid_usable_versions.

Theorem C07_supported_versions_ordered_range : forall mn mx l,
  769 <= mn <= 772 -> 769 <= mx <= 772 -> mn <= mx ->
  make_supported_versions mn mx = Ok l -> N.of_nat (length l) = mx - mn + 1.
Proof.
  intros mn mx l Hn Hx Hle H. rewrite (make_supported_versions_len _ _ _ H). lia.
Qed.
Print Assumptions C07_supported_versions_ordered_range.

(* the code as shipped (findings F-07a, F-07b; replayed on the real code by the runner) *)
Definition C07_import_full_shipped : Prop :=
  forall vmin vmax m p, imap_ok m -> import_hello false vmin vmax m <> Panic p.
Theorem C07_shipped_import_refuted : ~ C07_import_full_shipped.
Proof.
  intros H. apply (H 0 0 (f07a_map [0; 29; 0] 3) P_SLICE).
  - cbn. lia.
  - exact unfixed_import_panics_slice.
Qed.
Print Assumptions C07_shipped_import_refuted.

Theorem C07_shipped_import_holds_if : forall d cap, blen d <= cap -> blen d mod 4 = 0 ->
  forall p, key_share_fixed_data false d cap <> Panic p.
Proof. intros d cap H1 H2. apply np_neq. exact (unfixed_key_share_np d cap H1 H2). Qed.
Print Assumptions C07_shipped_import_holds_if.

Definition C07_json_full_shipped : Prop :=
  forall (d : string -> option N) v p, json_spec d d d d d d d d false v <> Panic p.
Theorem C07_shipped_json_refuted : ~ C07_json_full_shipped.
Proof. intros H. exact (H (fun _ => None) (JObj []) P_NIL eq_refl). Qed.
Print Assumptions C07_shipped_json_refuted.

Theorem C07_shipped_json_holds_if : forall u,
  ju_suites u <> None -> ju_comp u <> None -> ju_exts u <> None -> forall p, chsju_spec false u <> Panic p.
Proof. intros u H1 H2 H3. apply np_neq. exact (unfixed_chsju_spec_np u H1 H2 H3). Qed.
Print Assumptions C07_shipped_json_holds_if.

(* the hypotheses are satisfiable, on non-trivial inputs *)
(* a record with a ClientHello: TLS 1.2, 2 suites (one GREASE), null compression,
   extensions: GREASE(empty), supported_groups [GREASE, x25519], padding(3 bytes), EMS *)
Definition ex_hello : bytes :=
  [22; 3; 1; 0; 74;  1; 0; 0; 70;  3; 3] ++ zbytes 32 ++ [0]
  ++ [0; 4; 10; 10; 19; 1] ++ [1; 0]
  ++ [0; 25] ++ [26; 26; 0; 0] ++ [0; 10; 0; 6; 0; 4; 42; 42; 0; 29] ++ [0; 21; 0; 3; 0; 0; 0] ++ [0; 23; 0; 0].

Example C07_ex_from_raw :
  fingerprint {| f_blunt := false; f_always_pad := true; f_real_psk := false |} ex_hello =
  Ok {| sp_suites := [2570; 4865]; sp_comp := [0];
        sp_exts := [EGREASE 2570 []; ESupportedCurves [2570; 29]; EPadding 0 false PadOther; EExtendedMasterSecret];
        sp_vmin := 769; sp_vmax := 771; sp_padto := Some 74%Z |}.
Proof. vm_compute. reflexivity. Qed.

(* `applied` holds for a genuinely updated list (GREASE value set, padding state recomputed) *)
Example C07_ex_applied :
  applied [EGREASE 2570 []; ESupportedCurves [2570; 29]; EPadding 0 false PadOther; EExtendedMasterSecret]
          [EGREASE 19018 []; ESupportedCurves [35466; 29]; EPadding 7 true PadOther; EExtendedMasterSecret].
Proof. repeat constructor. Qed.

Example C07_ex_imap_ok : imap_ok (f07a_map [10; 10; 0; 1; 0; 29; 0; 32] 8)
  /\ is_ok (import_hello true 0 0 (f07a_map [10; 10; 0; 1; 0; 29; 0; 32] 8)) = true.
Proof. split; [cbn; lia | vm_compute; reflexivity]. Qed.

(* the F-07a witness on the fixed code: refused with an error *)
Example C07_ex_f07a_fixed : import_hello true 0 0 (f07a_map [0; 29; 0] 3) = Err E_KEY_SHARE_LEN.
Proof. vm_compute. reflexivity. Qed.

(* the F-07b witnesses on the fixed code: an empty spec, no panic *)
Example C07_ex_f07b_fixed : forall d : string -> option N,
  json_spec d d d d d d d d true JNull =
    Ok {| sp_suites := []; sp_comp := []; sp_exts := []; sp_vmin := 0; sp_vmax := 0; sp_padto := None |}
  /\ is_ok (json_spec d d d d d d d d true (JObj [("cipher_suites"%string, JArr [])])) = true.
Proof. intros d. split; reflexivity. Qed.

Example C07_ex_shipped_holds_if_satisfiable :
  blen [10; 10; 0; 1] <= 4 /\ blen [10; 10; 0; 1] mod 4 = 0 /\
  key_share_fixed_data false [10; 10; 0; 1] 4 = Ok [0; 5; 10; 10; 0; 1; 0].
Proof. vm_compute. repeat split; intros; discriminate || reflexivity. Qed.

(* record-layer version 0x0303 above legacy_version 0x0301, no supported_versions: min > max.
   SetTLSVers does not panic; it installs a wrapped 65534-entry list (the build fails later with an error). *)
Example C07_ex_inverted_versions :
  match set_tls_vers 771 769 [] with Ok (mn, mx, sv) => (mn =? 771) && (mx =? 769) && (N.of_nat (length sv) =? 65535) | _ => false end = true
  /\ set_tls_vers 0 0 [ESupportedVersions [2570; 772; 771]] = Ok (771, 772, [772; 771])
  /\ set_tls_vers 768 771 [] = Err E_VERS_MIN.
Proof. repeat split; vm_compute; reflexivity. Qed.
