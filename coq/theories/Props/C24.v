(* C24 — QUIC transport parameters and varints encode losslessly. *)
From UV Require Import Base.Common Model.Varint Model.VarintTo Proofs.VarintP Proofs.VarintToP.

Definition two62 : N := 4611686018427387904.

(* Append emits an encoding that Read decodes back to x, leaving the rest. *)
Theorem C24_varint_roundtrip : forall x r, x < two62 ->
  exists bs, append x = Ok bs /\ read (bs ++ r) = Some (x, r).
Proof. exact append_read. Qed.
Print Assumptions C24_varint_roundtrip.

(* ... of exactly Len(x) bytes ... *)
Theorem C24_varint_len : forall x, x < two62 ->
  exists bs n, append x = Ok bs /\ vlen x = Ok n /\ N.of_nat (length bs) = n.
Proof. exact append_len. Qed.
Print Assumptions C24_varint_len.

(* ... and Len(x) is the minimal width among {1,2,4,8} whose 8w-2 payload bits hold x. *)
Theorem C24_varint_minimal : forall x n, vlen x = Ok n ->
  fits n x /\ (n = 1 \/ n = 2 \/ n = 4 \/ n = 8) /\
  forall w, (w = 1 \/ w = 2 \/ w = 4 \/ w = 8) -> fits w x -> n <= w.
Proof. exact vlen_minimal. Qed.
Print Assumptions C24_varint_minimal.

(* AppendWithLen emits exactly the requested width, decoding to x. *)
Theorem C24_withlen_wider : forall x l w r, vlen x = Ok l -> l < w -> (w = 2 \/ w = 4 \/ w = 8) ->
  exists bs, append_with_len x w = Ok bs /\ N.of_nat (length bs) = w /\ read (bs ++ r) = Some (x, r).
Proof. exact withlen_wider. Qed.
Print Assumptions C24_withlen_wider.

Theorem C24_withlen_exact : forall x l, vlen x = Ok l -> append_with_len x l = append x.
Proof. exact withlen_exact. Qed.
Print Assumptions C24_withlen_exact.

(* Values of 2^62 and above are refused by panic by all three encoders. *)
Theorem C24_refuse : forall x, two62 <= x ->
  append x = Panic P_NOFIT /\ vlen x = Panic P_NOFIT /\ forall w, is_panic (append_with_len x w) = true.
Proof. exact refuse. Qed.
Print Assumptions C24_refuse.

Theorem C24_withlen_bad_width : forall x w, w <> 1 -> w <> 2 -> w <> 4 -> w <> 8 ->
  append_with_len x w = Panic P_BADLEN.
Proof.
  intros x w H1 H2 H4 H8. unfold append_with_len.
  replace (w =? 1) with false by lia. replace (w =? 2) with false by lia.
  replace (w =? 4) with false by lia. replace (w =? 8) with false by lia. reflexivity.
Qed.
Theorem C24_withlen_too_small : forall x l w, (w = 1 \/ w = 2 \/ w = 4 \/ w = 8) -> vlen x = Ok l -> w < l ->
  append_with_len x w = Panic P_TOOSMALL.
Proof.
  intros x l w Hw Hl Hlt. unfold append_with_len. rewrite Hl. cbn [bind].
  replace (negb ((w =? 1) || (w =? 2) || (w =? 4) || (w =? 8))) with false
    by (destruct Hw as [-> | [-> | [-> | ->]]]; reflexivity).
  replace (l =? w) with false by lia. replace (w <? l) with true by lia. reflexivity.
Qed.
Print Assumptions C24_withlen_too_small.

(* Marshal of any parameter list parses back, entry by entry, to the list. *)
Theorem C24_tp_roundtrip : forall tps, Forall tp_ok tps ->
  exists bs, marshal_tps tps = Ok bs /\
  forall fuel, (length tps <= fuel)%nat -> parse_tps fuel bs = Some tps.
Proof. exact marshal_parse. Qed.
Print Assumptions C24_tp_roundtrip.

(* An id of 2^62 or more makes Marshal panic (never a truncated encoding). *)
Theorem C24_tp_refuse : forall tps, Exists (fun p => two62 <= fst p) tps ->
  Forall (fun p => N.of_nat (length (snd p)) < two62) tps ->
  is_panic (marshal_tps tps) = true.
Proof.
  induction tps as [|[id v] tps IH]; intros Hex Hall; [inversion Hex|].
  inversion Hall as [|p ps Hv Hrest]; subst. cbn [snd] in Hv.
  cbn [marshal_tps].
  destruct (N.lt_ge_cases id two62) as [Hlt|Hge].
  - destruct (append_read id [] Hlt) as (a & Ha & _). rewrite Ha. cbn [bind].
    destruct (append_read _ [] Hv) as (b & Hb & _). rewrite Hb. cbn [bind].
    inversion Hex as [? ? Hh|? ? Ht]; subst; [cbn [fst] in Hh; lia|].
    specialize (IH Ht Hrest). destruct (marshal_tps tps); try discriminate. reflexivity.
  - destruct (refuse id Hge) as (A & _). rewrite A. reflexivity.
Qed.
Print Assumptions C24_tp_refuse.

(* The same with a destination buffer that already holds data: the caller's bytes come back untouched,
   followed by the encoding (Append) ... *)
Theorem C24_append_to : forall b x r, x < two62 ->
  exists e, append_to b x = Ok (b ++ e) /\ append x = Ok e /\ read (e ++ r) = Some (x, r).
Proof. exact append_to_spec. Qed.
Print Assumptions C24_append_to.

(* ... and by exactly w bytes decoding to x, for every admissible width w >= Len(x) (AppendWithLen). *)
Theorem C24_withlen_to : forall b x l w r, vlen x = Ok l -> l <= w -> (w = 1 \/ w = 2 \/ w = 4 \/ w = 8) ->
  exists e, append_with_len_to b x w = Ok (b ++ e) /\ N.of_nat (length e) = w /\ read (e ++ r) = Some (x, r).
Proof. exact withlen_to_spec. Qed.
Print Assumptions C24_withlen_to.

Theorem C24_to_refuse : forall b x w, two62 <= x ->
  is_panic (append_to b x) = true /\ is_panic (append_with_len_to b x w) = true.
Proof.
  intros b x w H. destruct (refuse x H) as (A & _ & P). specialize (P w).
  unfold append_to, append_with_len_to. rewrite A. split; [reflexivity|].
  destruct (append_with_len x w); [discriminate|discriminate|reflexivity].
Qed.
Print Assumptions C24_to_refuse.

(* Marshal as written (buffer threaded through the loop) = the body of marshal_tps after the caller's bytes *)
Theorem C24_marshal_threaded : forall tps b,
  marshal_tps_to b tps = (do body <- marshal_tps tps; Ok (b ++ body)).
Proof. exact marshal_tps_to_spec. Qed.
Print Assumptions C24_marshal_threaded.

Example C24_ex_roundtrip : read (match append 16384 with Ok b => b | _ => [] end ++ [7]) = Some (16384, [7]).
Proof. vm_compute. reflexivity. Qed.
Example C24_ex_tp : Forall tp_ok [(27, [1;2;3]); (16741339, []); (4611686018427387903, [255])].
Proof. repeat constructor; cbn; lia. Qed.
Example C24_ex_withlen : vlen 300 = Ok 2 /\ 2 < 8.
Proof. split; [reflexivity | lia]. Qed.
Example C24_ex_withlen_to : append_with_len_to [222; 173] 37 4 = Ok [222; 173; 128; 0; 0; 37] /\ vlen 37 = Ok 1 /\ 1 <= 4.
Proof. split; [vm_compute; reflexivity|]. split; [reflexivity|lia]. Qed.
