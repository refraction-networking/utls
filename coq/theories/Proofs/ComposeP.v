(* Composition of the marshal side and the negotiation side (gap between C02/C08 and C12/C13): the client's view after
   UConn.ApplyConfig equals the offered sets parsed from the ClientHello that MarshalClientHelloNoECH emits for the same
   header fields and extension list.  The extension block on the wire is [wlist] of the list with the padding extension
   in the state Update left it in; each field the handshake consults is a last-writer-wins fold over the list on one
   side and the decoder of that type's body on the other. *)
From UV Require Import Base.Common Model.Wire Model.Varint Model.Ext Model.ExtSpec Model.Strict.
From UV Require Import Proofs.WireP Proofs.ExtP Proofs.StrictP.
From UV Require Import Model.Padding Model.Marshal Model.ChMarshal Proofs.MarshalP Proofs.ChMarshalP.
From UV Require Import Model.WriteToUConn.
From UV Require Model.Negotiate Proofs.NegotiateP.

(* the extension block: the (type, body) pairs of the list in order; these are ParrotSpec.wire_pair / wire_of / set_pad
   (convertible: ComposeC03.wlist_is_wire_of, setpad_is_set_pad), restated here so that this file does not need the oracle *)
Definition wpair (e : ext) : option (N * bytes) := if ext_absent e then None else Some (ext_id e, ext_body e).
Definition wlist (es : list ext) : list (N * bytes) :=
  flat_map (fun e => match wpair e with Some w => [w] | None => [] end) es.
Definition setpad (l : N) (w : bool) (e : ext) : ext := match e with EPadding _ _ pol => EPadding l w pol | _ => e end.

Definition padded (e e' : ext) : Prop := if is_padding e then exists pl pw, e' = setpad pl pw e else e' = e.

Lemma wlist_cons e es : wlist (e :: es) = (if ext_absent e then [] else [(ext_id e, ext_body e)]) ++ wlist es.
Proof. unfold wlist, wpair. cbn [flat_map]. destruct (ext_absent e); reflexivity. Qed.

Lemma setpad_nopad l w e : is_padding e = false -> setpad l w e = e.
Proof. destruct e; try reflexivity. discriminate. Qed.

Lemma setpad_id l w e : ext_id (setpad l w e) = ext_id e.
Proof. destruct e; reflexivity. Qed.

(* what the strict parser asks of one (type, body) pair *)
Definition entry_ok (x : N * bytes) : Prop := present_ok x /\ body_okb (fst x) (snd x) = true.

Lemma elem_out padto e x o : wf_ext e = true -> rfc_ok e = true -> rel padto e x -> emits x o -> len o < 65536 ->
  exists e', padded e e' /\ o = flat_map enc_ext (wlist [e']) /\ Forall entry_ok (wlist [e']).
Proof.
  intros Hw Hrfc Hr Ho Hlen. unfold rel, padded in *. destruct (is_padding e) eqn:Hp.
  - destruct Hr as (pol & st & ->). cbn [emits] in Ho. subst o. destruct e; try discriminate.
    exists (EPadding (p_len st) (p_will st) policy). split; [exists (p_len st), (p_will st); reflexivity|].
    assert (Hpl : pad_len st < 65536) by (rewrite <- len_pad_emit; exact Hlen).
    rewrite (pad_emit_wire st Hpl), wlist_cons. cbn [ext_absent ext_id ext_body wlist flat_map].
    destruct (p_will st) eqn:Hw'; cbn [negb flat_map app]; [|split; [reflexivity|constructor]].
    rewrite app_nil_r. split; [reflexivity|]. constructor; [|constructor]. split; [|rewrite bo_padding; apply all_zero_zbytes].
    unfold present_ok, pad_len in *. cbn [fst snd]. rewrite Hw' in Hpl. rewrite blen_zbytes, N2Nat.id. unfold ID_PADDING. lia.
  - subst x. exists e. split; [reflexivity|].
    rewrite (emits_inj _ _ _ Ho (emits_wire padto e Hw Hp)), wlist_cons. unfold ChMarshalP.wire_of. cbn [wlist flat_map]. destruct (ext_absent e) eqn:Habs; cbn [app flat_map].
    + split; [reflexivity|constructor].
    + rewrite app_nil_r. split; [reflexivity|]. constructor; [|constructor]. split; [|apply body_ok_ext; assumption].
      destruct (wf_parts e Hw) as (_ & Hf & Hl). unfold present_ok. cbn [fst snd]. split; [apply ext_id_u16; exact Hf|].
      pose proof (body_len e Hw Habs). lia.
Qed.

Lemma block_exact padto es : forall xs outs,
  Forall (fun e => wf_ext e = true /\ rfc_ok e = true) es ->
  Forall2 (rel padto) es xs -> Forall2 emits xs outs -> len (concat outs) < 65536 ->
  exists es', Forall2 padded es es' /\ concat outs = flat_map enc_ext (wlist es') /\ Forall entry_ok (wlist es').
Proof.
  induction es as [|e es IH]; intros xs outs Hwf Hrel Hem Hlen.
  - inversion Hrel; subst. inversion Hem; subst. exists []. repeat split; constructor.
  - inversion Hrel as [|? x ? xs' Hr Hrel']; subst. inversion Hem as [|? o ? outs' Ho Hem']; subst.
    inversion Hwf as [|? ? [Hw Hrfc] Hwf']; subst.
    cbn [concat] in Hlen. rewrite len_app in Hlen.
    destruct (IH xs' outs' Hwf' Hrel' Hem') as (es' & Hp & Hcat & Hok); [lia|].
    destruct (elem_out padto e x o Hw Hrfc Hr Ho) as (e' & Hpe & Ho' & Hoke); [lia|].
    exists (e' :: es'). split; [constructor; assumption|]. change (e' :: es') with ([e'] ++ es').
    unfold wlist in *. rewrite flat_map_app, flat_map_app. cbn [concat]. rewrite Hcat, Ho'.
    split; [reflexivity|]. apply Forall_app. split; assumption.
Qed.

(* at most one padding extension (extension types pairwise distinct): one padding state describes the whole list *)
Lemma padded_map es : forall es', NoDup (map ext_id es) -> Forall2 padded es es' -> exists pl pw, es' = map (setpad pl pw) es.
Proof.
  induction es as [|e es IH]; intros es' Hnd H; inversion H as [|? e' ? es'' He Hes]; subst; [exists 0, false; reflexivity|].
  cbn [map] in Hnd. inversion Hnd as [|? ? Hn Hnd']; subst. destruct (IH es'' Hnd' Hes) as (pl' & pw' & ->).
  unfold padded in He. destruct (is_padding e) eqn:Hp.
  - destruct He as (pl & pw & ->). exists pl, pw. cbn [map]. f_equal.
    assert (Hnp : forall x, In x es -> is_padding x = false).
    { intros x Hx. destruct (is_padding x) eqn:Hpx; [|reflexivity]. exfalso. apply Hn.
      destruct e; try discriminate. destruct x; try discriminate. exact (in_map ext_id es _ Hx). }
    apply map_ext_in. intros x Hx. rewrite !(setpad_nopad _ _ x (Hnp x Hx)). reflexivity.
  - subst e'. exists pl', pw'. cbn [map]. rewrite (setpad_nopad pl' pw' e Hp). reflexivity.
Qed.

Definition from_spec (es : list ext) (x : N * bytes) : Prop :=
  exists e, In e es /\ ext_id e = fst x /\ (is_padding e = false -> ext_absent e = false /\ snd x = ext_body e).

Lemma wlist_setpad pl pw es :
  subseq (map fst (wlist (map (setpad pl pw) es))) (map ext_id es)
  /\ (forall e, In e es -> is_padding e = false -> ext_absent e = false -> In (ext_id e, ext_body e) (wlist (map (setpad pl pw) es)))
  /\ Forall (from_spec es) (wlist (map (setpad pl pw) es)).
Proof.
  induction es as [|e es (IHs & IHf & IHr)]; [repeat split; [constructor | intros e [] | constructor]|].
  assert (IHr' : Forall (from_spec (e :: es)) (wlist (map (setpad pl pw) es))).
  { eapply Forall_impl; [|exact IHr]. intros x (e0 & Hin & H). exists e0. split; [right; exact Hin | exact H]. }
  cbn [map]. rewrite wlist_cons, setpad_id. destruct (ext_absent (setpad pl pw e)) eqn:Ha; cbn [app map fst].
  - split; [constructor; exact IHs|]. split; [|exact IHr'].
    intros x [<-|Hx] Hp Habs; [rewrite (setpad_nopad _ _ _ Hp) in Ha; congruence | apply IHf; assumption].
  - split; [constructor; exact IHs|]. split.
    + intros x [<-|Hx] Hp Habs; [left; rewrite (setpad_nopad _ _ _ Hp); reflexivity | right; apply IHf; assumption].
    + constructor; [|exact IHr']. exists e. split; [left; reflexivity|]. split; [reflexivity|].
      intros Hp. rewrite (setpad_nopad _ _ _ Hp) in *. split; [exact Ha | reflexivity].
Qed.

Definition mk_ast (h : hello_hdr) (es : list ext) (present : list (N * bytes)) : ch_ast :=
  {| c_vers := h_vers h; c_random := h_random h; c_sid := h_sid h; c_suites := h_suites h;
     c_comp := h_comp h; c_has_exts := nonempty es; c_exts := present |}.

(* ChMarshalP.marshal_hello_ok starting from the Ok result, with the extension block characterised exactly *)
Lemma marshal_shape bbs padto h es raw : wf_specb h es = true -> marshal_hello bbs padto h es = Ok raw ->
  exists present,
    raw = hello_layout (mk_ast h es present) /\ ast_ok (mk_ast h es present)
    /\ NoDup (map fst present)
    /\ (forall e, In e es -> is_padding e = false -> ext_absent e = false -> In (ext_id e, ext_body e) present)
    /\ Forall (from_spec es) present
    /\ (exists pl pw, present = wlist (map (setpad pl pw) es)).
Proof.
  intros Hwf Hraw. destruct (ok_has_length bbs padto h es raw Hraw) as (p & Hp & Hfit & _).
  destruct (wf_spec_parts h es Hwf) as (_ & _ & _ & _ & _ & _ & Hall & Hnd & _).
  destruct (marshal_hello_block bbs padto h es p Hwf Hp Hfit) as (outs & Hem & Hlen & Hblock).
  destruct (block_exact padto es (pr_exts p) outs Hall (prepare_rel padto h es p Hp) Hem Hlen) as (es' & Hpad & Hpres & Hpok).
  destruct (padded_map es es' Hnd Hpad) as (pl & pw & ->).
  destruct (wlist_setpad pl pw es) as (Hsub & Hin & Hfrom).
  set (present := wlist (map (setpad pl pw) es)) in *.
  destruct (Hblock present Hpres) as [Hm Hast].
  { eapply Forall_impl; [|exact Hpok]. intros x Hx. apply Hx. }
  { apply forallb_forall. intros x Hx. rewrite Forall_forall in Hpok. apply (Hpok x Hx). }
  rewrite Hm in Hraw. injection Hraw as <-. exists present.
  split; [reflexivity|]. split; [exact Hast|]. split; [eapply subseq_NoDup; eassumption|].
  split; [exact Hin|]. split; [exact Hfrom | exists pl, pw; reflexivity].
Qed.

Lemma lookup_In id (l : list (N * bytes)) b : NoDup (map fst l) -> In (id, b) l -> lookup id l = Some b.
Proof.
  unfold lookup. induction l as [|[i c] l IH]; intros Hnd Hin; [destruct Hin|].
  cbn [find fst]. inversion Hnd as [|? ? Hn Hnd']; subst. destruct Hin as [Heq|Hin].
  - inversion Heq; subst. rewrite N.eqb_refl. reflexivity.
  - destruct (i =? id) eqn:E.
    + apply N.eqb_eq in E. subst i. exfalso. apply Hn. cbn [map fst]. apply in_map_iff. exists (id, b). auto.
    + apply IH; assumption.
Qed.

Lemma lookup_None id (l : list (N * bytes)) : (forall b, ~ In (id, b) l) -> lookup id l = None.
Proof.
  unfold lookup. induction l as [|[i c] l IH]; intros H; [reflexivity|]. cbn [find fst].
  destruct (i =? id) eqn:E.
  - apply N.eqb_eq in E. subst i. exfalso. apply (H c). left. reflexivity.
  - apply IH. intros b Hb. apply (H b). right. exact Hb.
Qed.

Section LastOf.
  Context {A : Type} (X : N) (get : ext -> option A).
  Definition last_of (es : list ext) (init : A) : A :=
    fold_left (fun acc e => match get e with Some a => a | None => acc end) es init.
  Hypothesis get_id : forall e a, get e = Some a -> ext_id e = X.

  Lemma last_of_none es init : (forall e, In e es -> get e = None) -> last_of es init = init.
  Proof.
    unfold last_of. revert init. induction es as [|e es IH]; intros init H; [reflexivity|].
    cbn [fold_left]. rewrite (H e (or_introl eq_refl)). apply IH. intros e' He'. apply H. right. exact He'.
  Qed.

  Lemma last_of_unique es init e a : NoDup (map ext_id es) -> In e es -> get e = Some a -> last_of es init = a.
  Proof.
    unfold last_of. revert init. induction es as [|x es IH]; intros init Hnd Hin Hg; [destruct Hin|].
    cbn [map] in Hnd. inversion Hnd as [|? ? Hn Hnd']; subst. cbn [fold_left].
    destruct Hin as [->|Hin].
    - rewrite Hg. apply last_of_none. intros e' He'. destruct (get e') as [a'|] eqn:E; [|reflexivity].
      exfalso. apply Hn. rewrite (get_id _ _ Hg), <- (get_id _ _ E). apply in_map. exact He'.
    - apply IH; assumption.
  Qed.
End LastOf.

(* the decoders of harness/hs/wire.go invert the reference layouts of the typed extensions *)

Lemma all_lt_u16 l : all_lt 65536 l = all_u16 l. Proof. reflexivity. Qed.

Lemma dec_curves l : wf_ext (ESupportedCurves l) = true -> u16s_of_u16lp (ext_body (ESupportedCurves l)) = l.
Proof.
  intros Hw. destruct (wf_parts _ Hw) as (_ & Hf & Hl). cbn [fields_ok ext_len ext_body] in *.
  unfold u16s_of_u16lp, u16s_body. rewrite read_enc_u16lp_nil by (rewrite blen_flat_u16; lia).
  cbn [exact obind]. rewrite read_u16s_flat by exact Hf. reflexivity.
Qed.

Lemma dec_u8lp l : all_lt 65536 l = true -> 2 * blen l < 256 -> u16s_of_u8lp (enc_u8lp (flat_map enc_u16 l)) = l.
Proof.
  intros Ha Hl. unfold u16s_of_u8lp. rewrite read_enc_u8lp_nil by (rewrite blen_flat_u16; exact Hl).
  cbn [exact obind]. rewrite read_u16s_flat by exact Ha. reflexivity.
Qed.

Lemma dec_ccalgs l : wf_ext (ECompressCert l) = true -> u16s_of_u8lp (ext_body (ECompressCert l)) = l.
Proof.
  intros Hw. destruct (wf_parts _ Hw) as (_ & Hf & Hl). cbn [fields_ok ext_len ext_body] in *.
  apply andb_true_iff in Hf. destruct Hf as [Hf1 Hf2]. apply dec_u8lp; [exact Hf1 | lia].
Qed.

Lemma dec_versions l : wf_ext (ESupportedVersions l) = true -> u16s_of_u8lp (ext_body (ESupportedVersions l)) = l.
Proof.
  intros Hw. destruct (wf_parts _ Hw) as (_ & Hf & Hl). cbn [fields_ok ext_len ext_body] in *.
  apply andb_true_iff in Hf. destruct Hf as [Hf1 Hf2]. apply dec_u8lp; [exact Hf1 | lia].
Qed.

Lemma dec_alpn ps : wf_ext (EALPN ps) = true -> protos_of (ext_body (EALPN ps)) = ps.
Proof.
  intros Hw. destruct (wf_parts _ Hw) as (_ & Hf & Hl). cbn [fields_ok ext_len ext_body] in *.
  unfold protos_of, protos_body. rewrite read_enc_u16lp_nil by (rewrite blen_protos_spec; lia).
  cbn [exact obind]. rewrite read_u8lps_flat; [reflexivity| |apply le_n].
  unfold all_u8lp. rewrite forallb_forall in *. intros p Hp. rewrite (Hf p Hp). reflexivity.
Qed.

Definition share_enc (k : N * bytes) : bytes := enc_u16 (fst k) ++ enc_u16lp (snd k).

Lemma share_item_enc (k : N * bytes) r : fst k < 65536 /\ blen (snd k) < 65536 -> share_item (share_enc k ++ r) = Some (fst k, r).
Proof.
  intros [Hg Hd]. unfold share_item, share_enc. rewrite <- app_assoc, read_enc_u16 by exact Hg. cbn [obind].
  rewrite read_enc_u16lp by exact Hd. reflexivity.
Qed.

Lemma dec_shares ks : wf_ext (EKeyShare ks) = true -> share_groups_of (ext_body (EKeyShare ks)) = map fst ks.
Proof.
  intros Hw. destruct (wf_parts _ Hw) as (_ & Hg & Hl). cbn [fields_ok ext_len ext_body] in *.
  change (share_groups_of (enc_u16lp (flat_map share_enc ks)) = map fst ks). unfold share_groups_of.
  assert (Hb : blen (flat_map share_enc ks) = key_shares_len ks).
  { rewrite blen_flat_map. unfold key_shares_len. apply sum_map_ext. intros k. unfold share_enc.
    rewrite blen_app, blen_enc_u16, blen_enc_u16lp. lia. }
  rewrite read_enc_u16lp_nil by (rewrite Hb; lia). cbn [exact obind].
  rewrite (items_flat share_enc share_item fst (fun k => fst k < 65536 /\ blen (snd k) < 65536) share_item_enc);
    [reflexivity | | | apply le_n].
  - intros k _. unfold share_enc, enc_u16. discriminate.
  - apply Forall_forall. intros k Hk. rewrite forallb_forall in Hg. specialize (Hg k Hk). split; [lia|].
    pose proof (sum_map_ge (fun k => 4 + blen (snd k)) ks k Hk) as Hs. unfold key_shares_len in Hl. cbv beta in Hs. lia.
Qed.

Definition psk_id_enc (i : psk_identity) : bytes := enc_u16lp (fst i) ++ enc_u32 (snd i).

Lemma psk_id_item_enc2 (i : psk_identity) r : blen (fst i) < 65536 /\ snd i < 4294967296 ->
  WriteToUConn.psk_id_item (psk_id_enc i ++ r) = Some (tt, r).
Proof.
  intros [Hl Ha]. unfold WriteToUConn.psk_id_item, psk_id_enc. rewrite <- app_assoc, read_enc_u16lp by exact Hl. cbn [obind].
  rewrite read_enc_u32 by exact Ha. reflexivity.
Qed.

Lemma dec_psk (ids : list psk_identity) (bs : list bytes) :
  forallb (fun i => snd i <? 4294967296) ids = true -> blen (psk_body ids bs) < 65536 ->
  psk_count_of (psk_body ids bs) = N.of_nat (length ids).
Proof.
  intros Ha Hl. unfold psk_count_of, psk_body in *. fold psk_id_enc in *.
  change (fun i : psk_identity => enc_u16lp (fst i) ++ enc_u32 (snd i)) with psk_id_enc in *.
  rewrite blen_app, !blen_enc_u16lp in Hl.
  rewrite read_enc_u16lp by lia.
  rewrite (items_flat psk_id_enc WriteToUConn.psk_id_item (fun _ => tt)
             (fun i => blen (fst i) < 65536 /\ snd i < 4294967296) psk_id_item_enc2); [| | |apply le_n].
  - cbn [or_nil]. rewrite map_length. reflexivity.
  - intros i _. unfold psk_id_enc, enc_u16lp, enc_u16. discriminate.
  - apply Forall_forall. intros i Hi. rewrite forallb_forall in Ha. specialize (Ha i Hi). split; [|lia].
    rewrite blen_flat_map in Hl.
    pose proof (sum_map_ge (fun x : bytes * N => blen (enc_u16lp (fst x) ++ enc_u32 (snd x))) ids i Hi) as Hs. cbv beta in Hs.
    rewrite blen_app, blen_enc_u16lp, blen_enc_u32 in Hs. lia.
Qed.

Lemma dec_psk_ext e : is_psk_ext e = true -> wf_ext e = true -> ext_absent e = false ->
  psk_count_of (ext_body e)
  = match e with EUtlsPreSharedKey _ _ _ ids _ | EFakePreSharedKey _ ids _ => N.of_nat (length ids) | _ => 0 end.
Proof.
  intros Hp Hw Ha. pose proof (body_len e Hw Ha) as Hbl. destruct (wf_parts _ Hw) as (_ & Hf & Hl).
  destruct e; try discriminate; cbn [fields_ok ext_body] in *;
    rewrite !andb_true_iff in Hf; destruct Hf as [[Hf1 _] _]; apply dec_psk; try exact Hf1; lia.
Qed.

Definition get_curves (e : ext) : option (list N) := match e with ESupportedCurves l => Some l | _ => None end.
Definition get_shares (e : ext) : option (list (N * bytes)) := match e with EKeyShare ks => Some ks | _ => None end.
Definition get_alpn (e : ext) : option (list bytes) := match e with EALPN ps => Some ps | _ => None end.
Definition get_ccalgs (e : ext) : option (list N) := match e with ECompressCert l => Some l | _ => None end.
Definition get_versions (e : ext) : option (list N) := match e with ESupportedVersions l => Some l | _ => None end.

(* s' is s after the writeToUConn of the extensions es, in the fields that nothing else between ApplyConfig and the
   marshal writes: the header and Config fields are untouched, each offered list holds what its last writer left *)
Definition written (es : list ext) (s s' : uconn_state) : Prop :=
  us_hdr s' = us_hdr s /\ us_cfg_min s' = us_cfg_min s /\ us_cfg_max s' = us_cfg_max s /\ us_cfg_ech s' = us_cfg_ech s
  /\ us_curves s' = last_of get_curves es (us_curves s)
  /\ us_shares s' = last_of get_shares es (us_shares s)
  /\ us_alpn s' = last_of get_alpn es (us_alpn s)
  /\ us_ccalgs s' = last_of get_ccalgs es (us_ccalgs s).

Lemma write_step env marsh e s s1 : write_to_uconn env marsh e s = Ok s1 ->
  written [e] s s1 /\ us_versions s1 = last_of get_versions [e] (us_versions s)
  /\ (we_cache_session env = false -> us_psk_ids s1 = us_psk_ids s).
Proof.
  intros H. unfold written. destruct e; cbn [write_to_uconn] in H;
  try (inversion H; subst s1; repeat split; reflexivity).
  - (* renegotiation_info *) inversion H; subst s1. destruct ((renegotiation =? 1) || (renegotiation =? 2)); repeat split; reflexivity.
  - (* fake psk *) destruct (we_cache_session env) eqn:E; inversion H; subst s1; repeat split; try reflexivity; discriminate.
  - (* GREASE ECH *) destruct marsh as [b|c|c]; cbn [bind] in H; try discriminate. inversion H; subst s1. repeat split; reflexivity.
Qed.

Lemma write_all_proj env marsh es : forall s s', write_all env marsh es s = Ok s' ->
  written es s s' /\ us_versions s' = last_of get_versions es (us_versions s)
  /\ (we_cache_session env = false -> us_psk_ids s' = us_psk_ids s).
Proof.
  induction es as [|e es IH]; intros s s' H; cbn [write_all] in H.
  - inversion H; subst s'. repeat split; reflexivity.
  - destruct (write_to_uconn env marsh e s) as [s1|c|c] eqn:E; cbn [bind] in H; try discriminate.
    destruct (write_step env marsh e s s1 E) as ((A & Amin & Amax & Aech & A1 & A2 & A3 & A4) & A5 & A6).
    destruct (IH s1 s' H) as ((B & Bmin & Bmax & Bech & B1 & B2 & B3 & B4) & B5 & B6).
    unfold written, last_of in *. cbn [fold_left] in *. rewrite <- A1, <- A2, <- A3, <- A4, <- A5.
    repeat split; try assumption; try congruence.
    intros Hc. rewrite (B6 Hc), (A6 Hc). reflexivity.
Qed.

(* closes [typed_ext e = true -> ext_id e = X -> ..] by cases on e: a GenericExtension / GREASE extension of a tracked type
   is not typed, every other constructor has its own type *)
Ltac typed_tac e :=
  destruct e; cbn [ext_id typed_ext]; intros Ht Hid; try discriminate; try (eexists; reflexivity);
  try (subst; cbn in Ht; discriminate);
  try (match goal with b : bool |- _ => destruct b; discriminate end).

Lemma typed_psk e : typed_ext e = true -> ext_id e = ID_PSK -> is_psk_ext e = true.
Proof. typed_tac e; reflexivity. Qed.

(* a field of the hello written by the typed extension [mk a] of type X, which is always sent, and by nothing else *)
Record tracked {A} (X : N) (get : ext -> option A) (mk : A -> ext) : Prop := {
  get_mk : forall e a, get e = Some a -> e = mk a;
  mk_get : forall a, get (mk a) = Some a;
  mk_sent : forall a, ext_id (mk a) = X /\ is_padding (mk a) = false /\ ext_absent (mk a) = false;
  typed_mk : forall e, typed_ext e = true -> ext_id e = X -> exists a, e = mk a
}.

Ltac tracked_tac :=
  split; [intros [] a; try discriminate; intros [= ->]; reflexivity | reflexivity | repeat split | intros e; typed_tac e].

Lemma tracked_curves : tracked ID_CURVES get_curves ESupportedCurves. Proof. tracked_tac. Qed.
Lemma tracked_shares : tracked ID_KEY_SHARE get_shares EKeyShare. Proof. tracked_tac. Qed.
Lemma tracked_alpn : tracked ID_ALPN get_alpn EALPN. Proof. tracked_tac. Qed.
Lemma tracked_ccalgs : tracked ID_COMPRESS_CERT get_ccalgs ECompressCert. Proof. tracked_tac. Qed.
Lemma tracked_versions : tracked ID_VERSIONS get_versions ESupportedVersions. Proof. tracked_tac. Qed.

(* one extension type: what the list writes into the hello = the decoder of what the block holds under that type *)
Section Block.
  Variables (es : list ext) (present : list (N * bytes)).
  Hypothesis Hall : Forall (fun e => wf_ext e = true /\ rfc_ok e = true) es.
  Hypothesis Hty : forallb typed_ext es = true.
  Hypothesis Hnd : NoDup (map ext_id es).
  Hypothesis Hndp : NoDup (map fst present).
  Hypothesis Hfwd : forall e, In e es -> is_padding e = false -> ext_absent e = false -> In (ext_id e, ext_body e) present.
  Hypothesis Hrev : Forall (from_spec es) present.

  Lemma lookup_unsent X : (forall e, In e es -> ext_id e <> X) -> lookup X present = None.
  Proof.
    intros H. apply lookup_None. intros b Hb. rewrite Forall_forall in Hrev.
    destruct (Hrev _ Hb) as (e & Hin & Hid & _). exact (H e Hin Hid).
  Qed.

  Lemma lookup_sent e : In e es -> is_padding e = false ->
    lookup (ext_id e) present = if ext_absent e then None else Some (ext_body e).
  Proof.
    intros Hin Hnp. destruct (ext_absent e) eqn:Ha.
    - apply lookup_None. intros b Hb. rewrite Forall_forall in Hrev.
      destruct (Hrev _ Hb) as (e' & Hin' & Hid' & Hx). cbn [fst] in Hid'.
      rewrite (NoDup_map_inj ext_id es e' e Hnd Hin' Hin Hid') in Hx. destruct (Hx Hnp) as [Hx1 _]. congruence.
    - apply (lookup_In _ _ _ Hndp). apply Hfwd; assumption.
  Qed.

  Section Field.
    Context {A B : Type} {X : N} {get : ext -> option A} {mk : A -> ext} (T : tracked X get mk) (f : A -> B) (dec : bytes -> B).
    Hypothesis dec_mk : forall a, wf_ext (mk a) = true -> dec (ext_body (mk a)) = f a.

    Lemma field_cases :
      (exists a, In (mk a) es /\ lookup X present = Some (ext_body (mk a)) /\ forall d, last_of get es d = a)
      \/ ((forall e, In e es -> ext_id e <> X) /\ lookup X present = None /\ forall d, last_of get es d = d).
    Proof.
      destruct T as [get_mk mk_get mk_sent typed].
      assert (get_id : forall e a, get e = Some a -> ext_id e = X) by (intros e a H; rewrite (get_mk _ _ H); apply mk_sent).
      destruct (find (fun e => ext_id e =? X) es) as [e|] eqn:Ef.
      - left. apply find_some in Ef. destruct Ef as [Hin Hid]. apply N.eqb_eq in Hid.
        rewrite forallb_forall in Hty. destruct (typed e (Hty e Hin) Hid) as (a & ->). exists a.
        destruct (mk_sent a) as (Ia & Pa & Sa). split; [exact Hin|]. split.
        + rewrite <- Ia, (lookup_sent _ Hin Pa), Sa. reflexivity.
        + intros d. exact (last_of_unique X get get_id es d (mk a) a Hnd Hin (mk_get a)).
      - right. assert (Hno : forall e, In e es -> ext_id e <> X).
        { intros e Hin Hid. pose proof (find_none _ _ Ef e Hin) as Hne. cbv beta in Hne. rewrite Hid, N.eqb_refl in Hne. discriminate. }
        split; [exact Hno|]. split; [exact (lookup_unsent X Hno)|]. intros d. apply last_of_none.
        intros e Hin. destruct (get e) as [a|] eqn:E; [|reflexivity]. exfalso. exact (Hno e Hin (get_id _ _ E)).
    Qed.

    Lemma field_sync d : f (last_of get es d) = via X present dec (f d).
    Proof.
      unfold via. destruct field_cases as [(a & Hin & Hl & Hlast)|(_ & Hl & Hlast)]; rewrite Hl, Hlast; [|reflexivity].
      symmetry. apply dec_mk. rewrite Forall_forall in Hall. apply (Hall _ Hin).
    Qed.
  End Field.

  Lemma curves_sync : last_of get_curves es [] = via ID_CURVES present u16s_of_u16lp [].
  Proof. exact (field_sync tracked_curves (fun l => l) _ dec_curves []). Qed.

  Lemma shares_sync : map fst (last_of get_shares es []) = via ID_KEY_SHARE present share_groups_of [].
  Proof. exact (field_sync tracked_shares (map fst) _ dec_shares []). Qed.

  Lemma alpn_sync : last_of get_alpn es [] = via ID_ALPN present protos_of [].
  Proof. exact (field_sync tracked_alpn (fun l => l) _ dec_alpn []). Qed.

  Lemma ccalgs_sync : last_of get_ccalgs es [] = via ID_COMPRESS_CERT present u16s_of_u8lp [].
  Proof. exact (field_sync tracked_ccalgs (fun l => l) _ dec_ccalgs []). Qed.

  (* a compress_certificate extension in the list: rfc_ok makes its list non-empty *)
  Lemma ccalgs_sent : existsb is_ccert_ext es = true -> last_of get_ccalgs es [] <> [].
  Proof.
    intros Hex. destruct (field_cases tracked_ccalgs) as [(a & Hin & _ & ->)|(Hno & _)].
    - rewrite Forall_forall in Hall. destruct (Hall _ Hin) as [_ Hr]. cbn [rfc_ok ext_absent orb] in Hr. destruct a; discriminate.
    - exfalso. apply existsb_exists in Hex. destruct Hex as (e & Hin & He). destruct e; try discriminate. exact (Hno _ Hin eq_refl).
  Qed.

  Lemma versions_sync d :
    if existsb is_versions_ext es
    then exists b, lookup ID_VERSIONS present = Some b /\ last_of get_versions es d = u16s_of_u8lp b /\ last_of get_versions es d <> []
    else lookup ID_VERSIONS present = None.
  Proof.
    destruct (field_cases tracked_versions) as [(a & Hin & Hl & Hlast)|(Hno & Hl & _)].
    - replace (existsb is_versions_ext es) with true by (symmetry; apply existsb_exists; exists (ESupportedVersions a); auto).
      rewrite Forall_forall in Hall. destruct (Hall _ Hin) as [Hw Hr].
      exists (ext_body (ESupportedVersions a)). rewrite Hlast, (dec_versions a Hw). split; [exact Hl|]. split; [reflexivity|].
      cbn [rfc_ok ext_absent orb] in Hr. destruct a; discriminate.
    - destruct (existsb is_versions_ext es) eqn:Hex; [|exact Hl]. exfalso.
      apply existsb_exists in Hex. destruct Hex as (e & Hin & He). destruct e; try discriminate. exact (Hno _ Hin eq_refl).
  Qed.

  Lemma psk_sync : psk_sent es = via ID_PSK present psk_count_of 0.
  Proof.
    unfold psk_sent, via. destruct (find is_psk_ext es) as [e|] eqn:Ef.
    - apply find_some in Ef. destruct Ef as [Hin Hp]. rewrite Forall_forall in Hall. destruct (Hall _ Hin) as [Hw _].
      assert (Hid : ext_id e = ID_PSK) by (destruct e; try discriminate; reflexivity).
      assert (Hnp : is_padding e = false) by (destruct e; try discriminate; reflexivity).
      rewrite <- Hid, (lookup_sent e Hin Hnp). pose proof (dec_psk_ext e Hp Hw) as Hd.
      destruct e; try discriminate; (destruct (ext_absent _); [reflexivity | symmetry; exact (Hd eq_refl)]).
    - rewrite lookup_unsent; [reflexivity|]. intros e Hin Hid. rewrite forallb_forall in Hty.
      pose proof (find_none _ _ Ef e Hin) as Hne. rewrite (typed_psk e (Hty e Hin) Hid) in Hne. discriminate.
  Qed.
End Block.

Lemma list_eqN_refl l : Negotiate.list_eqN l l = true.
Proof. apply bytes_eqb_eq. reflexivity. Qed.
Lemma list_eqB_refl l : Negotiate.list_eqB l l = true.
Proof. unfold Negotiate.list_eqB. induction l as [|x l IH]; [reflexivity|]. cbn [list_eqb]. rewrite IH, andb_true_r. apply bytes_eqb_eq. reflexivity. Qed.

Lemma last_of_map {A B} (f : A -> B) (get : ext -> option A) es init :
  last_of (fun e => option_map f (get e)) es (f init) = f (last_of get es init).
Proof.
  unfold last_of. revert init. induction es as [|e es IH]; intros init; [reflexivity|]. cbn [fold_left].
  destruct (get e) as [a|]; cbn [option_map]; apply IH.
Qed.

(* ApplyConfig = the writes on the cleared offers; Hello.SupportedVersions is the one field it may set itself *)
Lemma apply_config_fields env marsh s es s' : apply_config env marsh s es = Ok s' ->
  written es (clear_offers s) s'
  /\ (if existsb is_versions_ext es then us_versions s' = last_of get_versions es (us_versions s)
      else us_versions s' = filter (fun v => v <=? h_vers (us_hdr s)) (cfg_versions (us_cfg_min s) (us_cfg_max s) (us_cfg_ech s))
           /\ us_versions s' <> [])
  /\ (we_cache_session env = false -> us_psk_ids s' = us_psk_ids s).
Proof.
  unfold apply_config. destruct (write_all env marsh es (clear_offers s)) as [s1|c|c] eqn:E; cbn [bind]; try discriminate.
  destruct (write_all_proj env marsh es _ _ E) as (W & A5 & A6).
  destruct (existsb is_versions_ext es); [intros [= <-]; exact (conj W (conj A5 A6))|].
  pose proof W as (Ch & Cmin & Cmax & Cech & _). cbn in Ch, Cmin, Cmax, Cech. rewrite Ch, Cmin, Cmax, Cech.
  destruct (filter _ _) as [|v0 vs]; [discriminate|]. intros [= <-].
  split; [exact W|]. split; [split; [reflexivity | discriminate] | exact A6].
Qed.

(* uLoadSession (setPskToUConn) writes Hello.PskIdentities / PskBinders only *)
Lemma finish_written load es s0 s : written es s0 s ->
  written es s0 (finish load es s) /\ us_versions (finish load es s) = us_versions s.
Proof.
  intros W. unfold finish, set_psk_to_uconn. destruct load; [|exact (conj W eq_refl)].
  destruct (find is_psk_ext es) as [[]|]; exact (conj W eq_refl).
Qed.

Section Compose.
  Variables (env : wenv) (bbs : N -> N) (padto : Z) (s : uconn_state) (es : list ext) (raw : bytes) (s' : uconn_state).
  Variables (load : bool) (ecdhe : N) (mlkem : bool) (sess : N).
  Hypothesis Hwf : wf_specb (us_hdr s) es = true.
  Hypothesis Hty : forallb typed_ext es = true.
  Hypothesis Hraw : marshal_hello bbs padto (us_hdr s) es = Ok raw.
  Hypothesis Hcfg : apply_config env (marshal_hello bbs padto (us_hdr s) es) s es = Ok s'.

  Let sf := finish load es s'.
  Let v := view_of sf es ecdhe mlkem sess.

  Lemma compose_fields : exists present,
    wire_of raw = Some (wire_of_ast (mk_ast (us_hdr s) es present))
    /\ us_hdr sf = us_hdr s
    /\ us_curves sf = via ID_CURVES present u16s_of_u16lp []
    /\ map fst (us_shares sf) = via ID_KEY_SHARE present share_groups_of []
    /\ us_alpn sf = via ID_ALPN present protos_of []
    /\ us_ccalgs sf = via ID_COMPRESS_CERT present u16s_of_u8lp []
    /\ (existsb is_ccert_ext es = true -> us_ccalgs sf <> [])
    /\ psk_sent es = via ID_PSK present psk_count_of 0
    /\ (if existsb is_versions_ext es
        then exists b, lookup ID_VERSIONS present = Some b /\ us_versions sf = u16s_of_u8lp b /\ us_versions sf <> []
        else lookup ID_VERSIONS present = None
             /\ us_versions sf = filter (fun x => x <=? h_vers (us_hdr s)) (Negotiate.client_versions v)
             /\ us_versions sf <> []).
  Proof.
    destruct (marshal_shape bbs padto (us_hdr s) es raw Hwf Hraw) as (present & -> & Hok & Hndp & Hfwd & Hrev & _).
    assert (Hw : wire_of (hello_layout (mk_ast (us_hdr s) es present)) = Some (wire_of_ast (mk_ast (us_hdr s) es present)))
      by (unfold wire_of; rewrite (strict_parse_layout _ Hok); reflexivity).
    destruct (wf_spec_parts _ _ Hwf) as (_ & _ & _ & _ & _ & _ & Hall & Hnd & _).
    destruct (apply_config_fields _ _ _ _ _ Hcfg) as (W & A5 & _).
    pose proof (finish_written load es _ _ W) as F. fold sf in F. destruct F as ((Ch & Cmin & Cmax & Cech & A1 & A2 & A3 & A4) & F5).
    exists present. rewrite F5, A1, A2, A3, A4.
    split; [exact Hw|]. split; [exact Ch|].
    split; [apply curves_sync; assumption|]. split; [apply shares_sync; assumption|].
    split; [apply alpn_sync; assumption|]. split; [apply ccalgs_sync; assumption|].
    split; [eapply ccalgs_sent; eassumption|]. split; [apply psk_sync; assumption|].
    pose proof (versions_sync es present Hall Hty Hnd Hndp Hfwd Hrev (us_versions s)) as Hv.
    destruct (existsb is_versions_ext es); [rewrite A5; exact Hv|].
    destruct A5 as [A5 A5ne]. split; [exact Hv|]. split; [|exact A5ne].
    rewrite A5. unfold v, view_of, Negotiate.client_versions.
    cbn [Negotiate.cv_vmin Negotiate.cv_vmax Negotiate.cv_ech]. rewrite Cmin, Cmax, Cech. reflexivity.
  Qed.

  (* the view the handshake consults is the wire, for every header and extension list inside the C02 precondition *)
  Theorem compose_synced :
    Negotiate.memN 0 (h_comp (us_hdr s)) = true -> psk_agree sf es = true ->
    exists w, wire_of raw = Some w /\ Negotiate.synced v w = true.
  Proof.
    intros Hc0 Hpsk. destruct compose_fields as (present & Hw & E0 & E1 & E2 & E3 & E4 & E4ne & E5 & _).
    eexists; split; [exact Hw|].
    unfold Negotiate.synced, v, view_of, wire_of_ast, mk_ast.
    cbn [Negotiate.cv_suites Negotiate.cv_curves Negotiate.cv_shares Negotiate.cv_alpn Negotiate.cv_sid Negotiate.cv_psk
         Negotiate.cv_ccalgs Negotiate.cv_ccext Negotiate.w_suites Negotiate.w_groups Negotiate.w_shares Negotiate.w_alpn
         Negotiate.w_sid Negotiate.w_psk Negotiate.w_ccalgs Negotiate.w_comps c_vers c_suites c_comp c_sid c_exts].
    rewrite E0, E1, E2, E3, E4, <- E5, !list_eqN_refl, list_eqB_refl. cbn [andb].
    unfold psk_agree in Hpsk. rewrite Hpsk, Hc0. cbn [andb]. rewrite andb_true_r.
    destruct (existsb is_ccert_ext es) eqn:Ex; [|reflexivity]. cbn [implb].
    rewrite <- E4. specialize (E4ne eq_refl). destruct (us_ccalgs sf); [congruence|reflexivity].
  Qed.

  (* supported_versions. With the extension: Hello.SupportedVersions is the list on the wire. Without it
     (fixed ApplyConfig): the accepted versions up to legacy_version, not empty. *)
  Theorem compose_versions :
    exists w, wire_of raw = Some w /\ Negotiate.w_legacy w = h_vers (us_hdr s) /\
      if existsb is_versions_ext es
      then Negotiate.w_has_sv w = true /\ forall specmin, Negotiate.versions_synced v specmin w = true
      else Negotiate.w_has_sv w = false
           /\ Negotiate.cv_sv v = filter (fun x => x <=? h_vers (us_hdr s)) (Negotiate.client_versions v)
           /\ Negotiate.cv_sv v <> [].
  Proof.
    destruct compose_fields as (present & Hw & _ & _ & _ & _ & _ & _ & _ & E6).
    eexists; split; [exact Hw|]. split; [reflexivity|].
    destruct (existsb is_versions_ext es).
    - destruct E6 as (b & Hl & Hv & Hne). unfold Negotiate.versions_synced, wire_of_ast, via, mk_ast.
      cbn [Negotiate.w_has_sv Negotiate.w_sv c_exts]. rewrite Hl. split; [reflexivity|]. intros _.
      unfold v, view_of. cbn [Negotiate.cv_sv]. rewrite Hv, list_eqN_refl. cbn [andb].
      rewrite Hv in Hne. destruct (u16s_of_u8lp b); [congruence|reflexivity].
    - destruct E6 as (Hl & Hv & Hne). unfold wire_of_ast, mk_ast. cbn [Negotiate.w_has_sv c_exts]. rewrite Hl.
      split; [reflexivity|]. split; [exact Hv | exact Hne].
  Qed.

  (* C13 from the composition (versions_synced is derived, not assumed): a completed handshake is at an advertised version *)
  Theorem compose_version_advertised specmin fl st :
    specmin <= (if us_cfg_min s =? 0 then 771 else us_cfg_min s) ->
    Negotiate.client_run v fl = Negotiate.Complete st ->
    exists w, wire_of raw = Some w /\ In (Negotiate.cs_vers st) (Negotiate.advertised specmin w).
  Proof.
    intros Hmin Hrun. destruct compose_versions as (w & Hw & Hleg & Hv). exists w. split; [exact Hw|].
    destruct (existsb is_versions_ext es).
    - destruct Hv as [_ Hs]. apply (NegotiateP.version_fixed v specmin w fl st (Hs specmin) Hrun).
    - destruct Hv as (Hno & Hsv & Hne).
      destruct (NegotiateP.completed_version _ _ _ _ Hrun) as [Hin Hoff].
      unfold Negotiate.version_offered in Hoff. cbn [Negotiate.e_fix_version Negotiate.env_fixed] in Hoff.
      destruct (Negotiate.cv_sv v) as [|x0 xs] eqn:Esv; [congruence|].
      apply NegotiateP.memN_In in Hoff. rewrite Hsv in Hoff. apply filter_In in Hoff. destruct Hoff as [_ Hle].
      unfold Negotiate.advertised. rewrite Hno, Hleg. apply filter_In. split; [apply (NegotiateP.client_versions_sub v); exact Hin|].
      unfold Negotiate.client_versions in Hin. apply filter_In in Hin. destruct Hin as [_ Hf].
      assert (Hvm : Negotiate.cv_vmin v = us_cfg_min s).
      { destruct (finish_written load es _ _ (proj1 (apply_config_fields _ _ _ _ _ Hcfg))) as ((_ & Cmin & _) & _). exact Cmin. }
      rewrite Hvm in Hf. unfold Negotiate.V12 in Hf. destruct (us_cfg_min s =? 0) eqn:E0; lia.
  Qed.

End Compose.
