(* Complete.client_run10: the decision function with establishHandshakeKeys' key selection (fixed = true: with
   fixes/C18-keyshare-private-keys.diff, false: without). Every statement of Proofs/NegotiateP.v / NegotiateSessP.v quantifies over ALL views, and
   client_run10 is client_run_gen on a view that differs in cv_ecdhe only - a field neither [synced] nor any offered set
   mentions - so each one transfers by instantiating its view with [eff_view] (Props/C12.v). *)
From UV Require Import Base.Common Model.Negotiate Model.NegotiateSess Model.NegotiateKeys Proofs.NegotiateP Proofs.NegotiateSessP.
From UV Require Model.KeyShare Model.Complete.

Lemma run10_eff fixed e v ks fl :
  Complete.client_run10 fixed e v ks fl = client_run_gen e (eff_view fixed v ks fl) fl.
Proof. reflexivity. Qed.

Lemma synced_eff fixed v ks fl w : synced (eff_view fixed v ks fl) w = synced v w.
Proof. reflexivity. Qed.

Lemma sess10_none fixed e v ks ems fl :
  client_run_sess10 fixed e v ks None ems fl = Complete.client_run10 fixed e v ks fl.
Proof. reflexivity. Qed.

Lemma curve12_fixed10 fixed v ks w fl st c :
  synced v w = true -> Complete.client_run10 fixed env_fixed v ks fl = Complete st ->
  cs_vers st <> V13 -> f_skx fl = Some c -> In c (w_groups w).
Proof. exact (curve12_fixed (eff_view fixed v ks fl) w fl st c). Qed.

Lemma wire10_suite_sess fixed e v ks w sess ems fl st :
  synced v w = true -> client_run_sess10 fixed e v ks sess ems fl = Complete st -> In (cs_suite st) (w_suites w).
Proof. exact (wire_suite_sess e (eff_view fixed v ks fl) w sess ems fl st). Qed.

(* the second key share is usable exactly with the repair: Firefox-type hello, shares [X25519; P-256], the server
   selects P-256 *)
Definition ff_view : client_view :=
  mkView [4865; 49195] [29; 23; 24] [29; 23] [] [1; 2; 3] 0 [] false 771 772 false 29 false [772; 771] 0.
Definition ff_flight : flight :=
  mkFlight None (mkHello 771 772 0 [1; 2; 3] 4865 0 23 0 false None []) [] None None true.

Lemma second_share_after_c18 :
  Complete.client_run10 true env_fixed ff_view (KeyShare.mkShape 29 [23] false 0) ff_flight
  = Complete (mkState 772 4865 23 [] false false)
  /\ Complete.client_run10 false env_fixed ff_view (KeyShare.mkShape 29 [] false 0) ff_flight = Abort a_illegal_parameter
  /\ client_run ff_view ff_flight = Abort a_illegal_parameter.
Proof. vm_compute. repeat split; reflexivity. Qed.
