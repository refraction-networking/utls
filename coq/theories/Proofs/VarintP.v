(* Lemmas about Model/Varint.v: Read inverts Append and AppendWithLen, Len is the minimal width,
   values of 2^62 and more are refused, and a marshalled transport parameter list parses back. *)
From UV Require Import Base.Common Model.Varint.

(* the bit and byte arithmetic of the encoders stays folded under cbn, simpl and inversion,
   here and in every file built on this one *)
Arguments N.shiftr : simpl never.
Arguments N.shiftl : simpl never.
Arguments N.lor : simpl never.
Arguments N.land : simpl never.
Arguments N.modulo : simpl never.
Arguments N.div : simpl never.
Arguments N.mul : simpl never.
Arguments N.add : simpl never.
Arguments N.pow : simpl never.

(* Append ORs the length tag k << 6 onto a 6-bit value: the two have no bit in common, so OR is + *)
Lemma lor_tag a k : a < 64 -> N.lor a (k * 64) = a + k * 64.
Proof.
  intros H. assert (D : N.land a (k * 64) = 0).
  { apply N.bits_inj_0. intros n. rewrite N.land_spec.
    change 64 with (2 ^ 6) in *. rewrite <- N.shiftl_mul_pow2, <- (N.mod_small a (2 ^ 6)) by exact H.
    destruct (N.lt_ge_cases n 6) as [L|L].
    - rewrite N.shiftl_spec_low by exact L. apply andb_false_r.
    - now rewrite N.mod_pow2_bits_high. }
  now rewrite <- N.lxor_lor, <- N.add_nocarry_lxor.
Qed.

(* Read splits the first byte again: the tag is f / 64 and the value bits are f mod 64 *)
Lemma tag_bits f : f < 256 -> N.shiftr (N.land f 192) 6 = f / 64 /\ N.land f 63 = f mod 64.
Proof.
  intros H. split; [|apply (N.land_ones f 6)].
  rewrite N.shiftr_land, (N.land_ones _ 2), N.shiftr_div_pow2. apply N.mod_small.
  apply N.div_lt_upper_bound; [discriminate|exact H].
Qed.

(* the tag is a variable t with an equation: the callers have the literals 0, 64, 128, 192 there, which do not
   unify with k * 64 *)
Lemma read_tagged a k t r1 : a < 64 -> k < 4 -> t = k * 64 ->
  read (N.lor a t :: r1) =
  match k, r1 with
  | 0, _ => Some (a, r1)
  | 1, b2 :: r2 => Some (b2 + a * 256, r2)
  | 2, b2 :: b3 :: b4 :: r4 => Some (b4 + b3 * 256 + b2 * 65536 + a * 16777216, r4)
  | 3, b2 :: b3 :: b4 :: b5 :: b6 :: b7 :: b8 :: r8 =>
      Some (b8 + b7 * 256 + b6 * 65536 + b5 * 16777216 + b4 * 4294967296
            + b3 * 1099511627776 + b2 * 281474976710656 + a * 72057594037927936, r8)
  | _, _ => None
  end.
Proof.
  intros Ha Hk ->. rewrite lor_tag by exact Ha.
  destruct (tag_bits (a + k * 64)) as [L B]; [lia|]. unfold read. rewrite L, B.
  rewrite N.div_add, N.mod_add, N.div_small, N.mod_small by (exact Ha || discriminate). cbn [N.add].
  destruct k as [|[[|[]|]|[|[]|]|]]; try (exfalso; lia).
  all: destruct r1 as [|b2 [|b3 [|b4 [|b5 [|b6 [|b7 [|b8 r8]]]]]]]; rewrite ?N.shiftl_mul_pow2; reflexivity.
Qed.

Lemma shr_chain x : let s := N.shiftr x in
  s 8 = x / 256 /\ s 16 = s 8 / 256 /\ s 24 = s 16 / 256 /\ s 32 = s 24 / 256 /\
  s 40 = s 32 / 256 /\ s 48 = s 40 / 256 /\ s 56 = s 48 / 256.
Proof.
  assert (S : forall k, N.shiftr x (k + 8) = N.shiftr x k / 256)
    by (intros k; now rewrite <- N.shiftr_shiftr, (N.shiftr_div_pow2 _ 8)).
  repeat split; [exact (S 0) | exact (S 8) | exact (S 16) | exact (S 24) | exact (S 32) | exact (S 40) | exact (S 48)].
Qed.

Lemma dm256 x : exists q r, x / 256 = q /\ x mod 256 = r /\ x = 256 * q + r /\ r < 256.
Proof.
  exists (x / 256), (x mod 256). repeat split.
  - apply N.div_mod. discriminate.
  - apply N.mod_lt. discriminate.
Qed.
Ltac chain x n :=
  lazymatch n with
  | O => idtac
  | S ?m =>
    let q := fresh "q" in let r := fresh "r" in let E1 := fresh in let E2 := fresh in
    destruct (dm256 x) as (q & r & E1 & E2 & ? & ?); rewrite ?E1, ?E2; clear E1 E2; chain q m
  end.
(* [digits x n] names the n low base-256 digits of x: every x >> 8k becomes an iterated x / 256, then x / 256 and
   x mod 256 become variables q, r with x = 256 * q + r and r < 256, then the same for q: what is left is linear. *)
Ltac digits x n :=
  destruct (shr_chain x) as (S8 & S16 & S24 & S32 & S40 & S48 & S56);
  rewrite ?S56, ?S48, ?S40, ?S32, ?S24, ?S16, ?S8, ?N.shiftr_0_r; clear S8 S16 S24 S32 S40 S48 S56; chain x n.

Lemma append_read x r : x < 4611686018427387904 ->
  exists bs, append x = Ok bs /\ read (bs ++ r) = Some (x, r).
Proof.
  intros Hx. unfold append, maxVarInt1, maxVarInt2, maxVarInt4, maxVarInt8, u8.
  digits x 8%nat.
  destruct (_ <=? 63) eqn:E1; [rewrite <- (N.lor_0_r r0)|destruct (_ <=? 16383) eqn:E2;
    [|destruct (_ <=? 1073741823) eqn:E3; [|replace (_ <=? 4611686018427387903) with true by lia]]].
  all: eexists; (split; [reflexivity|]); cbn [app].
  1: rewrite (read_tagged _ 0) by (reflexivity || lia).
  2: rewrite (read_tagged _ 1) by (reflexivity || lia).
  3: rewrite (read_tagged _ 2) by (reflexivity || lia).
  4: rewrite (read_tagged _ 3) by (reflexivity || lia).
  all: f_equal; f_equal; lia.
Qed.

Lemma append_len x : x < 4611686018427387904 ->
  exists bs n, append x = Ok bs /\ vlen x = Ok n /\ N.of_nat (length bs) = n.
Proof.
  intros Hx. unfold append, vlen, maxVarInt1, maxVarInt2, maxVarInt4, maxVarInt8.
  destruct (x <=? 63); [do 2 eexists; repeat split|].
  destruct (x <=? 16383); [do 2 eexists; repeat split|].
  destruct (x <=? 1073741823); [do 2 eexists; repeat split|].
  replace (x <=? 4611686018427387903) with true by lia.
  do 2 eexists; repeat split.
Qed.

Definition fits (w x : N) : Prop := x < 2 ^ (8 * w - 2).

Lemma vlen_minimal x n : vlen x = Ok n ->
  fits n x /\ (n = 1 \/ n = 2 \/ n = 4 \/ n = 8) /\
  forall w, (w = 1 \/ w = 2 \/ w = 4 \/ w = 8) -> fits w x -> n <= w.
Proof.
  unfold vlen, fits, maxVarInt1, maxVarInt2, maxVarInt4, maxVarInt8.
  destruct (x <=? 63) eqn:E1; [intros [= <-]|
  destruct (x <=? 16383) eqn:E2; [intros [= <-]|
  destruct (x <=? 1073741823) eqn:E3; [intros [= <-]|
  destruct (x <=? 4611686018427387903) eqn:E4; [intros [= <-]|discriminate]]]].
  all: (split; [change (2 ^ (8 * 1 - 2)) with 64; change (2 ^ (8 * 2 - 2)) with 16384;
                change (2 ^ (8 * 4 - 2)) with 1073741824; change (2 ^ (8 * 8 - 2)) with 4611686018427387904; lia|]).
  all: (split; [tauto|]).
  all: intros w [-> | [-> | [-> | ->]]];
       change (2 ^ (8 * 1 - 2)) with 64; change (2 ^ (8 * 2 - 2)) with 16384;
       change (2 ^ (8 * 4 - 2)) with 1073741824; change (2 ^ (8 * 8 - 2)) with 4611686018427387904; lia.
Qed.

Lemma refuse x : 4611686018427387904 <= x ->
  append x = Panic P_NOFIT /\ vlen x = Panic P_NOFIT /\
  forall w, is_panic (append_with_len x w) = true.
Proof.
  intros Hx. unfold append_with_len, append, vlen, maxVarInt1, maxVarInt2, maxVarInt4, maxVarInt8.
  replace (x <=? 63) with false by lia. replace (x <=? 16383) with false by lia.
  replace (x <=? 1073741823) with false by lia. replace (x <=? 4611686018427387903) with false by lia.
  repeat split. intros w. destruct (negb _); reflexivity.
Qed.

Lemma withlen_exact x l : vlen x = Ok l -> append_with_len x l = append x.
Proof.
  intros H. destruct (vlen_minimal x l H) as (_ & Hl & _).
  unfold append_with_len. rewrite H. cbn [bind]. rewrite N.eqb_refl.
  destruct Hl as [-> | [-> | [-> | ->]]]; reflexivity.
Qed.

(* AppendWithLen with a strictly wider width than needed: the prefix byte, zeros, then the Len(x) value bytes *)
Lemma withlen_wider_bytes x l w : vlen x = Ok l -> l < w -> (w = 2 \/ w = 4 \/ w = 8) ->
  append_with_len x w = Ok (N.lor 0 (N.log2 w * 64) :: zeros (N.to_nat (w - l) - 1) ++ be_tail (N.to_nat l) x).
Proof.
  intros Hl Hlt Hw. unfold append_with_len. rewrite Hl. cbn [bind].
  replace (l =? w) with false by lia. replace (w <? l) with false by lia.
  destruct Hw as [-> | [-> | ->]]; reflexivity.
Qed.

Lemma withlen_wider x l w r : vlen x = Ok l -> l < w -> (w = 2 \/ w = 4 \/ w = 8) ->
  exists bs, append_with_len x w = Ok bs /\ N.of_nat (length bs) = w /\ read (bs ++ r) = Some (x, r).
Proof.
  intros Hl Hlt Hw. rewrite (withlen_wider_bytes x l w Hl Hlt Hw).
  destruct (vlen_minimal x l Hl) as (Hfit & Hl4 & _). unfold fits in Hfit.
  destruct Hl4 as [-> | [-> | [-> | ->]]]; destruct Hw as [-> | [-> | ->]]; try lia.
  all: eexists; split; [reflexivity|]; split; [reflexivity|].
  all: change (2 ^ (8 * 1 - 2)) with 64 in Hfit; change (2 ^ (8 * 2 - 2)) with 16384 in Hfit;
       change (2 ^ (8 * 4 - 2)) with 1073741824 in Hfit.
  all: cbv -[N.shiftr N.modulo N.lor read].
  all: digits x 4%nat.
  all: first [rewrite (read_tagged _ 1) by (reflexivity || lia) | rewrite (read_tagged _ 2) by (reflexivity || lia)
             | rewrite (read_tagged _ 3) by (reflexivity || lia)].
  all: f_equal; f_equal; lia.
Qed.

(* every admissible width from Len(x) up: exactly w bytes that decode to x (Append is the case w = Len(x)) *)
Lemma withlen_spec x l w r : vlen x = Ok l -> l <= w -> (w = 1 \/ w = 2 \/ w = 4 \/ w = 8) ->
  exists bs, append_with_len x w = Ok bs /\ N.of_nat (length bs) = w /\ read (bs ++ r) = Some (x, r).
Proof.
  intros Hl Hle Hw. destruct (N.eq_dec l w) as [<-|NE].
  - assert (Hx : x < 4611686018427387904).
    { destruct (N.lt_ge_cases x 4611686018427387904) as [Hlt|Hge]; [exact Hlt|].
      destruct (refuse x Hge) as (_ & V & _). congruence. }
    rewrite (withlen_exact x l Hl).
    destruct (append_read x r Hx) as (e & A & R). destruct (append_len x Hx) as (e' & n & A' & V & L).
    exists e. split; [exact A|]. split; [congruence|exact R].
  - apply (withlen_wider x l w r Hl); [lia|].
    destruct (vlen_minimal x l Hl) as (_ & Hl4 & _). destruct Hw as [->|Hw]; [lia|exact Hw].
Qed.

Lemma take_n_app {A} (v r : list A) : take_n (length v) (v ++ r) = Some (v, r).
Proof. induction v as [|a v IH]; cbn [take_n length app]; [reflexivity|]. rewrite IH. reflexivity. Qed.

Definition tp_ok (p : tparam) : Prop :=
  fst p < 4611686018427387904 /\ N.of_nat (length (snd p)) < 4611686018427387904.

Lemma parse_step k bs : bs <> [] ->
  parse_tps (S k) bs =
  match read bs with
  | None => None
  | Some (id, r1) =>
    match read r1 with
    | None => None
    | Some (n, r2) =>
      match take_n (N.to_nat n) r2 with
      | None => None
      | Some (v, r3) => match parse_tps k r3 with None => None | Some ps => Some ((id, v) :: ps) end
      end
    end
  end.
Proof. destruct bs; [congruence|reflexivity]. Qed.

Lemma marshal_parse tps : Forall tp_ok tps ->
  exists bs, marshal_tps tps = Ok bs /\
  forall fuel, (length tps <= fuel)%nat -> parse_tps fuel bs = Some tps.
Proof.
  induction tps as [|[id v] tps IH]; intros Hall.
  { exists []. split; [reflexivity|]. intros [|k] _; reflexivity. }
  inversion Hall as [|p ps [Hid Hv] Hrest]; subst. cbn [fst snd] in Hid, Hv.
  destruct (IH Hrest) as (rs & Hrs & Hparse).
  cbn [marshal_tps].
  destruct (append_read id (match append (N.of_nat (length v)) with Ok b => b | _ => [] end ++ v ++ rs) Hid)
    as (a & Ha & Ra).
  destruct (append_read (N.of_nat (length v)) (v ++ rs) Hv) as (b & Hb & Rb).
  rewrite Ha, Hb, Hrs. cbn [bind]. rewrite Hb in Ra.
  eexists; split; [reflexivity|].
  intros fuel Hf. destruct fuel as [|k]; [cbn [length] in Hf; lia|].
  assert (Hne : a ++ b ++ v ++ rs <> []).
  { destruct a as [|a0 a']; [|discriminate].
    unfold append in Ha. repeat destruct (_ <=? _) in Ha; discriminate. }
  rewrite parse_step by exact Hne. rewrite Ra, Rb, Nat2N.id, take_n_app.
  rewrite Hparse by (cbn [length] in Hf; lia). reflexivity.
Qed.

(* the QUIC half of C04: a GREASE transport-parameter id 27 + 31k is recognised as one and fits a varint *)
Lemma grease_id_form k : k < GREASE_MAX_MULTIPLIER ->
  is_grease_id (grease_id k) = true /\ grease_id k < 4611686018427387904.
Proof.
  unfold GREASE_MAX_MULTIPLIER, is_grease_id, grease_id.
  change ((4611686018427387903 - 27) / 31) with 148764065110560899. intros Hk.
  replace (27 + k * 31 - 27) with (k * 31) by lia. rewrite N.mod_mul by discriminate.
  split; [|lia]. apply andb_true_iff. split; [lia|reflexivity].
Qed.
