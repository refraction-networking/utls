(* Proofs about Model/Json.v: with the nil-receiver guards the JSON importer
   never panics, for any dictionary tables; without them every document that
   leaves one of the three members out (or sets it to null) is a nil dereference. *)
From Coq Require Import String.
From UV Require Import Base.Common Model.Wire Model.Varint Model.Ext Model.FromRaw Model.Import Model.Json
  Proofs.FromRawP.

Lemma jfold_np {A} (dec : jval -> A -> res A) field m : (forall v a, np (dec v a)) -> forall acc, np (jfold dec field m acc).
Proof.
  intros Hd. induction m as [|[k v] r IH]; intros acc; cbn [jfold]; [reflexivity|].
  destruct (key_match field k); [|apply IH].
  apply np_bind; [apply Hd | intros; apply IH].
Qed.

Lemma dec_list_np {A} (dec : jval -> res A) l : (forall v, np (dec v)) -> np (dec_list dec l).
Proof. intros Hd. induction l as [|v r IH]; cbn [dec_list]; np_auto. Qed.

Lemma res_map_np {A B} (f : A -> res B) l : (forall x, np (f x)) -> np (res_map f l).
Proof. intros Hf. induction l as [|x r IH]; cbn [res_map]; np_auto. Qed.

Lemma jobj_np v : np (jobj v). Proof. destruct v; reflexivity. Qed.
Lemma dec_string_np v old : np (dec_string v old). Proof. destruct v; reflexivity. Qed.
Lemma dec_bool_np v old : np (dec_bool v old). Proof. destruct v; reflexivity. Qed.
Lemma dec_uint_np bits v old : np (dec_uint bits v old).
Proof. destruct v as [| |[n|]| | |]; cbn [dec_uint]; try reflexivity. destruct (n <? 2 ^ bits); reflexivity. Qed.
#[local] Hint Resolve jfold_np dec_list_np res_map_np jobj_np dec_string_np dec_bool_np dec_uint_np : np.
(* a traversal over a lambda leaves a beta-redex as premise, which no hint matches: its lemma is applied by hand *)
Ltac js := repeat first [np_step | solve [auto with np] | first [apply jfold_np | apply dec_list_np | apply res_map_np]; intros].

Lemma dec_strings_np v old : np (dec_strings v old).
Proof. destruct v; cbn [dec_strings]; js. Qed.
Lemma dec_bytes_np v old : np (dec_bytes v old).
Proof. destruct v as [| | |s [b|]|l|]; cbn [dec_bytes]; js. Qed.
#[local] Hint Resolve dec_strings_np dec_bytes_np : np.
Lemma field_strings_np f m : np (field_strings f m).
Proof. unfold field_strings. js. Qed.
#[local] Hint Resolve field_strings_np : np.

Section Dict.
Variable d_suite d_comp d_ext d_group d_point d_sig d_certcomp d_pskmode : string -> option N.

Lemma names_grease_np d l : np (names_grease d l).
Proof. induction l as [|n r IH]; cbn [names_grease]; js. Qed.
Lemma names_plain_np d l : np (names_plain d l).
Proof. induction l as [|n r IH]; cbn [names_plain]; js. Qed.
Lemma version_of_name_np n : np (version_of_name n).
Proof. unfold version_of_name. js. Qed.
Lemma tb_param_of_name_np n : np (tb_param_of_name n).
Proof. unfold tb_param_of_name. js. Qed.
#[local] Hint Resolve names_grease_np names_plain_np version_of_name_np tb_param_of_name_np : np.

Lemma dec_share_np v : np (dec_share v).
Proof. unfold dec_share. js. Qed.
#[local] Hint Resolve dec_share_np : np.
Lemma dec_shares_np v old : np (dec_shares v old).
Proof. destruct v; cbn [dec_shares]; js. Qed.
Lemma shares_of_np l : np (shares_of d_group l).
Proof. induction l as [|[g k] r IH]; cbn [shares_of]; js. Qed.
Lemma dec_identity_np v : np (dec_identity v).
Proof. unfold dec_identity. js. Qed.
#[local] Hint Resolve dec_identity_np : np.
Lemma dec_identities_np v old : np (dec_identities v old).
Proof. destruct v; cbn [dec_identities]; js. Qed.
Lemma dec_binders_np v old : np (dec_binders v old).
Proof. destruct v; cbn [dec_binders]; js. Qed.
Lemma dec_tb_version_np v old : np (dec_tb_version v old).
Proof. unfold dec_tb_version. js. Qed.
#[local] Hint Resolve dec_shares_np shares_of_np dec_identities_np dec_binders_np dec_tb_version_np : np.

Lemma pick_kind_np au rp name : np (pick_kind d_ext au rp name).
Proof. unfold pick_kind. js. Qed.
Lemma json_ext_np k v : np (json_ext d_ext d_group d_point d_sig d_certcomp d_pskmode k v).
Proof. unfold json_ext. js. Qed.
Lemma accepter_name_np v : np (accepter_name v).
Proof. unfold accepter_name. js. Qed.
#[local] Hint Resolve pick_kind_np json_ext_np accepter_name_np : np.

Lemma json_extensions_np au rp v :
  np (json_extensions d_ext d_group d_point d_sig d_certcomp d_pskmode au rp v).
Proof. unfold json_extensions. destruct v; js. Qed.

Lemma json_suites_np v : np (json_suites d_suite v).
Proof. unfold json_suites. js. Qed.
Lemma json_comp_np v : np (json_comp d_comp v).
Proof. unfold json_comp. js. Qed.

Lemma dec_ptr_append_np f v old : (forall x, np (f x)) -> np (dec_ptr_append f v old).
Proof. intros Hf. destruct v; cbn [dec_ptr_append]; js. Qed.
Lemma dec_ptr_exts_np v old : np (dec_ptr_exts d_ext d_group d_point d_sig d_certcomp d_pskmode v old).
Proof. pose proof json_extensions_np. destruct v; cbn [dec_ptr_exts]; js. Qed.
#[local] Hint Resolve json_suites_np json_comp_np dec_ptr_append_np dec_ptr_exts_np : np.

Lemma json_chsju_np v :
  np (json_chsju d_suite d_comp d_ext d_group d_point d_sig d_certcomp d_pskmode v).
Proof. unfold json_chsju. destruct v; js. Qed.

Lemma deref_fixed_np {A} (o : option (list A)) : np (deref true o).
Proof. destruct o; reflexivity. Qed.

Lemma chsju_spec_np u : np (chsju_spec true u).
Proof. pose proof @deref_fixed_np. unfold chsju_spec. js. Qed.

Lemma json_spec_np v :
  np (json_spec d_suite d_comp d_ext d_group d_point d_sig d_certcomp d_pskmode true v).
Proof. pose proof json_chsju_np. pose proof chsju_spec_np. unfold json_spec. js. Qed.

Lemma json_fingerprint_np ap v :
  np (json_fingerprint d_suite d_comp d_ext d_group d_point d_sig d_certcomp d_pskmode true ap v).
Proof. pose proof json_spec_np. pose proof always_add_padding_np. unfold json_fingerprint. js. Qed.

(* the code as shipped: F-07b. The panic does not depend on the tables. *)
Definition json_spec_unfixed := json_spec d_suite d_comp d_ext d_group d_point d_sig d_certcomp d_pskmode false.

Lemma unfixed_null_panics : json_spec_unfixed JNull = Panic P_NIL.
Proof. reflexivity. Qed.
Lemma unfixed_empty_object_panics : json_spec_unfixed (JObj []) = Panic P_NIL.
Proof. reflexivity. Qed.
(* {"cipher_suites": [], "compression_methods": []}: no "extensions" *)
Lemma unfixed_missing_extensions_panics :
  json_spec_unfixed (JObj [("cipher_suites", JArr []); ("compression_methods", JArr [])]) = Panic P_NIL.
Proof. reflexivity. Qed.
(* {"cipher_suites": [], "compression_methods": null, "extensions": []} *)
Lemma unfixed_null_member_panics :
  json_spec_unfixed (JObj [("cipher_suites", JArr []); ("compression_methods", JNull); ("extensions", JArr [])])
  = Panic P_NIL.
Proof. reflexivity. Qed.

(* the strongest true statement about the unfixed accessor calls *)
Lemma unfixed_chsju_spec_np u :
  ju_suites u <> None -> ju_comp u <> None -> ju_exts u <> None -> np (chsju_spec false u).
Proof.
  destruct u as [[s|] [c|] [e|] vmin vmax]; cbn; intros H1 H2 H3; try reflexivity; congruence.
Qed.
End Dict.
