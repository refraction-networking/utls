(* Lemmas about the strict ClientHello grammar (Model/Strict.v):
   - the RFC layout every built-in extension writes (ExtSpec.ext_body) is in the grammar of
     its extension type, provided the field values are within the RFC limits (body_ok_ext);
   - a message laid out with the length-prefix combinators parses to its fields (strict_parse_layout);
   - soundness of the oracle: whatever strict_parse accepts is such a layout (strict_parse_sound). *)
From UV Require Import Base.Common Model.Wire Model.Varint Model.Ext Model.ExtSpec Model.Strict Model.ChMarshal.
From UV Require Import Proofs.WireP Proofs.VarintP Proofs.ExtP.
(* lia also reasons about / and mod by literals (explained in Proofs/WireP.v) *)
Ltac Zify.zify_post_hook ::= Z.div_mod_to_equations.

Lemma nonempty_blen (l : bytes) : nonempty l = true <-> blen l <> 0.
Proof. destruct l; cbn [nonempty]; [rewrite blen_nil | rewrite blen_cons]; split; try congruence; lia. Qed.
Lemma nonempty_len {A} (l : list A) : nonempty l = true <-> l <> [].
Proof. destruct l; cbn; split; congruence. Qed.
Lemma nonempty_empty (l : bytes) : nonempty l = negb (empty l).
Proof. destruct l; reflexivity. Qed.
Lemma length_blen (b : bytes) : N.of_nat (length b) = blen b. Proof. reflexivity. Qed.

Lemma existsb_eqb_In x l : existsb (N.eqb x) l = true <-> In x l.
Proof.
  rewrite existsb_exists. split.
  - intros (y & Hy & E). apply N.eqb_eq in E. now subst.
  - intros H. exists x. split; [exact H | apply N.eqb_refl].
Qed.

Lemma nodupb_spec l : nodupb l = true <-> NoDup l.
Proof.
  induction l as [|x l IH]; cbn [nodupb].
  - split; [constructor | reflexivity].
  - rewrite andb_true_iff, negb_true_iff, IH. split.
    + intros [H1 H2]. constructor; [|exact H2]. intros Hin. apply existsb_eqb_In in Hin. congruence.
    + intros H. inversion H as [|? ? Hn Hd]; subst. split; [|exact Hd].
      destruct (existsb (N.eqb x) l) eqn:E; [|reflexivity]. apply existsb_eqb_In in E. contradiction.
Qed.

(* subsequences: what remains of the spec's extension list on the wire *)
Inductive subseq {A} : list A -> list A -> Prop :=
| ss_nil : subseq [] []
| ss_skip x l1 l2 : subseq l1 l2 -> subseq l1 (x :: l2)
| ss_keep x l1 l2 : subseq l1 l2 -> subseq (x :: l1) (x :: l2).

Lemma subseq_In {A} (l1 l2 : list A) x : subseq l1 l2 -> In x l1 -> In x l2.
Proof. induction 1; cbn; intuition. Qed.
Lemma subseq_NoDup {A} (l1 l2 : list A) : subseq l1 l2 -> NoDup l2 -> NoDup l1.
Proof.
  induction 1 as [|x l1 l2 Hs IH|x l1 l2 Hs IH]; intros Hd; [constructor| |].
  - inversion Hd; subst. auto.
  - inversion Hd as [|? ? Hn Hd']; subst. constructor; [|auto]. intros Hin. apply Hn. eapply subseq_In; eassumption.
Qed.
Lemma subseq_nil_r {A} (l : list A) : subseq l [] -> l = [].
Proof. inversion 1. reflexivity. Qed.

Lemma psk_lastb_tail x l : psk_lastb (x :: l) = true -> psk_lastb l = true.
Proof. cbn [psk_lastb]. destruct l; [reflexivity|]. intros H. apply andb_true_iff in H. apply H. Qed.
Lemma subseq_psk_last l1 l2 : subseq l1 l2 -> psk_lastb l2 = true -> psk_lastb l1 = true.
Proof.
  induction 1 as [|x l1 l2 Hs IH|x l1 l2 Hs IH]; intros Hp; [reflexivity| |].
  - apply IH. eapply psk_lastb_tail; exact Hp.
  - destruct l2 as [|y l2].
    + apply subseq_nil_r in Hs. subst. reflexivity.
    + cbn [psk_lastb] in Hp. apply andb_true_iff in Hp. destruct Hp as [Hx Hr].
      specialize (IH Hr). cbn [psk_lastb]. destruct l1; [reflexivity|]. rewrite Hx. exact IH.
Qed.

Lemma items_flat {A B} (enc : A -> bytes) (item : bytes -> option (B * bytes)) (f : A -> B) (P : A -> Prop) :
  (forall x r, P x -> item (enc x ++ r) = Some (f x, r)) ->
  (forall x, P x -> enc x <> []) ->
  forall l fuel, Forall P l -> (length (flat_map enc l) <= fuel)%nat ->
  items item fuel (flat_map enc l) = Some (map f l).
Proof.
  intros Hitem Hne l. induction l as [|x l IH]; intros fuel Hall Hfuel.
  - destruct fuel; reflexivity.
  - inversion Hall as [|? ? Hx Hl]; subst. cbn [flat_map map] in *.
    rewrite app_length in Hfuel.
    assert (Hpos : (1 <= length (enc x))%nat).
    { specialize (Hne x Hx). destruct (enc x); [congruence | cbn; lia]. }
    destruct fuel as [|fuel]; [lia|].
    remember (enc x ++ flat_map enc l) as s eqn:Hs. destruct s as [|s0 s'].
    { exfalso. apply (f_equal (@length N)) in Hs. rewrite app_length in Hs. cbn in Hs. lia. }
    cbn [items]. rewrite Hs, (Hitem x _ Hx), IH; [reflexivity | exact Hl | lia].
Qed.

Lemma blen_flat_map_ge {A} (enc : A -> bytes) l x : In x l -> blen (enc x) <= blen (flat_map enc l).
Proof. rewrite blen_flat_map. apply (sum_map_ge (fun x => blen (enc x))). Qed.

Lemma exact_some {A} (a : A) : exact (Some (a, [])) = Some a. Proof. reflexivity. Qed.

Lemma length_le_of_blen (a : bytes) n : blen a <= N.of_nat n -> (length a <= n)%nat.
Proof. unfold blen. lia. Qed.

Lemma evenb_double n : evenb (2 * n) = true.
Proof. unfold evenb. rewrite N.mul_comm, N.mod_mul by lia. reflexivity. Qed.

Lemma nonempty_flat_u16 (l : list N) : nonempty l = true -> nonempty (flat_map enc_u16 l) = true.
Proof. destruct l; [discriminate | reflexivity]. Qed.

Lemma u16vec_ok l : nonempty l = true -> 2 * blen l < 65536 -> u16vec_okb (u16s_body l) = true.
Proof.
  intros Hne Hlen. unfold u16vec_okb, u16s_body.
  rewrite read_enc_u16lp_nil by (rewrite blen_flat_u16; exact Hlen). cbn [exact].
  rewrite nonempty_flat_u16 by exact Hne. rewrite blen_flat_u16. apply evenb_double.
Qed.

Lemma u8_u16vec_ok l : nonempty l = true -> 2 * blen l < 256 -> u8_u16vec_okb (enc_u8lp (flat_map enc_u16 l)) = true.
Proof.
  intros Hne Hlen. unfold u8_u16vec_okb.
  rewrite read_enc_u8lp_nil by (rewrite blen_flat_u16; exact Hlen). cbn [exact].
  rewrite nonempty_flat_u16 by exact Hne. rewrite blen_flat_u16. apply evenb_double.
Qed.

Lemma u8vec_ne_ok p : nonempty p = true -> blen p < 256 -> u8vec_ne_okb (enc_u8lp p) = true.
Proof. intros Hne Hlen. unfold u8vec_ne_okb. rewrite read_enc_u8lp_nil by exact Hlen. exact Hne. Qed.

Lemma enc_u8lp_ne p : enc_u8lp p <> [].
Proof. unfold enc_u8lp, enc_u8. discriminate. Qed.

Lemma name_item_enc p r : nonempty p = true /\ blen p < 256 -> name_item (enc_u8lp p ++ r) = Some (p, r).
Proof.
  intros [Hne Hlen]. unfold name_item. rewrite read_enc_u8lp by exact Hlen.
  rewrite nonempty_empty in Hne. destruct (empty p); [discriminate | reflexivity].
Qed.

Lemma names_ok ps : nonempty ps && forallb (fun p => nonempty p) ps = true ->
  forallb (fun p => blen p <? 256) ps = true -> protos_len ps < 65536 ->
  names_okb (protos_body ps) = true.
Proof.
  intros [Hne Hall]%andb_true_iff Hlt Hlen. unfold names_okb, protos_body.
  rewrite read_enc_u16lp_nil by (rewrite blen_protos_spec; exact Hlen). cbn [exact].
  assert (HP : Forall (fun p => nonempty p = true /\ blen p < 256) ps).
  { rewrite forallb_forall in Hall, Hlt. apply Forall_forall. intros p Hp. split; [apply Hall, Hp|].
    specialize (Hlt p Hp). cbn beta in Hlt. lia. }
  rewrite (items_flat enc_u8lp name_item (fun p => p) _ name_item_enc (fun x _ => enc_u8lp_ne x) ps _ HP (le_n _)).
  cbn [is_some]. rewrite andb_true_r.
  destruct ps as [|p ps]; [discriminate|]. cbn [flat_map]. unfold enc_u8lp, enc_u8. reflexivity.
Qed.

Lemma sni_ok host : nonempty host = true -> blen host + 3 < 65536 ->
  sni_okb (enc_u16lp ([0] ++ enc_u16lp host)) = true.
Proof.
  intros Hne Hlen. unfold sni_okb.
  rewrite read_enc_u16lp_nil by (rewrite blen_app, blen_enc_u16lp; cbn; lia). cbn [exact app length items].
  unfold sni_item at 1. cbn [read_u8 obind]. rewrite read_enc_u16lp_nil by lia. cbn [obind].
  rewrite nonempty_empty in Hne. destruct (empty host); [discriminate|].
  destruct (length _); reflexivity.
Qed.

Lemma ks_item_enc (k : N * bytes) r : fst k < 65536 /\ nonempty (snd k) = true /\ blen (snd k) < 65536 ->
  ks_item ((enc_u16 (fst k) ++ enc_u16lp (snd k)) ++ r) = Some (fst k, r).
Proof.
  intros (Hg & Hne & Hlen). unfold ks_item. rewrite <- app_assoc, read_enc_u16 by exact Hg. cbn [obind].
  rewrite read_enc_u16lp by exact Hlen. cbn [obind].
  rewrite nonempty_empty in Hne. destruct (empty (snd k)); [discriminate | reflexivity].
Qed.

Lemma key_share_ok (ks : list (N * bytes)) : forallb (fun k => fst k <? 65536) ks = true -> forallb (fun k => nonempty (snd k)) ks = true ->
  blen (flat_map (fun k => enc_u16 (fst k) ++ enc_u16lp (snd k)) ks) < 65536 ->
  key_share_okb (enc_u16lp (flat_map (fun k => enc_u16 (fst k) ++ enc_u16lp (snd k)) ks)) = true.
Proof.
  intros Hg Hne Hlen. unfold key_share_okb. rewrite read_enc_u16lp_nil by exact Hlen. cbn [exact].
  assert (HP : Forall (fun k : N * bytes => fst k < 65536 /\ nonempty (snd k) = true /\ blen (snd k) < 65536) ks).
  { rewrite forallb_forall in Hg, Hne. apply Forall_forall. intros k Hk.
    specialize (Hg k Hk). specialize (Hne k Hk). cbn beta in Hg, Hne. split; [apply N.ltb_lt; exact Hg|]. split; [exact Hne|].
    apply (N.le_lt_trans _ _ _ (blen_flat_map_ge _ _ k Hk)) in Hlen. cbn beta in Hlen.
    rewrite blen_app, blen_enc_u16lp in Hlen. lia. }
  rewrite (items_flat _ ks_item fst _ ks_item_enc) with (l := ks) (fuel := length (flat_map (fun k => enc_u16 (fst k) ++ enc_u16lp (snd k)) ks)).
  - reflexivity.
  - intros x _. unfold enc_u16. discriminate.
  - exact HP.
  - apply le_n.
Qed.

Lemma cookie_ok c : nonempty c = true -> blen c < 65536 -> cookie_okb (enc_u16lp c) = true.
Proof. intros Hne Hlen. unfold cookie_okb. rewrite read_enc_u16lp_nil by exact Hlen. exact Hne. Qed.

Lemma psk_id_item_enc (i : psk_identity) r :
  nonempty (fst i) = true /\ blen (fst i) < 65536 /\ snd i < 4294967296 ->
  psk_id_item ((enc_u16lp (fst i) ++ enc_u32 (snd i)) ++ r) = Some (tt, r).
Proof.
  intros (Hne & Hlen & Hage). unfold psk_id_item. rewrite <- app_assoc, read_enc_u16lp by exact Hlen. cbn [obind].
  rewrite nonempty_empty in Hne. destruct (empty (fst i)); [discriminate|].
  rewrite read_enc_u32 by exact Hage. reflexivity.
Qed.
Lemma psk_binder_item_enc (b : bytes) r : 32 <= blen b /\ blen b < 256 ->
  psk_binder_item (enc_u8lp b ++ r) = Some (tt, r).
Proof.
  intros [Hlo Hhi]. unfold psk_binder_item. rewrite read_enc_u8lp by exact Hhi. cbn [obind].
  destruct (N.ltb_spec (blen b) 32); [lia | reflexivity].
Qed.

Lemma psk_ok ids bs : psk_rfc ids bs = true ->
  forallb (fun i : psk_identity => snd i <? 4294967296) ids = true -> forallb (fun b => blen b <? 256) bs = true ->
  blen (psk_body ids bs) < 65536 ->
  psk_okb (psk_body ids bs) = true.
Proof.
  intros Hrfc Hage Hb256 Hlen. unfold psk_rfc in Hrfc. rewrite !andb_true_iff in Hrfc.
  destruct Hrfc as (((Hne & Hidne) & Hb32) & Hcount). apply Nat.eqb_eq in Hcount.
  unfold psk_body in *. rewrite blen_app, !blen_enc_u16lp in Hlen.
  unfold psk_okb. rewrite read_enc_u16lp by lia. rewrite read_enc_u16lp_nil by lia. cbn [exact].
  assert (HPi : Forall (fun i : psk_identity => nonempty (fst i) = true /\ blen (fst i) < 65536 /\ snd i < 4294967296) ids).
  { rewrite forallb_forall in Hidne, Hage. apply Forall_forall. intros i Hi.
    split; [apply Hidne, Hi|]. split; [|specialize (Hage i Hi); cbn beta in Hage; lia].
    match type of Hlen with context [flat_map ?enc ids] => pose proof (blen_flat_map_ge enc ids i Hi) as Hle end.
    cbn beta in Hle. rewrite blen_app, blen_enc_u16lp in Hle. lia. }
  assert (HPb : Forall (fun b => 32 <= blen b /\ blen b < 256) bs).
  { rewrite forallb_forall in Hb32, Hb256. apply Forall_forall. intros b Hb.
    specialize (Hb32 b Hb). specialize (Hb256 b Hb). cbn beta in Hb32, Hb256. lia. }
  rewrite (items_flat _ psk_id_item (fun _ => tt) _ psk_id_item_enc) with (l := ids);
    [| intros x _; unfold enc_u16lp, enc_u16; discriminate | exact HPi | apply le_n].
  rewrite (items_flat _ psk_binder_item (fun _ => tt) _ psk_binder_item_enc) with (l := bs);
    [| intros x _; apply enc_u8lp_ne | exact HPb | apply le_n].
  rewrite !map_length, Hcount, Nat.eqb_refl, andb_true_r.
  destruct ids; [discriminate | reflexivity].
Qed.

Lemma ech_ok kdf aead cfg enc p : kdf < 65536 -> aead < 65536 -> blen enc < 65536 -> blen p < 65536 ->
  nonempty p = true ->
  ech_okb ([0] ++ enc_u16 kdf ++ enc_u16 aead ++ [cfg] ++ enc_u16lp enc ++ enc_u16lp p) = true.
Proof.
  intros Hk Ha He Hp Hne. unfold ech_okb. cbn [app read_u8]. change (0 =? 1) with false. change (0 =? 0) with true. cbn iota.
  rewrite read_enc_u16 by exact Hk. cbn [obind]. rewrite read_enc_u16 by exact Ha. cbn [obind].
  cbn [app read_u8 obind]. rewrite read_enc_u16lp by exact He. cbn [obind].
  rewrite read_enc_u16lp_nil by exact Hp. cbn [exact obind].
  rewrite nonempty_empty in Hne. destruct (empty p); [discriminate | reflexivity].
Qed.

Lemma all_zero_zbytes n : all_zero (zbytes n) = true.
Proof. induction n as [|n IH]; [reflexivity|]. cbn [zbytes all_zero forallb]. exact IH. Qed.

(* quic_transport_parameters: Marshal's output is a sequence of (varint id, varint length, value) *)
Lemma append_ok_lt x b : append x = Ok b -> x < 4611686018427387904.
Proof.
  intros H. destruct (N.lt_ge_cases x 4611686018427387904) as [L|G]; [exact L|].
  destruct (refuse x G) as (A & _). congruence.
Qed.
Lemma append_nonempty x b : append x = Ok b -> (1 <= length b)%nat.
Proof.
  unfold append. repeat (destruct (_ <=? _)); intros H; inversion H; subst; cbn [length]; lia.
Qed.

Lemma marshal_tps_ok tps m : marshal_tps tps = Ok m -> Forall tp_ok tps /\ (length tps <= length m)%nat.
Proof.
  revert m. induction tps as [|[id v] tps IH]; intros m H.
  - split; [constructor | cbn; lia].
  - cbn [marshal_tps] in H.
    destruct (append id) as [a| |] eqn:Ha; cbn [bind] in H; try discriminate.
    destruct (append (N.of_nat (length v))) as [b| |] eqn:Hb; cbn [bind] in H; try discriminate.
    destruct (marshal_tps tps) as [r| |] eqn:Hr; cbn [bind] in H; try discriminate.
    inversion H; subst m. destruct (IH r eq_refl) as [Hall Hlen]. split.
    + constructor; [|exact Hall]. split; cbn [fst snd]; [eapply append_ok_lt; exact Ha | eapply append_ok_lt; exact Hb].
    + pose proof (append_nonempty _ _ Ha). rewrite !app_length. cbn [length]. lia.
Qed.

Lemma quic_ok tps m : marshal_tps tps = Ok m -> is_some (parse_tps (length m) m) = true.
Proof.
  intros H. destruct (marshal_tps_ok tps m H) as [Hall Hlen].
  destruct (marshal_parse tps Hall) as (bs & Hbs & Hparse). rewrite H in Hbs. inversion Hbs; subst bs.
  rewrite (Hparse _ Hlen). reflexivity.
Qed.

Lemma body_len e : wf_ext e = true -> ext_absent e = false -> blen (ext_body e) + 4 = ext_len e.
Proof. intros Hwf Habs. pose proof (read_layout e Hwf) as H. rewrite Habs in H. apply H. Qed.

(* dispatch of body_okb on the extension type: closed comparisons, by computation *)
Lemma bo_sni b : body_okb ID_SNI b = sni_okb b. Proof. reflexivity. Qed.
Lemma bo_status b : body_okb ID_STATUS b = status_okb b. Proof. reflexivity. Qed.
Lemma bo_status_v2 b : body_okb ID_STATUS_V2 b = status_v2_okb b. Proof. reflexivity. Qed.
Lemma bo_curves b : body_okb ID_CURVES b = u16vec_okb b. Proof. reflexivity. Qed.
Lemma bo_points b : body_okb ID_POINTS b = u8vec_ne_okb b. Proof. reflexivity. Qed.
Lemma bo_sigalgs b : body_okb ID_SIGALGS b = u16vec_okb b. Proof. reflexivity. Qed.
Lemma bo_sigalgs_cert b : body_okb ID_SIGALGS_CERT b = u16vec_okb b. Proof. reflexivity. Qed.
Lemma bo_dc b : body_okb ID_DELEGATED_CREDENTIALS b = u16vec_okb b. Proof. reflexivity. Qed.
Lemma bo_alpn b : body_okb ID_ALPN b = names_okb b. Proof. reflexivity. Qed.
Lemma bo_alps b : body_okb ID_ALPS b = names_okb b. Proof. reflexivity. Qed.
Lemma bo_alps_new b : body_okb ID_ALPS_NEW b = names_okb b. Proof. reflexivity. Qed.
Lemma bo_padding b : body_okb ID_PADDING b = all_zero b. Proof. reflexivity. Qed.
Lemma bo_compress b : body_okb ID_COMPRESS_CERT b = u8_u16vec_okb b. Proof. reflexivity. Qed.
Lemma bo_versions b : body_okb ID_VERSIONS b = u8_u16vec_okb b. Proof. reflexivity. Qed.
Lemma bo_key_share b : body_okb ID_KEY_SHARE b = key_share_okb b. Proof. reflexivity. Qed.
Lemma bo_quic b : body_okb ID_QUIC_TP b = is_some (parse_tps (length b) b). Proof. reflexivity. Qed.
Lemma bo_psk_modes b : body_okb ID_PSK_MODES b = u8vec_ne_okb b. Proof. reflexivity. Qed.
Lemma bo_cookie b : body_okb ID_COOKIE b = cookie_okb b. Proof. reflexivity. Qed.
Lemma bo_reneg b : body_okb ID_RENEGOTIATION b = is_some (exact (read_u8lp b)). Proof. reflexivity. Qed.
Lemma bo_rsl b : body_okb ID_RECORD_SIZE_LIMIT b = (blen b =? 2). Proof. reflexivity. Qed.
Lemma bo_tb b : body_okb ID_TOKEN_BINDING b = token_binding_okb b. Proof. reflexivity. Qed.
Lemma bo_psk b : body_okb ID_PSK b = psk_okb b. Proof. reflexivity. Qed.
Lemma bo_ech b : body_okb ID_ECH b = ech_okb b. Proof. reflexivity. Qed.

Lemma body_ok_ext e : wf_ext e = true -> rfc_ok e = true -> ext_absent e = false ->
  body_okb (ext_id e) (ext_body e) = true.
Proof.
  intros Hwf Hrfc Habs. destruct (wf_parts e Hwf) as (Hst & Hf & Hlen).
  pose proof (body_len e Hwf Habs) as Hbl.
  unfold rfc_ok in Hrfc. rewrite Habs in Hrfc. cbn [orb] in Hrfc.
  destruct e; cbn [ext_id ext_body fields_ok ext_len ext_absent] in *; try reflexivity; try exact Hrfc.
  - (* SNI *) rewrite bo_sni. apply sni_ok.
    + apply nonempty_blen. lia.
    + destruct (blen host =? 0); lia.
  - (* curves *) rewrite bo_curves. apply u16vec_ok; [exact Hrfc | lia].
  - (* points *) rewrite bo_points. apply u8vec_ne_ok; [exact Hrfc | lia].
  - (* sigalgs *) rewrite bo_sigalgs. apply u16vec_ok; [exact Hrfc | lia].
  - (* sigalgs cert *) rewrite bo_sigalgs_cert. apply u16vec_ok; [exact Hrfc | lia].
  - (* ALPN *) rewrite bo_alpn. apply names_ok; [exact Hrfc | exact Hf | lia].
  - (* ALPS *) rewrite bo_alps. apply names_ok; [exact Hrfc | exact Hf | lia].
  - (* ALPS new *) rewrite bo_alps_new. apply names_ok; [exact Hrfc | exact Hf | lia].
  - (* padding *) rewrite bo_padding. apply all_zero_zbytes.
  - (* compress cert *) rewrite bo_compress. apply andb_true_iff in Hf. destruct Hf as [_ Hf].
    apply u8_u16vec_ok; [exact Hrfc | lia].
  - (* key share *) rewrite bo_key_share. apply key_share_ok; try assumption.
    rewrite <- key_shares_bytes_spec, blen_key_shares_bytes. lia.
  - (* QUIC *) rewrite bo_quic. destruct (marshal_tps tps) as [m| |] eqn:E; try discriminate.
    eapply quic_ok; exact E.
  - (* PSK modes *) rewrite bo_psk_modes. apply u8vec_ne_ok; [exact Hrfc | lia].
  - (* versions *) rewrite bo_versions. apply andb_true_iff in Hf. destruct Hf as [_ Hf].
    apply u8_u16vec_ok; [exact Hrfc | lia].
  - (* cookie *) rewrite bo_cookie. apply cookie_ok; [exact Hrfc | lia].
  - (* renegotiation_info *) rewrite bo_reneg. rewrite read_enc_u8lp_nil by lia. reflexivity.
  - (* channel id *) destruct old; reflexivity.
  - (* token binding *) rewrite bo_tb. unfold token_binding_okb. cbn [app read_u8].
    rewrite read_enc_u8lp_nil by lia. reflexivity.
  - (* delegated credentials *) rewrite bo_dc. apply u16vec_ok; [exact Hrfc | lia].
  - (* utls PSK *) rewrite bo_psk. rewrite !andb_true_iff in Hf. destruct Hf as [[Ha Hb] _].
    apply psk_ok; try assumption. lia.
  - (* fake PSK *) rewrite bo_psk. rewrite !andb_true_iff in Hf. destruct Hf as [[Ha Hb] _].
    apply psk_ok; try assumption. lia.
  - (* GREASE ECH *) rewrite bo_ech. apply andb_true_iff in Hf. destruct Hf as [Hk Ha].
    apply ech_ok; try assumption; lia.
Qed.

Lemma ext_item_enc (x : N * bytes) r : fst x < 65536 /\ blen (snd x) < 65536 ->
  ext_item (enc_ext x ++ r) = Some (x, r).
Proof.
  intros [Hid Hlen]. unfold ext_item, enc_ext. rewrite <- app_assoc, read_enc_u16 by exact Hid. cbn [obind].
  rewrite read_enc_u16lp by exact Hlen. cbn [obind]. destruct x; reflexivity.
Qed.

Definition ast_ok (a : ch_ast) : Prop :=
  c_vers a < 65536 /\ blen (c_random a) = 32 /\ blen (c_sid a) <= 32
  /\ nonempty (c_suites a) = true /\ all_u16 (c_suites a) = true /\ 2 * blen (c_suites a) < 65536
  /\ nonempty (c_comp a) = true /\ blen (c_comp a) < 256
  /\ (if c_has_exts a
      then Forall (fun x => fst x < 65536 /\ blen (snd x) < 65536) (c_exts a)
           /\ forallb (fun x => body_okb (fst x) (snd x)) (c_exts a) = true
           /\ blen (flat_map enc_ext (c_exts a)) < 65536
      else c_exts a = []).

Lemma strict_parse_layout a : ast_ok a -> strict_parse (hello_layout a) = Some a.
Proof.
  intros (Hv & Hr & Hsid & Hsne & Hsu & Hslen & Hcne & Hclen & Hx).
  destruct a as [vers random sid suites comp has exts]. cbn [c_vers c_random c_sid c_suites c_comp c_has_exts c_exts] in *.
  unfold hello_layout. cbn [c_vers c_random c_sid c_suites c_comp c_has_exts c_exts].
  set (tailb := if has then enc_u16lp (flat_map enc_ext exts) else []).
  assert (Htail : blen tailb < 65536 + 2).
  { unfold tailb. destruct has; [rewrite blen_enc_u16lp; lia | rewrite blen_nil; lia]. }
  set (body := enc_u16 vers ++ random ++ enc_u8lp sid ++ enc_u16lp (flat_map enc_u16 suites) ++ enc_u8lp comp ++ tailb).
  assert (Hbody : blen body < 16777216).
  { unfold body. rewrite !blen_app, blen_enc_u16, !blen_enc_u8lp, blen_enc_u16lp, blen_flat_u16. lia. }
  unfold strict_parse. cbn [app read_u8 obind]. change (1 =? 1) with true. cbn [negb].
  rewrite read_enc_u24lp_nil by exact Hbody. cbn [exact obind].
  unfold body. rewrite read_enc_u16 by exact Hv. cbn [obind].
  match goal with |- context [read_bytes 32 (random ++ ?x)] => pose proof (read_bytes_app random x) as Hrb end.
  rewrite Hr in Hrb. rewrite Hrb. cbn [obind].
  rewrite read_enc_u8lp by lia. cbn [obind].
  destruct (N.ltb_spec 32 (blen sid)) as [Hbad|_]; [lia|].
  rewrite read_enc_u16lp by (rewrite blen_flat_u16; lia). cbn [obind].
  rewrite nonempty_flat_u16 by exact Hsne. cbn [negb].
  rewrite read_u16s_flat by exact Hsu. cbn [obind].
  rewrite read_enc_u8lp by exact Hclen. cbn [obind]. rewrite Hcne. cbn [negb].
  unfold tailb. destruct has.
  - destruct Hx as (Hall & Hok & Hlen).
    assert (Hne : empty (enc_u16lp (flat_map enc_ext exts)) = false) by reflexivity.
    rewrite Hne. rewrite read_enc_u16lp_nil by exact Hlen. cbn [exact obind].
    rewrite (items_flat enc_ext ext_item (fun x => x) _ ext_item_enc) with (l := exts);
      [| intros x _; unfold enc_ext, enc_u16; discriminate | exact Hall | apply le_n].
    cbn [obind]. rewrite map_id, Hok. reflexivity.
  - subst exts. reflexivity.
Qed.

Lemma bytes_ok_app a b : bytes_ok (a ++ b) <-> bytes_ok a /\ bytes_ok b.
Proof. unfold bytes_ok. apply Forall_app. Qed.
Lemma bytes_ok_cons x l : bytes_ok (x :: l) <-> x < 256 /\ bytes_ok l.
Proof. unfold bytes_ok. split; [intros H; inversion H; auto | intros [H1 H2]; constructor; auto]. Qed.

Lemma exact_inv {A} (o : option (A * bytes)) a : exact o = Some a -> o = Some (a, []).
Proof. destruct o as [[x [|y r]]|]; cbn; intros H; inversion H; reflexivity. Qed.

Lemma read_u8_inv s x r : bytes_ok s -> read_u8 s = Some (x, r) -> s = enc_u8 x ++ r /\ x < 256 /\ bytes_ok r.
Proof.
  destruct s as [|a s]; cbn [read_u8]; intros Hok H; inversion H; subst.
  apply bytes_ok_cons in Hok. destruct Hok as [Ha Hok].
  unfold enc_u8. cbn [app]. rewrite N.mod_small by exact Ha. auto.
Qed.
Lemma read_u16_inv s x r : bytes_ok s -> read_u16 s = Some (x, r) -> s = enc_u16 x ++ r /\ x < 65536 /\ bytes_ok r.
Proof.
  destruct s as [|a [|b s]]; cbn [read_u16]; intros Hok H; inversion H; subst.
  apply bytes_ok_cons in Hok. destruct Hok as [Ha Hok]. apply bytes_ok_cons in Hok. destruct Hok as [Hb Hok].
  unfold enc_u16. cbn [app]. split; [|split; [lia | exact Hok]]. f_equal; [lia|]. f_equal. lia.
Qed.
Lemma read_u24_inv s x r : bytes_ok s -> read_u24 s = Some (x, r) -> s = enc_u24 x ++ r /\ x < 16777216 /\ bytes_ok r.
Proof.
  destruct s as [|a [|b [|c s]]]; cbn [read_u24]; intros Hok H; inversion H; subst.
  apply bytes_ok_cons in Hok. destruct Hok as [Ha Hok]. apply bytes_ok_cons in Hok. destruct Hok as [Hb Hok].
  apply bytes_ok_cons in Hok. destruct Hok as [Hc Hok].
  unfold enc_u24. cbn [app]. split; [|split; [lia | exact Hok]]. f_equal; [lia|]. f_equal; [lia|]. f_equal. lia.
Qed.
Lemma read_bytes_inv n s a r : bytes_ok s -> read_bytes n s = Some (a, r) -> s = a ++ r /\ blen a = n /\ bytes_ok a /\ bytes_ok r.
Proof.
  intros Hok H. destruct (read_bytes_blen n s a r H) as [Hl ->]. apply bytes_ok_app in Hok. tauto.
Qed.

(* a length-prefixed reader inverts to the length-prefixed encoder as soon as the reader of the prefix inverts
   to its encoder (read_uNlp and enc_uNlp unfold to this shape) *)
Lemma read_lp_inv (enc : N -> bytes) rd bound :
  (forall s x r, bytes_ok s -> rd s = Some (x, r) -> s = enc x ++ r /\ x < bound /\ bytes_ok r) ->
  forall s v r, bytes_ok s ->
  match rd s with Some (n, r') => read_bytes n r' | None => None end = Some (v, r) ->
  s = (enc (blen v) ++ v) ++ r /\ blen v < bound /\ bytes_ok v /\ bytes_ok r.
Proof.
  intros Hrd s v r Hok H. destruct (rd s) as [[n s1]|] eqn:E; [|discriminate].
  destruct (Hrd _ _ _ Hok E) as (-> & Hn & Hok1).
  destruct (read_bytes_inv _ _ _ _ Hok1 H) as (-> & Hl & Hv & Hr).
  rewrite Hl, <- app_assoc. split; [reflexivity|]. split; [lia|]. split; assumption.
Qed.
Lemma read_u8lp_inv s v r : bytes_ok s -> read_u8lp s = Some (v, r) ->
  s = enc_u8lp v ++ r /\ blen v < 256 /\ bytes_ok v /\ bytes_ok r.
Proof. exact (read_lp_inv enc_u8 read_u8 256 read_u8_inv s v r). Qed.
Lemma read_u16lp_inv s v r : bytes_ok s -> read_u16lp s = Some (v, r) ->
  s = enc_u16lp v ++ r /\ blen v < 65536 /\ bytes_ok v /\ bytes_ok r.
Proof. exact (read_lp_inv enc_u16 read_u16 65536 read_u16_inv s v r). Qed.
Lemma read_u24lp_inv s v r : bytes_ok s -> read_u24lp s = Some (v, r) ->
  s = enc_u24lp v ++ r /\ blen v < 16777216 /\ bytes_ok v /\ bytes_ok r.
Proof. exact (read_lp_inv enc_u24 read_u24 16777216 read_u24_inv s v r). Qed.

Lemma read_u16s_inv : forall n s l, (length s <= n)%nat -> bytes_ok s -> read_u16s s = Some l ->
  s = flat_map enc_u16 l /\ all_u16 l = true.
Proof.
  induction n as [|n IH]; intros s l Hn Hok H.
  - destruct s; [|cbn in Hn; lia]. cbn in H. inversion H. split; reflexivity.
  - destruct s as [|a [|b s]]; cbn [read_u16s] in H; [inversion H; split; reflexivity | discriminate |].
    destruct (read_u16s s) as [l'|] eqn:E; [|discriminate]. inversion H; subst l.
    apply bytes_ok_cons in Hok. destruct Hok as [Ha Hok]. apply bytes_ok_cons in Hok. destruct Hok as [Hb Hok].
    destruct (IH s l') as [-> Hall]; [cbn [length] in Hn; lia | exact Hok | exact E |].
    cbn [flat_map all_u16 forallb]. fold (all_u16 l'). rewrite Hall. unfold enc_u16. cbn [app].
    split; [|rewrite andb_true_r; lia]. f_equal; [lia|]. f_equal. lia.
Qed.

Lemma items_ext_inv : forall fuel s exts, bytes_ok s -> items ext_item fuel s = Some exts ->
  s = flat_map enc_ext exts /\ Forall (fun x => fst x < 65536 /\ blen (snd x) < 65536) exts.
Proof.
  induction fuel as [|fuel IH]; intros s exts Hok H.
  - destruct s; cbn in H; [|discriminate]. inversion H. split; [reflexivity | constructor].
  - destruct s as [|s0 s']; [cbn in H; inversion H; split; [reflexivity | constructor]|].
    cbn [items] in H. destruct (ext_item (s0 :: s')) as [[x r]|] eqn:E; [|discriminate].
    destruct (items ext_item fuel r) as [l|] eqn:E2; [|discriminate]. inversion H; subst exts.
    unfold ext_item in E. destruct (read_u16 (s0 :: s')) as [[id s1]|] eqn:E3; [|discriminate]. cbn [obind] in E.
    destruct (read_u16lp s1) as [[body s2]|] eqn:E4; [|discriminate]. cbn [obind] in E. inversion E; subst x r.
    destruct (read_u16_inv _ _ _ Hok E3) as (Hs & Hid & Hok1).
    destruct (read_u16lp_inv _ _ _ Hok1 E4) as (-> & Hlen & _ & Hok2).
    destruct (IH s2 l Hok2 E2) as (-> & Hall).
    split; [|constructor; [split; assumption | exact Hall]].
    rewrite Hs. cbn [flat_map]. unfold enc_ext. cbn [fst snd]. rewrite <- app_assoc. reflexivity.
Qed.

(* soundness of the oracle: an accepted message IS the combinator layout of the parsed fields,
   i.e. every length prefix in it is the length of what it precedes *)
Lemma strict_parse_sound raw a : bytes_ok raw -> strict_parse raw = Some a -> raw = hello_layout a /\ ast_ok a.
Proof.
  intros Hok H. unfold strict_parse in H.
  destruct (read_u8 raw) as [[t s0]|] eqn:E0; [|discriminate]. cbn [obind] in H.
  destruct (N.eqb_spec t 1) as [->|]; [|discriminate]. cbn [negb] in H.
  destruct (read_u8_inv _ _ _ Hok E0) as (-> & _ & Hok0). clear Hok. rename Hok0 into Hok.
  destruct (exact (read_u24lp s0)) as [body|] eqn:E1; [|discriminate]. cbn [obind] in H.
  apply exact_inv in E1. destruct (read_u24lp_inv _ _ _ Hok E1) as (Hs0 & Hbl & Hokb & _). rewrite app_nil_r in Hs0. subst s0.
  destruct (read_u16 body) as [[vers s1]|] eqn:E2; [|discriminate]. cbn [obind] in H.
  destruct (read_u16_inv _ _ _ Hokb E2) as (-> & Hv & Hok1).
  destruct (read_bytes 32 s1) as [[random s2]|] eqn:E3; [|discriminate]. cbn [obind] in H.
  destruct (read_bytes_inv _ _ _ _ Hok1 E3) as (-> & Hr & _ & Hok2).
  destruct (read_u8lp s2) as [[sid s3]|] eqn:E4; [|discriminate]. cbn [obind] in H.
  destruct (read_u8lp_inv _ _ _ Hok2 E4) as (-> & _ & _ & Hok3).
  destruct (N.ltb_spec 32 (blen sid)) as [|Hsid]; [discriminate|].
  destruct (read_u16lp s3) as [[sb s4]|] eqn:E5; [|discriminate]. cbn [obind] in H.
  destruct (read_u16lp_inv _ _ _ Hok3 E5) as (-> & Hsbl & Hoksb & Hok4).
  destruct (nonempty sb) eqn:Hsbne; [|discriminate]. cbn [negb] in H.
  destruct (read_u16s sb) as [suites|] eqn:E6; [|discriminate]. cbn [obind] in H.
  destruct (read_u16s_inv _ sb suites (le_n _) Hoksb E6) as (-> & Hsu).
  destruct (read_u8lp s4) as [[comp s5]|] eqn:E7; [|discriminate]. cbn [obind] in H.
  destruct (read_u8lp_inv _ _ _ Hok4 E7) as (-> & Hcl & _ & Hok5).
  destruct (nonempty comp) eqn:Hcne; [|discriminate]. cbn [negb] in H.
  assert (Hsne : nonempty suites = true) by (destruct suites; [discriminate | reflexivity]).
  rewrite blen_flat_u16 in Hsbl.
  destruct (empty s5) eqn:E8.
  - inversion H; subst a. apply empty_true_iff in E8. subst s5.
    split; [reflexivity|]. unfold ast_ok. cbn [c_vers c_random c_sid c_suites c_comp c_has_exts c_exts]. tauto.
  - destruct (exact (read_u16lp s5)) as [eb|] eqn:E9; [|discriminate]. cbn [obind] in H.
    apply exact_inv in E9. destruct (read_u16lp_inv _ _ _ Hok5 E9) as (Hs5 & Hebl & Hokeb & _). rewrite app_nil_r in Hs5. subst s5.
    destruct (items ext_item (length eb) eb) as [exts|] eqn:E10; [|discriminate]. cbn [obind] in H.
    destruct (forallb (fun x => body_okb (fst x) (snd x)) exts) eqn:E11; [|discriminate]. inversion H; subst a.
    destruct (items_ext_inv _ _ _ Hokeb E10) as (-> & Hall).
    split; [reflexivity|]. unfold ast_ok. cbn [c_vers c_random c_sid c_suites c_comp c_has_exts c_exts]. tauto.
Qed.

Lemma valid_chb_spec b : valid_chb b = true <-> valid_ch b.
Proof.
  unfold valid_chb, valid_ch. split.
  - destruct (strict_parse b) as [a|]; [|discriminate]. intros H. apply andb_true_iff in H. destruct H as [H1 H2].
    exists a. split; [reflexivity|]. split; [apply nodupb_spec; exact H1 | exact H2].
  - intros (a & -> & Hnd & Hp). apply nodupb_spec in Hnd. rewrite Hnd, Hp. reflexivity.
Qed.

Ltac Zify.zify_post_hook ::= idtac.
