(* The table of coin-flip sites of generateRandomizedSpec (u_parrots.go:2949-3157): one row per
   `FlipWeightedCoin(id.Weights.X)` site (plus the removeRandomCiphers call, whose coins are a
   family), in source order. Definitions only; the statement about the rows ([coin_ok]) and its
   proofs are in Proofs/RandomizedC.v. Kept free of proof libraries so that the
   correspondence checker (CCoins case) loads quickly. *)
From UV Require Import Base.Common Model.Prng Model.Randomized.
Open Scope N_scope.

(* weights field by struct index (u_common.go:671) *)
Definition wfield (i : N) (w : weights) : fw :=
  match i with
  | 0 => w_alpn w | 1 => w_tls13 w | 2 => w_rmciphers w | 3 => w_ecdsa_sha1 w | 4 => w_p521_sha512 w
  | 5 => w_pss256 w | 6 => w_pss384_512 w | 7 => w_x25519 w | 8 => w_p521 w | 9 => w_padding w
  | 10 => w_status w | 11 => w_sct w | 12 => w_reneg w | 13 => w_ems w | 14 => w_ks_p256 w
  | 15 => w_ks_random w | _ => w_alps w
  end.

Definition is13 (p : spec) : Prop := sp_max p = VersionTLS13.
Definition sig_has (x : N) (p : spec) : Prop := exists a, In (ESigAlgs a) (sp_exts p) /\ In x a.
Definition grp_has (x : N) (p : spec) : Prop := exists g, In (ECurves g) (sp_exts p) /\ In x g.
Definition x25519_share (p : spec) : Prop := exists k, In (EKeyShare k) (sp_exts p) /\ In X25519 k.
(* number of suites when removeRandomCiphers removes nothing *)
Definition full_len (tb : table) (p : spec) : nat :=
  if sp_max p =? VersionTLS13 then length (removeRC4Ciphers (t_tls13 tb ++ map sr_id (t_suites tb)))
  else length (t_suites tb).

Record coin := {
  c_line : N;                                     (* u_parrots.go line of the FlipWeightedCoin call *)
  c_field : N;                                    (* index of id.Weights.X *)
  c_feature : table -> variant -> spec -> Prop;   (* what the coin switches on, read off the generated spec *)
  c_forced : variant -> spec -> Prop;             (* when the feature is present whatever the coin says *)
  c_app : variant -> spec -> Prop }.              (* when a true coin makes the feature present *)

Definition coin_alpn := {| c_line := 2980; c_field := 0;
  c_feature := fun _ _ p => exists q, In (EALPN q) (sp_exts p);
  c_forced := fun v _ => v = VALPN; c_app := fun v _ => v = VRandomized |}.
Definition coin_tls13 := {| c_line := 2995; c_field := 1;
  c_feature := fun _ _ p => is13 p; c_forced := fun _ _ => False; c_app := fun _ _ => True |}.
Definition coin_rm := {| c_line := 3171; c_field := 2;     (* one coin per suite after the first, weight w*i/len: never certain *)
  c_feature := fun tb _ p => length (sp_ciphers p) <> full_len tb p;
  c_forced := fun _ _ => False; c_app := fun _ _ => False |}.
Definition coin_ecdsa_sha1 := {| c_line := 3029; c_field := 3;
  c_feature := fun _ _ p => sig_has ECDSAWithSHA1 p; c_forced := fun _ _ => False; c_app := fun _ _ => True |}.
Definition coin_p521_sha512 := {| c_line := 3032; c_field := 4;
  c_feature := fun _ _ p => sig_has ECDSAWithP521AndSHA512 p; c_forced := fun _ _ => False; c_app := fun _ _ => True |}.
Definition coin_pss256 := {| c_line := 3035; c_field := 5;
  c_feature := fun _ _ p => sig_has PSSWithSHA256 p; c_forced := fun _ p => is13 p; c_app := fun _ _ => True |}.
Definition coin_pss384_512 := {| c_line := 3038; c_field := 6;   (* flipped only when PSSWithSHA256 was appended *)
  c_feature := fun _ _ p => sig_has PSSWithSHA384 p /\ sig_has PSSWithSHA512 p;
  c_forced := fun _ _ => False; c_app := fun _ p => sig_has PSSWithSHA256 p |}.
Definition coin_mlkem_group := {| c_line := 3056; c_field := 7;   (* `&& TLSVersMax == VersionTLS13` *)
  c_feature := fun _ _ p => grp_has X25519MLKEM768 p; c_forced := fun _ _ => False; c_app := fun _ p => is13 p |}.
Definition coin_x25519 := {| c_line := 3059; c_field := 7;
  c_feature := fun _ _ p => grp_has X25519 p; c_forced := fun _ p => is13 p; c_app := fun _ _ => True |}.
Definition coin_p521 := {| c_line := 3063; c_field := 8;
  c_feature := fun _ _ p => grp_has CurveP521 p; c_forced := fun _ _ => False; c_app := fun _ _ => True |}.
Definition coin_padding := {| c_line := 3089; c_field := 9;
  c_feature := fun _ _ p => In EPadding (sp_exts p); c_forced := fun _ p => is13 p; c_app := fun _ _ => True |}.
Definition coin_status := {| c_line := 3094; c_field := 10;
  c_feature := fun _ _ p => In EStatus (sp_exts p); c_forced := fun _ _ => False; c_app := fun _ _ => True |}.
Definition coin_sct := {| c_line := 3097; c_field := 11;
  c_feature := fun _ _ p => In ESCT (sp_exts p); c_forced := fun _ _ => False; c_app := fun _ _ => True |}.
Definition coin_reneg := {| c_line := 3100; c_field := 12;
  c_feature := fun _ _ p => exists m, In (EReneg m) (sp_exts p); c_forced := fun _ _ => False; c_app := fun _ _ => True |}.
Definition coin_ems := {| c_line := 3103; c_field := 13;
  c_feature := fun _ _ p => In EEMS (sp_exts p); c_forced := fun _ _ => False; c_app := fun _ _ => True |}.
Definition coin_ks_p256 := {| c_line := 3110; c_field := 14;      (* TLS 1.3 only *)
  c_feature := fun _ _ p => In (EKeyShare [CurveP256]) (sp_exts p); c_forced := fun _ _ => False; c_app := fun _ p => is13 p |}.
Definition coin_ks_extra_p256 := {| c_line := 3113; c_field := 15;   (* only when the first share stayed X25519 *)
  c_feature := fun _ _ p => exists k, In (EKeyShare k) (sp_exts p) /\ In X25519 k /\ In CurveP256 k;
  c_forced := fun _ _ => False; c_app := fun _ p => x25519_share p |}.
Definition coin_ks_mlkem := {| c_line := 3116; c_field := 15;
  c_feature := fun _ _ p => exists k, In (EKeyShare k) (sp_exts p) /\ In X25519MLKEM768 k;
  c_forced := fun _ _ => False; c_app := fun _ p => x25519_share p |}.
Definition coin_alps := {| c_line := 3141; c_field := 16;         (* salted PRNG; TLS 1.3 with ALPN only *)
  c_feature := fun _ _ p => exists q, In (EALPS q) (sp_exts p);
  c_forced := fun _ _ => False; c_app := fun _ p => is13 p /\ exists q, In (EALPN q) (sp_exts p) |}.

(* in the order the source mentions id.Weights.X *)
Definition coins : list coin :=
  [coin_alpn; coin_tls13; coin_rm; coin_ecdsa_sha1; coin_p521_sha512; coin_pss256; coin_pss384_512;
   coin_mlkem_group; coin_x25519; coin_p521; coin_padding; coin_status; coin_sct; coin_reneg; coin_ems;
   coin_ks_p256; coin_ks_extra_p256; coin_ks_mlkem; coin_alps].

