(* C17 over Model/Hrr.v.  What the uTLS section of processHelloRetryRequest does to uconn.Extensions is said
   through four views of the list (no_cookie, cookies, pads, others): [diff_spec] gives each view of the new
   list in terms of the old one.  The re-marshal is MarshalP.marshal_framing over [to_aext]. *)
From UV Require Import Base.Common Model.Padding Model.Marshal Model.Prng Model.Hrr.
From UV Require Import Proofs.MarshalP Proofs.PrngP.

Definition no_cookie (es : list hext) : list hext := filter (fun e => negb (is_cookie e)) es.
Definition cookies (es : list hext) : list hext := filter is_cookie es.
Definition pads (es : list hext) : nat := length (filter is_hpad es).
Definition others (es : list hext) : list hext :=
  filter (fun e => negb (is_key_share e || is_cookie e || is_hpad e)) es.

Lemma filter_map_comm {A} (f : A -> bool) (g : A -> A) l : (forall x, f (g x) = f x) ->
  filter f (map g l) = map g (filter f l).
Proof.
  intros H. induction l as [|x l IH]; [reflexivity|]. cbn [map filter]. rewrite H, IH. destruct (f x); reflexivity.
Qed.
Lemma filter_map_fix {A} (f : A -> bool) (g : A -> A) l : (forall x, f (g x) = f x) -> (forall x, f x = true -> g x = x) ->
  filter f (map g l) = filter f l.
Proof.
  intros H Hfix. rewrite (filter_map_comm f g l H). induction l as [|x l IH]; [reflexivity|].
  cbn [filter]. destruct (f x) eqn:E; [cbn [map]; rewrite (Hfix x E), IH; reflexivity | exact IH].
Qed.

Lemma no_cookie_set_ks ks es : no_cookie (map (set_key_shares ks) es) = map (set_key_shares ks) (no_cookie es).
Proof. apply filter_map_comm. intros []; reflexivity. Qed.
Lemma cookies_set_ks ks es : cookies (map (set_key_shares ks) es) = cookies es.
Proof. apply filter_map_fix; intros []; try reflexivity; discriminate. Qed.
Lemma no_cookie_set_cookie c es : no_cookie (map (set_cookie c) es) = no_cookie es.
Proof. apply filter_map_fix; intros []; try reflexivity; discriminate. Qed.
Lemma cookies_set_cookie c es : cookies (map (set_cookie c) es) = map (fun _ => HCookie c) (cookies es).
Proof.
  induction es as [|e es IH]; [reflexivity|].
  unfold cookies in *. cbn [map filter]. destruct e; cbn [set_cookie is_cookie]; cbn [map]; rewrite ?IH; reflexivity.
Qed.
Lemma cookies_nil es : existsb is_cookie es = false -> cookies es = [].
Proof.
  induction es as [|e es IH]; [reflexivity|]. cbn [existsb]. intros H. apply orb_false_iff in H.
  destruct H as [H1 H2]. unfold cookies in *. cbn [filter]. rewrite H1. apply IH, H2.
Qed.
Lemma cookies_not_nil es : existsb is_cookie es = true -> cookies es <> [].
Proof.
  induction es as [|e es IH]; [discriminate|]. cbn [existsb]. unfold cookies in *. cbn [filter].
  destruct (is_cookie e); [discriminate|]. exact IH.
Qed.

Lemma filter_insert {A} (f : A -> bool) (i : nat) (x : A) (l : list A) :
  filter f (firstn i l ++ x :: skipn i l) = if f x then filter f (firstn i l) ++ x :: filter f (skipn i l) else filter f l.
Proof.
  rewrite filter_app. cbn [filter]. destruct (f x); [reflexivity|].
  rewrite <- filter_app, firstn_skipn. reflexivity.
Qed.
Lemma filter_insert_in {A} (f : A -> bool) (i : nat) (x : A) (l : list A) :
  f x = true -> filter f l = [] -> filter f (firstn i l ++ x :: skipn i l) = [x].
Proof.
  intros Hx Hl. rewrite filter_insert, Hx.
  assert (H : filter f (firstn i l) ++ filter f (skipn i l) = []) by (rewrite <- filter_app, firstn_skipn; exact Hl).
  apply app_eq_nil in H. destruct H as [-> ->]. reflexivity.
Qed.

Lemma pads_set_ks ks es : pads (map (set_key_shares ks) es) = pads es.
Proof. unfold pads. rewrite filter_map_comm by (intros []; reflexivity). apply map_length. Qed.
Lemma pads_set_cookie c es : pads (map (set_cookie c) es) = pads es.
Proof. unfold pads. rewrite filter_map_comm by (intros []; reflexivity). apply map_length. Qed.
Lemma pads_insert c i es : pads (firstn i es ++ HCookie c :: skipn i es) = pads es.
Proof. unfold pads. rewrite filter_insert. reflexivity. Qed.

Lemma ks_after_set ks es : Forall (fun e => is_key_share e = true -> e = HKeyShare ks) (map (set_key_shares ks) es).
Proof.
  induction es as [|e es IH]; [constructor|]. cbn [map]. constructor; [|exact IH].
  destruct e; cbn [set_key_shares is_key_share]; intros H; try discriminate; reflexivity.
Qed.
Lemma ks_keep_set_cookie ks c es :
  Forall (fun e => is_key_share e = true -> e = HKeyShare ks) es ->
  Forall (fun e => is_key_share e = true -> e = HKeyShare ks) (map (set_cookie c) es).
Proof.
  induction 1 as [|e es He _ IH]; [constructor|]. cbn [map]. constructor; [|exact IH].
  destruct e; cbn [set_cookie is_key_share] in *; try exact He; intros H; discriminate.
Qed.

Lemma others_no_cookie es : others (no_cookie es) = others es.
Proof.
  induction es as [|e es IH]; [reflexivity|]. unfold others, no_cookie in *. cbn [filter].
  destruct e; cbn [is_cookie is_key_share is_hpad negb orb]; cbn [filter is_cookie is_key_share is_hpad negb orb]; rewrite ?IH; reflexivity.
Qed.
Lemma others_set_ks ks es : others (map (set_key_shares ks) es) = others es.
Proof. apply filter_map_fix; intros []; try reflexivity; discriminate. Qed.
Lemma hemit_others u1 u2 es : map (hemit u1) (others es) = map (hemit u2) (others es).
Proof.
  induction es as [|e es IH]; [reflexivity|]. unfold others in *. cbn [filter].
  destruct e; cbn [is_cookie is_key_share is_hpad negb orb]; try exact IH.
  cbn [map hemit]. rewrite IH. reflexivity.
Qed.

Lemma cookie_index_range fuel s L i : (0 <= L)%Z -> cookie_index fuel s L = Some i ->
  (0 <= i)%Z /\ ((L <= 2)%Z -> i = 0%Z) /\ ((3 <= L)%Z -> (i <= L - 3)%Z).
Proof.
  intros HL H. unfold cookie_index in H.
  destruct (intn fuel (L - 2) s) as [[v r]|] eqn:E; [|discriminate]. inversion H; subst v; clear H.
  apply intn_spec in E. destruct E as [E0 E1].
  destruct (Z_le_gt_dec (L - 2) 0) as [Hn|Hn].
  - destruct (E0 Hn) as [-> _]. lia.
  - specialize (E1 ltac:(lia)). lia.
Qed.

Lemma insert_cookie_spec fuel s c es :
  match insert_cookie fuel s c es with
  | Ok es' => exists i : nat, (i < length es)%nat /\ ((length es <= 2)%nat -> i = 0%nat) /\
                ((3 <= length es)%nat -> (i + 3 <= length es)%nat) /\
                es' = firstn i es ++ HCookie c :: skipn i es
  | Err code => (code = E_PRNG /\ cookie_index fuel s (Z.of_nat (length es)) = None) \/ (code = E_COOKIE_INDEX /\ es = [])
  | Panic _ => False
  end.
Proof.
  unfold insert_cookie. set (L := Z.of_nat (length es)).
  destruct (cookie_index fuel s L) as [i|] eqn:E; [|left; split; reflexivity].
  destruct (cookie_index_range fuel s L i ltac:(lia) E) as (H0 & H1 & H2).
  destruct (i >=? L)%Z eqn:G.
  - right. split; [reflexivity|]. destruct es as [|e es]; [reflexivity|]. cbn [length] in L. lia.
  - unfold slice_ok. replace ((0 <=? i)%Z && (i <=? L)%Z) with true by lia. cbn [negb].
    exists (Z.to_nat i). repeat split; lia.
Qed.

Lemma last_app_ne {A} (a b : list A) d : b <> [] -> last (a ++ b) d = last b d.
Proof.
  intros Hb. induction a as [|x a IH]; [reflexivity|].
  cbn [app]. destruct (a ++ b) eqn:E.
  - apply app_eq_nil in E. destruct E as [_ E]. contradiction.
  - rewrite <- IH. reflexivity.
Qed.

Lemma last_insert {A} (i : nat) (x d : A) (l : list A) : (i < length l)%nat ->
  last (firstn i l ++ x :: skipn i l) d = last l d.
Proof.
  intros Hi. rewrite <- (firstn_skipn i l) at 3.
  assert (Hs : skipn i l <> []).
  { intros E. apply (f_equal (@length A)) in E. rewrite skipn_length in E. cbn in E. lia. }
  rewrite (last_app_ne _ _ d Hs). rewrite last_app_ne by discriminate.
  destruct (skipn i l) as [|y r] eqn:E; [contradiction|]. reflexivity.
Qed.

Lemma last_set_cookie c d l : is_cookie (last l d) = false -> last (map (set_cookie c) l) d = last l d.
Proof.
  induction l as [|e [|e2 l] IH]; [reflexivity | | exact IH].
  cbn [map last]. destruct e; try reflexivity. discriminate.
Qed.

Lemma no_cookie_has_ks es : existsb is_key_share es = true -> no_cookie es <> [].
Proof.
  induction es as [|a l IH]; [discriminate|]. cbn [existsb]. unfold no_cookie in *. cbn [filter].
  destruct a; cbn [is_cookie negb is_key_share orb]; try discriminate. exact IH.
Qed.

Definition diff_spec (ks : list (N * bytes)) (cookie : bytes) (es es' : list hext) : Prop :=
  (* apart from cookie extensions the list is the old one, element by element, in the same order,
     every key_share extension holding exactly the new shares and nothing else touched *)
  no_cookie es' = map (set_key_shares ks) (no_cookie es) /\
  Forall (fun e => is_key_share e = true -> e = HKeyShare ks) es' /\
  (* the cookie extension(s): none added without a cookie; updated when present; else exactly one inserted *)
  cookies es' = match cookie with
                | [] => cookies es
                | _ => match cookies es with [] => [HCookie cookie] | cs => map (fun _ => HCookie cookie) cs end
                end /\
  (* the final extension (pre_shared_key must be last) is still the final one *)
  (forall d, is_cookie (last (map (set_key_shares ks) es) d) = false ->
             last es' d = last (map (set_key_shares ks) es) d) /\
  pads es' = pads es.

Lemma hrr_exts_diff fuel s ks cookie es :
  existsb is_key_share es = true ->
  cookie_index fuel s (Z.of_nat (length es)) <> None ->
  exists es', hrr_exts fuel s 0 ks cookie es = Ok es' /\ diff_spec ks cookie es es'.
Proof.
  intros Hks Hprng. unfold hrr_exts. replace (0 <? 0) with false by reflexivity. rewrite Hks. cbn [negb].
  set (es1 := map (set_key_shares ks) es).
  destruct cookie as [|c0 cookie'].
  - exists es1. split; [reflexivity|]. unfold diff_spec, es1.
    rewrite no_cookie_set_ks, cookies_set_ks, pads_set_ks. repeat split; auto using ks_after_set.
  - set (cookie := c0 :: cookie') in *.
    destruct (existsb is_cookie es1) eqn:Hc.
    + exists (map (set_cookie cookie) es1). split; [reflexivity|]. unfold diff_spec.
      rewrite no_cookie_set_cookie, cookies_set_cookie, pads_set_cookie. unfold es1.
      rewrite no_cookie_set_ks, cookies_set_ks, pads_set_ks.
      assert (Hne : cookies es <> []) by (rewrite <- (cookies_set_ks ks); apply cookies_not_nil, Hc).
      split; [reflexivity|]. split; [apply ks_keep_set_cookie, ks_after_set|].
      split; [destruct (cookies es); [congruence|reflexivity]|]. split; [|reflexivity].
      intros d. fold es1. apply last_set_cookie.
    + pose proof (insert_cookie_spec fuel s cookie es1) as Hi.
      assert (Hlen : length es1 = length es) by apply map_length.
      destruct (insert_cookie fuel s cookie es1) as [es'|code|p]; [|exfalso|contradiction].
      * destruct Hi as (i & Hlt & _ & _ & ->). exists (firstn i es1 ++ HCookie cookie :: skipn i es1).
        split; [reflexivity|]. unfold diff_spec.
        split; [unfold no_cookie; rewrite filter_insert; cbn [is_cookie negb]; fold (no_cookie es1); apply no_cookie_set_ks|].
        split.
        { pose proof (ks_after_set ks es) as F. fold es1 in F.
          rewrite <- (firstn_skipn i es1) in F. apply Forall_app in F. destruct F as [F1 F2].
          apply Forall_app. split; [exact F1|]. constructor; [discriminate|exact F2]. }
        split.
        { pose proof (cookies_nil _ Hc) as Hn. unfold cookies in *. rewrite (filter_insert_in is_cookie i (HCookie cookie) es1 eq_refl Hn).
          fold (cookies es1) in Hn. unfold es1 in Hn. rewrite cookies_set_ks in Hn. unfold cookies in Hn. rewrite Hn. reflexivity. }
        split; [intros d _; apply last_insert; exact Hlt|].
        rewrite pads_insert. apply pads_set_ks.
      * destruct Hi as [[_ Hn]|[_ Hn]].
        -- rewrite Hlen in Hn. contradiction.
        -- unfold es1 in Hn. destruct es; [discriminate Hks|discriminate Hn].
Qed.

Definition frame (h : hello_hdr) (has_exts : bool) (eb : bytes) : bytes :=
  let body := u16be (h_vers h) ++ h_random h
              ++ [u8 (len (h_sid h))] ++ h_sid h
              ++ u16be (u16 (len (suites_bytes (h_suites h)))) ++ suites_bytes (h_suites h)
              ++ [u8 (len (h_comp h))] ++ h_comp h
              ++ (if has_exts then u16be (u16 (len eb)) ++ eb else []) in
  [typeClientHello] ++ u24be (len body) ++ body.

Lemma npad_to_aext es : npad (map to_aext es) = pads es.
Proof.
  induction es as [|e es IH]; [reflexivity|]. unfold npad, pads in *. cbn [map filter].
  destruct e; cbn [to_aext fixed_ext a_is_pad is_hpad length]; rewrite ?IH; reflexivity.
Qed.

Lemma to_aext_ok es : Forall aext_ok (map to_aext es).
Proof.
  induction es as [|e es IH]; [constructor|]. cbn [map]. constructor; [|exact IH].
  destruct e; cbn [to_aext]; try apply fixed_ext_ok. exact I.
Qed.

Lemma update_to_aext u es : update_padding u (map to_aext es) = map to_aext (map (hupdate u) es).
Proof.
  unfold update_padding. rewrite !map_map. apply map_ext. intros e. destruct e; reflexivity.
Qed.

Lemma prepare_hexts h es : (pads es <= 1)%nat ->
  exists p, marshal_prepare h (map to_aext es) = Ok p /\
            pr_exts p = map to_aext (map (hupdate (hunpadded h es)) es).
Proof.
  intros Hp. unfold marshal_prepare.
  pose proof (find_padding_count (map to_aext es) None) as Hc. rewrite npad_to_aext in Hc.
  destruct (find_padding (map to_aext es) None) as [pe|c|c] eqn:Hf; [|lia|contradiction].
  cbn [bind]. eexists. split; [reflexivity|]. cbn [pr_exts].
  destruct pe as [x|].
  - apply update_to_aext.
  - pose proof (find_padding_none _ _ Hf) as Hn. cbn in Hn.
    rewrite <- update_to_aext. symmetry. apply nopad_update. exact Hn.
Qed.

Lemma emits_hexts u es : forall outs, Forall2 emits (map to_aext (map (hupdate u) es)) outs -> outs = map (hemit u) es.
Proof.
  induction es as [|e es IH]; intros outs H.
  - inversion H. reflexivity.
  - cbn [map] in H. inversion H as [|a o l l' He Hr]; subst. cbn [map]. f_equal; [|apply IH; exact Hr].
    destruct e; cbn [hupdate to_aext hemit] in *; try exact (emits_inj _ _ _ He (fixed_ext_emits _ _)). exact He.
Qed.

Lemma marshal_hexts_spec bbs h es : hdr_ok h -> (pads es <= 1)%nat ->
  marshal_hexts bbs h es =
    Ok (frame h (match es with [] => false | _ => true end) (concat (map (hemit (hunpadded h es)) es))).
Proof.
  intros Hh Hp. destruct (prepare_hexts h es Hp) as (p & Hprep & Hexts).
  destruct (marshal_framing bbs h (map to_aext es) p Hh (to_aext_ok es) Hprep) as (body & eb & outs & Hm & Hb & Heb & Hem & _).
  rewrite Hexts in Hem. apply emits_hexts in Hem. subst outs eb.
  unfold marshal_hexts. rewrite Hm, Hb. unfold frame. destruct es; reflexivity.
Qed.

Lemma multi_pad_fails bbs h es : (2 <= pads es)%nat -> marshal_hexts bbs h es = Err E_MULTI_PADDING.
Proof.
  intros Hp. unfold marshal_hexts, marshal_client_hello, marshal_prepare.
  pose proof (find_padding_count (map to_aext es) None) as Hc. rewrite npad_to_aext in Hc.
  destruct (find_padding (map to_aext es) None) as [pe|c|c]; [lia | destruct Hc as [-> _]; reflexivity | contradiction].
Qed.

Lemma second_hello_spec bbs fuel s h ks cookie es :
  hdr_ok h -> (pads es <= 1)%nat -> existsb is_key_share es = true ->
  cookie_index fuel s (Z.of_nat (length es)) <> None ->
  exists es' raw,
    hrr_second_hello bbs fuel s h 0 ks cookie es = Ok (map (hupdate (hunpadded h es')) es', raw) /\
    diff_spec ks cookie es es' /\
    raw = frame h true (concat (map (hemit (hunpadded h es')) es')) /\
    map (hemit (hunpadded h es')) (others es') = map (hemit (hunpadded h es)) (others es).
Proof.
  intros Hh Hp Hks Hprng. destruct (hrr_exts_diff fuel s ks cookie es Hks Hprng) as (es' & He & Hd).
  exists es'. eexists. unfold hrr_second_hello. rewrite He. cbn [bind].
  assert (Hp' : (pads es' <= 1)%nat) by (destruct Hd as (_ & _ & _ & _ & ->); exact Hp).
  rewrite (marshal_hexts_spec bbs h es' Hh Hp'). cbn [bind].
  assert (Hne : es' <> []).
  { destruct Hd as (Hnc & _). intros ->. cbn in Hnc. symmetry in Hnc. apply map_eq_nil in Hnc.
    exact (no_cookie_has_ks es Hks Hnc). }
  split; [destruct es'; [congruence|reflexivity]|]. split; [exact Hd|]. split; [destruct es'; [congruence|reflexivity]|].
  destruct Hd as (Hnc & _). rewrite <- (others_no_cookie es'), Hnc, others_set_ks, others_no_cookie.
  apply hemit_others.
Qed.
