(* C14 — Server certificates are verified exactly as the Config requests.

   State of these files: they describe the code WITH fixes/C14-ech-rejected-public-name applied (the
   ECH-rejected branch of verifyServerCertificate verifies against c.serverName, the outer public name).
   On the unfixed code C14_name fails in that branch: see C14_ex_former_witness.

   The theorems hold for ARBITRARY behaviour of crypto/x509: cert, pool, Certificate.Verify (x509_verify),
   VerifyHostname, NotAfter, the chain pre-checks AND the name that was put into SNI (name_in_sni: hostnameInSNI(ServerName),
   empty for an IP literal or a client without SNI extension, anything a custom spec wrote) are universally quantified:
   the verification name never depends on it outside the ECH-rejected branch.
   Level: proof of the decision logic (which options reach the verifier, when its verdict is honoured);
   partial with respect to X.509 itself, which is not modelled. *)
From UV Require Import Base.Common Model.Verify Proofs.VerifyP.
Open Scope Z_scope.

(* The verification name is the one the property prescribes, in every branch that verifies:
   ServerName by default, InsecureServerNameToVerify when set, none for "*", and the ECH public name
   when the ECH offer was rejected. *)
Theorem C14_name :
  forall (cert pool : Type) (not_after : cert -> Z) (name_in_sni : name)
         (cfg : config pool) (ech_public_name : name) (ech_accepted : bool) (leaf : cert),
  config_accepted cfg = true -> ech_public_name <> [] ->
  forall c, c = conn_at_verify name_in_sni cfg ech_public_name ech_accepted ->
  ech_rejected cfg c = true \/ InsecureSkipVerify cfg = false ->
  used_name cert pool not_after cfg c leaf = expected_name cfg c ech_public_name.
Proof. exact used_name_is_expected. Qed.
Print Assumptions C14_name.

(* InsecureSkipTimeVerify changes the time handed to the verifier (to the leaf's NotAfter) and nothing else:
   roots and name are untouched, and on a chain whose verification is time-independent the flag has no effect. *)
Theorem C14_time :
  forall (cert pool : Type) (not_after : cert -> Z) (cfg : config pool) (c : conn) (leaf : cert) (b : bool),
  let o := verify_opts cert pool not_after (set_skip_time b cfg) c leaf in
  let o0 := verify_opts cert pool not_after cfg c leaf in
  o_roots o = o_roots o0 /\ o_dns_name o = o_dns_name o0 /\
  o_time o = (if b then not_after leaf else cfg_time cfg).
Proof.
  intros cert pool not_after cfg c leaf b.
  unfold verify_opts, set_skip_time, ech_rejected, dns_name, current_time. cbn.
  destruct (ech_config_list cfg && negb (c_ech_accepted c)); cbn; auto.
Qed.
Print Assumptions C14_time.

Theorem C14_time_only :
  forall (cert pool : Type) (x509_verify : pool -> Z -> name -> list cert -> bool) (not_after : cert -> Z)
         (chain_parses : list cert -> bool) (leaf_key_supported : cert -> bool)
         (cfg : config pool) (c : conn) (chain : list cert) (b : bool),
  (forall r t t' n, x509_verify r t n chain = x509_verify r t' n chain) ->
  verify_server_certificate cert pool x509_verify not_after chain_parses leaf_key_supported (set_skip_time b cfg) c chain
  = verify_server_certificate cert pool x509_verify not_after chain_parses leaf_key_supported cfg c chain.
Proof.
  intros cert pool x509_verify not_after chain_parses leaf_key_supported cfg c chain b Hins.
  destruct chain as [|leaf rest]; [reflexivity|]. apply skip_time_irrelevant, Hins.
Qed.
Print Assumptions C14_time_only.

(* The certificate passes verification exactly when InsecureSkipVerify is set (and ECH was not rejected) or
   Go's verifier accepts the chain against RootCAs, at the expected time, for the expected name
   (no user callbacks installed; the chain parses). *)
Theorem C14_decision :
  forall (cert pool : Type) (x509_verify : pool -> Z -> name -> list cert -> bool) (not_after : cert -> Z)
         (chain_parses : list cert -> bool) (leaf_key_supported : cert -> bool) (name_in_sni : name)
         (cfg : config pool) (ech_public_name : name) (ech_accepted : bool) (leaf : cert) (rest : list cert),
  config_accepted cfg = true -> ech_public_name <> [] ->
  chain_parses (leaf :: rest) = true -> leaf_key_supported leaf = true ->
  ech_rejection_verify cfg = None -> verify_callbacks_ok cfg = true ->
  forall c, c = conn_at_verify name_in_sni cfg ech_public_name ech_accepted ->
  (is_ok (verify_server_certificate cert pool x509_verify not_after chain_parses leaf_key_supported cfg c (leaf :: rest)) = true <->
   (ech_rejected cfg c = false /\ InsecureSkipVerify cfg = true) \/
   x509_verify (RootCAs cfg) (expected_time cert pool not_after cfg leaf)
               (dns_of_name (expected_name cfg c ech_public_name)) (leaf :: rest) = true).
Proof. exact decision. Qed.
Print Assumptions C14_decision.

(* The property as stated ("succeeds only if"), with no premise on callbacks or pre-checks (they can only refuse):
   a handshake that returns nil without InsecureSkipVerify had its chain accepted by the verifier for the
   expected name at the expected time. *)
Theorem C14_success_sound :
  forall (cert pool : Type) (x509_verify : pool -> Z -> name -> list cert -> bool) (not_after : cert -> Z)
         (chain_parses : list cert -> bool) (leaf_key_supported : cert -> bool) (name_in_sni : name)
         (cfg : config pool) (ech_public_name : name) (ech_accepted : bool) (chain : list cert),
  config_accepted cfg = true -> ech_public_name <> [] ->
  forall c, c = conn_at_verify name_in_sni cfg ech_public_name ech_accepted ->
  client_result cert pool x509_verify not_after chain_parses leaf_key_supported cfg c chain = HsOk ->
  InsecureSkipVerify cfg = false ->
  exists leaf rest, chain = leaf :: rest /\ ech_rejected cfg c = false /\
    x509_verify (RootCAs cfg) (expected_time cert pool not_after cfg leaf)
                (dns_of_name (expected_name cfg c ech_public_name)) chain = true.
Proof.
  intros cert pool x509_verify not_after chain_parses leaf_key_supported name_in_sni cfg pub accepted chain
         Hacc Hpub c Hc Hres Hsv.
  pose proof (client_result_cases cert pool x509_verify not_after chain_parses leaf_key_supported cfg c chain) as H.
  rewrite Hres in H. destruct H as [Hok Hrej].
  destruct (verify_ok_ran _ _ _ _ _ _ cfg c chain Hok) as (leaf & rest & -> & H); [rewrite Hrej; exact Hsv|].
  exists leaf, rest. split; [reflexivity|]. split; [exact Hrej|].
  rewrite <- (run_x509_expected _ _ _ _ name_in_sni cfg pub accepted leaf _ Hacc Hpub c Hc (or_intror Hsv)). exact H.
Qed.
Print Assumptions C14_success_sound.

(* The same with Certificate.Verify split into chain verification and the name check (the structure of
   crypto/x509: an empty DNSName skips VerifyHostname): the leaf matches the verification name. *)
Theorem C14_success_name_matches :
  forall (cert pool : Type) (x509_verify : pool -> Z -> name -> list cert -> bool)
         (verify_hostname : cert -> name -> bool) (not_after : cert -> Z)
         (chain_parses : list cert -> bool) (leaf_key_supported : cert -> bool) (name_in_sni : name)
         (chain_verify : pool -> Z -> list cert -> bool),
  (forall r t n leaf rest,
     x509_verify r t n (leaf :: rest) = chain_verify r t (leaf :: rest) && (is_empty n || verify_hostname leaf n)) ->
  forall (cfg : config pool) (ech_public_name : name) (ech_accepted : bool) (chain : list cert),
  config_accepted cfg = true -> ech_public_name <> [] ->
  forall c, c = conn_at_verify name_in_sni cfg ech_public_name ech_accepted ->
  client_result cert pool x509_verify not_after chain_parses leaf_key_supported cfg c chain = HsOk ->
  InsecureSkipVerify cfg = false ->
  exists leaf rest, chain = leaf :: rest /\
    chain_verify (RootCAs cfg) (expected_time cert pool not_after cfg leaf) chain = true /\
    match expected_name cfg c ech_public_name with
    | Some n => n <> [] /\ verify_hostname leaf n = true
    | None => True
    end.
Proof.
  intros cert pool x509_verify verify_hostname not_after chain_parses leaf_key_supported name_in_sni chain_verify
         Hstructure cfg pub accepted chain Hacc Hpub c Hc Hres Hsv.
  destruct (C14_success_sound _ _ _ _ _ _ name_in_sni cfg pub accepted chain Hacc Hpub c Hc Hres Hsv)
    as (leaf & rest & -> & Hrej & Hx).
  exists leaf, rest. split; [reflexivity|]. rewrite Hstructure in Hx. apply andb_true_iff in Hx.
  destruct Hx as [Hcv Hn]. split; [exact Hcv|].
  rewrite <- (dns_name_expected pool cfg c pub Hacc Hrej Hsv) in *. rewrite dns_of_name_of_dns in Hn.
  unfold name_of_dns. destruct (is_empty (dns_name cfg)) eqn:Hemp; [exact I|].
  split; [apply is_empty_false; exact Hemp|exact Hn].
Qed.
Print Assumptions C14_success_name_matches.

(* ECH: ECHRejectionError (with the retry configs) is returned only after the chain verified for the ECH
   public name, whatever ServerName / InsecureServerNameToVerify / InsecureSkipVerify say ... *)
Theorem C14_ech_rejected_sound :
  forall (cert pool : Type) (x509_verify : pool -> Z -> name -> list cert -> bool) (not_after : cert -> Z)
         (chain_parses : list cert -> bool) (leaf_key_supported : cert -> bool) (name_in_sni : name)
         (cfg : config pool) (ech_public_name : name) (ech_accepted : bool) (chain : list cert),
  config_accepted cfg = true -> ech_public_name <> [] -> ech_rejection_verify cfg = None ->
  forall c, c = conn_at_verify name_in_sni cfg ech_public_name ech_accepted ->
  client_result cert pool x509_verify not_after chain_parses leaf_key_supported cfg c chain = HsEchRejected ->
  exists leaf rest, chain = leaf :: rest /\ ech_config_list cfg = true /\ ech_accepted = false /\
    x509_verify (RootCAs cfg) (expected_time cert pool not_after cfg leaf) ech_public_name chain = true.
Proof.
  intros cert pool x509_verify not_after chain_parses leaf_key_supported name_in_sni cfg pub accepted chain
         Hacc Hpub Hcb c Hc Hres.
  pose proof (client_result_cases cert pool x509_verify not_after chain_parses leaf_key_supported cfg c chain) as H.
  rewrite Hres in H. destruct H as [Hok Hrej].
  destruct (verify_ok_ran _ _ _ _ _ _ cfg c chain Hok) as (leaf & rest & -> & H); [rewrite Hrej; exact Hcb|].
  exists leaf, rest. split; [reflexivity|].
  rewrite (run_x509_expected _ _ _ _ name_in_sni cfg pub accepted leaf _ Hacc Hpub c Hc (or_introl Hrej)) in H.
  unfold expected_name in H. rewrite Hrej in H.
  rewrite Hc, rejected_at_verify in Hrej. apply andb_true_iff in Hrej. destruct Hrej as [He Ha].
  apply negb_true_iff in Ha. auto.
Qed.
Print Assumptions C14_ech_rejected_sound.

(* ... and conversely a chain that verifies for the expected name is never refused: the caller gets nil, or
   ECHRejectionError when the offer was rejected (this is the half that failed before the fix). *)
Theorem C14_complete :
  forall (cert pool : Type) (x509_verify : pool -> Z -> name -> list cert -> bool) (not_after : cert -> Z)
         (chain_parses : list cert -> bool) (leaf_key_supported : cert -> bool) (name_in_sni : name)
         (cfg : config pool) (ech_public_name : name) (ech_accepted : bool) (leaf : cert) (rest : list cert),
  config_accepted cfg = true -> ech_public_name <> [] ->
  chain_parses (leaf :: rest) = true -> leaf_key_supported leaf = true ->
  ech_rejection_verify cfg = None -> verify_callbacks_ok cfg = true ->
  forall c, c = conn_at_verify name_in_sni cfg ech_public_name ech_accepted ->
  x509_verify (RootCAs cfg) (expected_time cert pool not_after cfg leaf)
              (dns_of_name (expected_name cfg c ech_public_name)) (leaf :: rest) = true ->
  client_result cert pool x509_verify not_after chain_parses leaf_key_supported cfg c (leaf :: rest)
  = (if ech_rejected cfg c then HsEchRejected else HsOk).
Proof.
  intros cert pool x509_verify not_after chain_parses leaf_key_supported name_in_sni cfg pub accepted leaf rest
         Hacc Hpub Hp Hk Hcb Hvc c Hc Hx.
  assert (Hok : is_ok (verify_server_certificate cert pool x509_verify not_after chain_parses leaf_key_supported
                                                 cfg c (leaf :: rest)) = true).
  { apply (C14_decision _ _ _ _ _ _ name_in_sni cfg pub accepted leaf rest Hacc Hpub Hp Hk Hcb Hvc c Hc).
    right. exact Hx. }
  unfold client_result. destruct (verify_server_certificate _ _ _ _ _ _ cfg c (leaf :: rest)); try discriminate.
  reflexivity.
Qed.
Print Assumptions C14_complete.

(* Resumption: loadSession offers a cached session exactly when its leaf is unexpired at Config.Time (unless
   InsecureSkipTimeVerify) and, unless InsecureSkipVerify, it was verified when it was established and its
   leaf matches the CURRENT expected name. *)
Theorem C14_resumed :
  forall (cert pool : Type) (verify_hostname : cert -> name -> bool) (not_after : cert -> Z)
         (cfg : config pool) (s : session cert) (c : conn) (ech_public_name : name),
  config_accepted cfg = true -> ech_rejected cfg c = false ->
  (load_session_cert_checks cert pool verify_hostname not_after cfg s = true <->
   (InsecureSkipTimeVerify cfg = false -> cfg_time cfg <= not_after (s_leaf s)) /\
   (InsecureSkipVerify cfg = false ->
      s_has_verified_chains s = true /\
      match expected_name cfg c ech_public_name with
      | Some n => verify_hostname (s_leaf s) n = true
      | None => True
      end)).
Proof.
  intros cert pool verify_hostname not_after cfg s c pub Hacc Hrej.
  rewrite load_session_iff. apply and_iff_compat_l.
  split; intros H Hsv; specialize (H Hsv);
    [rewrite <- (dns_name_expected pool cfg c pub Hacc Hrej Hsv)|rewrite <- (dns_name_expected pool cfg c pub Hacc Hrej Hsv) in H];
    exact H.
Qed.
Print Assumptions C14_resumed.

(* the examples below meet every premise of the theorems above on concrete names *)
Definition ex_S : name := [115; 46; 116]%N.   (* "s.t" *)
Definition ex_O : name := [111; 46; 116]%N.   (* "o.t" *)
Definition ex_P : name := [112; 46; 116]%N.   (* "p.t" *)
Definition ex_W : name := [119; 46; 116]%N.   (* "w.t": what went into SNI in the examples - unrelated to every other name *)
Definition ex_roots : tpool := [TRoot 1 0 1000].
Definition ex_cfg (inv : name) (sv st ech : bool) : config tpool := mkConfig ex_S inv sv st ex_roots 500 ech None true.
Definition ex_leaf (names : list name) : tcert := TCert names 400 600 1 0.

(* the witness of F-14: ECH rejected, client-facing server presents a certificate for the public name.
   The unfixed selection verifies against the secret name (refusing it); the fixed one against the public name. *)
Example C14_ex_former_witness :
  let cfg := ex_cfg [] false false true in
  let c := t_conn ex_W cfg ex_P false in
  used_name_unfixed tcert tpool t_na cfg c (ex_leaf [ex_P]) = Some ex_S /\
  expected_name cfg c ex_P = Some ex_P /\
  used_name tcert tpool t_na cfg c (ex_leaf [ex_P]) = Some ex_P /\
  t_result cfg c [ex_leaf [ex_P]] = HsEchRejected /\
  t_result cfg c [ex_leaf [ex_S]] = HsCertError.
Proof. vm_compute. repeat split. Qed.

(* the premises of C14_decision / C14_complete are satisfiable and the verdict is not constant *)
Example C14_ex_decision :
  let cfg := ex_cfg ex_O false false false in
  config_accepted cfg = true /\ ech_rejection_verify cfg = None /\ verify_callbacks_ok cfg = true /\
  t_result cfg (t_conn ex_W cfg ex_P false) [ex_leaf [ex_O]] = HsOk /\
  t_result cfg (t_conn ex_W cfg ex_P false) [ex_leaf [ex_S]] = HsCertError /\
  t_result (ex_cfg [42%N] false false false) (t_conn ex_W cfg ex_P false) [ex_leaf [ex_P]] = HsOk /\
  t_result (ex_cfg [] false false false) (t_conn ex_W cfg ex_P false) [TCert [ex_S] 400 600 2 0] = HsCertError /\
  t_result (ex_cfg [] true false false) (t_conn ex_W cfg ex_P false) [TCert [ex_P] 400 600 2 0] = HsOk.
Proof. vm_compute. repeat split. Qed.

(* the structural hypothesis of C14_success_name_matches holds for the concrete X.509 *)
Example C14_ex_structure : forall r t n leaf rest,
  toy_x509_verify r t n (leaf :: rest) = toy_chain_verify r t (leaf :: rest) && (is_empty n || toy_verify_hostname leaf n).
Proof. reflexivity. Qed.

(* InsecureSkipTimeVerify does matter on an expired leaf, and changes nothing but the time: a wrong name is
   still refused *)
Example C14_ex_time :
  t_result (ex_cfg [] false false false) (t_conn ex_W (ex_cfg [] false false false) ex_P false) [TCert [ex_S] 100 200 1 0] = HsCertError /\
  t_result (ex_cfg [] false true false) (t_conn ex_W (ex_cfg [] false true false) ex_P false) [TCert [ex_S] 100 200 1 0] = HsOk /\
  t_result (ex_cfg [] false true false) (t_conn ex_W (ex_cfg [] false true false) ex_P false) [TCert [ex_O] 100 200 1 0] = HsCertError.
Proof. vm_compute. repeat split. Qed.

(* names that never reach SNI: an IP-literal ServerName (SNI empty) is still the verification name — a leaf without that
   IP SAN is refused, one with it accepted, brackets and a trailing dot are handled by VerifyHostname *)
Example C14_ex_ip_name :
  let ip := [49; 46; 50; 46; 51; 46; 52]%N in          (* "1.2.3.4" *)
  let cfg := mkConfig ip [] false false ex_roots 500 false None true in
  let c := t_conn [] cfg ex_P false in
  c_server_name c = [] /\
  used_name tcert tpool t_na cfg c (ex_leaf [ex_S]) = Some ip /\
  t_result cfg c [ex_leaf [ex_S]] = HsCertError /\
  t_result cfg c [ex_leaf [ip]] = HsOk /\
  t_result (mkConfig (91%N :: ip ++ [93%N]) [] false false ex_roots 500 false None true) c [ex_leaf [ip]] = HsOk /\
  t_result (mkConfig (ex_S ++ [46%N]) [] false false ex_roots 500 false None true) c [ex_leaf [ex_S]] = HsOk.
Proof. vm_compute. repeat split. Qed.

(* chains with an intermediate: trusted only through a root, and every certificate of the path must be valid at
   the verification time — with InsecureSkipTimeVerify that time is the leaf's NotAfter, so an intermediate that
   expires before the leaf is refused, and an untrusted root is refused whatever the flag says *)
Example C14_ex_intermediate :
  let leaf := TCert [ex_S] 400 600 7 0 in
  t_result (ex_cfg [] false false false) (t_conn ex_W (ex_cfg [] false false false) ex_P false) [leaf; TCert [] 300 700 1 7] = HsOk /\
  t_result (ex_cfg [] false true false) (t_conn ex_W (ex_cfg [] false true false) ex_P false) [leaf; TCert [] 300 700 1 7] = HsOk /\
  t_result (ex_cfg [] false false false) (t_conn ex_W (ex_cfg [] false false false) ex_P false) [leaf; TCert [] 300 550 1 7] = HsOk /\
  t_result (ex_cfg [] false true false) (t_conn ex_W (ex_cfg [] false true false) ex_P false) [leaf; TCert [] 300 550 1 7] = HsCertError /\
  t_result (ex_cfg [] false true false) (t_conn ex_W (ex_cfg [] false true false) ex_P false) [leaf; TCert [] 300 550 2 7] = HsCertError /\
  t_result (ex_cfg [] false false false) (t_conn ex_W (ex_cfg [] false false false) ex_P false) [leaf] = HsCertError.
Proof. vm_compute. repeat split. Qed.

(* resumption: offered for a matching unexpired verified leaf; not for a wrong name, an expired leaf, or a
   session that was established with InsecureSkipVerify *)
Example C14_ex_resumed :
  t_load_session (ex_cfg [] false false false) (mkSession (ex_leaf [ex_S]) true) = true /\
  t_load_session (ex_cfg ex_O false false false) (mkSession (ex_leaf [ex_S]) true) = false /\
  t_load_session (ex_cfg [42%N] false false false) (mkSession (ex_leaf [ex_P]) true) = true /\
  t_load_session (ex_cfg [] false false false) (mkSession (TCert [ex_S] 100 200 1 0) true) = false /\
  t_load_session (ex_cfg [] false true false) (mkSession (TCert [ex_S] 100 200 1 0) true) = true /\
  t_load_session (ex_cfg [] false false false) (mkSession (ex_leaf [ex_S]) false) = false.
Proof. vm_compute. repeat split. Qed.
