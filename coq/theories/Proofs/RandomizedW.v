(* Weight corners of generateRandomizedSpec: weight <= 0 => optional feature absent (unless a
   TLS 1.3 rule forces it), weight >= 1 => present (no zero draw). *)
From UV Require Import Base.Common Model.Prng Proofs.PrngP Model.Randomized Proofs.RandomizedP.
From Coq Require Import QArith.
Open Scope N_scope.

Lemma weight0_absent rnd : ieee_laws rnd -> forall fuel tb v w sn np s salted p,
  generate rnd fuel tb v w sn np s salted = Ok p ->
  (w_le0 (w_tls13 w) -> sp_max p = VersionTLS12) /\
  (w_le0 (w_alpn w) -> v = VRandomized -> forall q, ~ In (EALPN q) (sp_exts p)) /\
  (w_le0 (w_padding w) -> sp_max p <> VersionTLS13 -> ~ In EPadding (sp_exts p)) /\
  (w_le0 (w_status w) -> ~ In EStatus (sp_exts p)) /\
  (w_le0 (w_sct w) -> ~ In ESCT (sp_exts p)) /\
  (w_le0 (w_reneg w) -> forall m, ~ In (EReneg m) (sp_exts p)) /\
  (w_le0 (w_ems w) -> ~ In EEMS (sp_exts p)) /\
  (w_le0 (w_alps w) -> forall q, ~ In (EALPS q) (sp_exts p)).
Proof.
  intros L fuel tb v w sn np s salted p G. apply generate_inv in G. destruct G as (d & -> & Hok).
  cbn [spec_of sp_max sp_exts]. pose proof (fun st w0 b F => FlipIn_false rnd st w0 b L F) as off.
  split; [intros Hw; rewrite (off _ _ _ (ok_13 d Hok) Hw); reflexivity|].
  split; [intros Hw -> q; rewrite (in_exts Hok); cbv iota; rewrite (off _ _ _ (ok_alpn d Hok) Hw); intros [E _]; discriminate E|].
  split; [intros Hw Hne; rewrite (in_exts Hok); cbv iota; rewrite (off _ _ _ (ok_pad d Hok) Hw); rewrite is13_true in Hne;
          destruct (d_13 d); [contradiction|discriminate]|].
  split; [intros Hw; rewrite (in_exts Hok); cbv iota; rewrite (off _ _ _ (ok_status d Hok) Hw); discriminate|].
  split; [intros Hw; rewrite (in_exts Hok); cbv iota; rewrite (off _ _ _ (ok_sct d Hok) Hw); discriminate|].
  split; [intros Hw m; rewrite (in_exts Hok); cbv iota; rewrite (off _ _ _ (ok_reneg d Hok) Hw); intros [E _]; discriminate E|].
  split; [intros Hw; rewrite (in_exts Hok); cbv iota; rewrite (off _ _ _ (ok_ems d Hok) Hw); discriminate|].
  intros Hw q. rewrite (in_exts Hok); cbv iota; rewrite andb_true_iff. intros (E13 & [Ea E] & _).
  rewrite (off _ _ _ (ok_alps d Hok E13 Ea) Hw) in E. discriminate E.
Qed.

Lemma weight1_present rnd : ieee_laws rnd -> forall fuel tb v w sn np s salted p,
  generate rnd fuel tb v w sn np s salted = Ok p -> nz s -> nz salted ->
  (w_ge1 (w_tls13 w) -> sp_max p = VersionTLS13) /\
  (w_ge1 (w_alpn w) -> v = VRandomized -> exists q, In (EALPN q) (sp_exts p)) /\
  (w_ge1 (w_padding w) -> In EPadding (sp_exts p)) /\
  (w_ge1 (w_status w) -> In EStatus (sp_exts p)) /\
  (w_ge1 (w_sct w) -> In ESCT (sp_exts p)) /\
  (w_ge1 (w_reneg w) -> In (EReneg RenegotiateOnceAsClient) (sp_exts p)) /\
  (w_ge1 (w_ems w) -> In EEMS (sp_exts p)) /\
  (w_ge1 (w_alps w) -> sp_max p = VersionTLS13 -> (exists q, In (EALPN q) (sp_exts p)) -> In (EALPS [proto_h2]) (sp_exts p)).
Proof.
  intros L fuel tb v w sn np s salted p G Z1 Z2. apply generate_inv in G. destruct G as (d & -> & Hok).
  cbn [spec_of sp_max sp_exts]. pose proof (fun w0 b F Hw => FlipIn_true rnd s w0 b L F Hw Z1) as on.
  split; [intros Hw; rewrite (on _ _ (ok_13 d Hok) Hw); reflexivity|].
  split; [intros Hw ->; apply (has_alpn Hok); exact (on _ _ (ok_alpn d Hok) Hw)|].
  split; [intros Hw; rewrite (in_exts Hok); cbv iota; rewrite (on _ _ (ok_pad d Hok) Hw); reflexivity|].
  split; [intros Hw; rewrite (in_exts Hok); exact (on _ _ (ok_status d Hok) Hw)|].
  split; [intros Hw; rewrite (in_exts Hok); exact (on _ _ (ok_sct d Hok) Hw)|].
  split; [intros Hw; rewrite (in_exts Hok); cbv iota; rewrite (on _ _ (ok_reneg d Hok) Hw); auto|].
  split; [intros Hw; rewrite (in_exts Hok); exact (on _ _ (ok_ems d Hok) Hw)|].
  intros Hw E13 Ea. apply is13_true in E13. apply (has_alpn Hok) in Ea.
  rewrite (in_exts Hok); cbv iota; rewrite Ea, (FlipIn_true _ _ _ _ L (ok_alps d Hok E13 Ea) Hw Z2). auto.
Qed.
