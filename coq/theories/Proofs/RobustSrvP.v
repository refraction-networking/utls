(* C34 over Model/RobustSrv.v: every cryptobyte read is total (Ok of a value or Ok None for a short input, never a
   panic: the slice expressions are guarded), hence so are the two uTLS unmarshallers and readHandshake. *)
From UV Require Import Base.Common Model.RobustSrv.

Lemma slice_ok s n : (0 <= n <= Z.of_nat (length s))%Z ->
  slice_to s n = Ok (firstn (Z.to_nat n) s) /\ slice_from s n = Ok (skipn (Z.to_nat n) s).
Proof.
  intros H. unfold slice_to, slice_from. destruct (Z.ltb_spec n 0); [lia|].
  destruct (Z.ltb_spec (Z.of_nat (length s)) n); [lia|]. split; reflexivity.
Qed.

(* String.read guards its two slice expressions *)
Lemma cb_read_eq s n : cb_read s n =
  if ((Z.of_nat (length s) <? n) || (n <? 0))%Z then Ok None else Ok (Some (firstn (Z.to_nat n) s, skipn (Z.to_nat n) s)).
Proof.
  unfold cb_read. destruct (Z.ltb_spec (Z.of_nat (length s)) n), (Z.ltb_spec n 0); cbn [orb]; try reflexivity.
  destruct (slice_ok s n) as [-> ->]; [lia|reflexivity].
Qed.

Lemma cb_read_total s n : exists r, cb_read s n = Ok r /\
  forall v rest, r = Some (v, rest) -> (0 <= n)%Z /\ length v = Z.to_nat n /\ length s = (length v + length rest)%nat.
Proof.
  rewrite cb_read_eq. destruct (Z.ltb_spec (Z.of_nat (length s)) n), (Z.ltb_spec n 0); cbn [orb];
    (eexists; split; [reflexivity|]); intros v rest E; try discriminate.
  injection E as <- <-. rewrite firstn_length, skipn_length. lia.
Qed.

Lemma idx_ok s i : (i < length s)%nat -> exists x, idx s i = Ok x.
Proof. intros H. unfold idx. destruct (nth_error s i) eqn:E; [eauto|]. apply nth_error_None in E. lia. Qed.

Lemma be_acc_total v : forall n i acc, (i + n <= length v)%nat -> exists x, be_acc v i n acc = Ok x.
Proof.
  induction n as [|n IH]; intros i acc H; cbn [be_acc]; [eauto|].
  destruct (idx_ok v i ltac:(lia)) as (x & ->). cbn [bind]. apply IH. lia.
Qed.

Lemma cb_uint_total k s : exists r, cb_uint k s = Ok r /\
  forall x rest, r = Some (x, rest) -> length s = (k + length rest)%nat.
Proof.
  unfold cb_uint. destruct (cb_read_total s (Z.of_nat k)) as (r & -> & Hr). cbn [bind].
  destruct r as [[v rest]|]; [|eexists; split; [reflexivity|intros; discriminate]].
  destruct (Hr v rest eq_refl) as (_ & Hv & Hs).
  destruct (be_acc_total v k 0%nat 0 ltac:(lia)) as (x & ->). cbn [bind].
  eexists; split; [reflexivity|]. intros x' rest' E. injection E as <- <-. lia.
Qed.

Lemma cb_lp_total k s : exists r, cb_lp k s = Ok r /\
  forall body rest, r = Some (body, rest) -> length s = (k + length body + length rest)%nat.
Proof.
  unfold cb_lp. destruct (cb_uint_total k s) as (r & -> & Hr). cbn [bind].
  destruct r as [[n rest]|]; [|eexists; split; [reflexivity|intros; discriminate]].
  pose proof (Hr n rest eq_refl) as Hs.
  destruct (cb_read_total rest (Z.of_N n)) as (r2 & -> & Hr2).
  eexists; split; [reflexivity|]. intros body rest' ->. destruct (Hr2 body rest' eq_refl) as (_ & _ & H). lia.
Qed.

Lemma cb_skip_total n s : exists r, cb_skip n s = Ok r.
Proof. unfold cb_skip. destruct (cb_read_total s n) as (r & -> & _). cbn [bind]. eauto. Qed.

Theorem cc_unmarshal_total data : exists r, cc_unmarshal data = Ok r.
Proof.
  unfold cc_unmarshal. destruct (cb_skip_total 4 data) as ([s|] & ->); cbn [bind]; [|eauto].
  destruct (cb_uint_total 2 s) as ([[a s1]|] & -> & _); cbn [bind]; [|eauto].
  destruct (cb_uint_total 3 s1) as ([[l s2]|] & -> & _); cbn [bind]; [|eauto].
  destruct (cb_lp_total 3 s2) as ([[c s3]|] & -> & _); cbn [bind]; eauto.
Qed.

Lemma cee_loop_total : forall fuel exts st, (length exts <= fuel)%nat -> exists r, cee_loop fuel exts st = Ok r.
Proof.
  induction fuel as [|fuel IH]; intros exts st H.
  - destruct exts; [cbn; eauto|cbn in H; lia].
  - cbn [cee_loop]. destruct (is_empty exts); [eauto|].
    destruct (cb_uint_total 2 exts) as ([[id e1]|] & -> & H1); cbn [bind]; [|eauto].
    pose proof (H1 id e1 eq_refl) as L1.
    destruct (cb_lp_total 2 e1) as ([[body e2]|] & -> & H2); cbn [bind]; [|eauto].
    pose proof (H2 body e2 eq_refl) as L2.
    destruct ((id =? ext_alps_old) || (id =? ext_alps_new)); [|eauto]. apply IH. lia.
Qed.

Theorem cee_unmarshal_total data : exists r, cee_unmarshal data = Ok r.
Proof.
  unfold cee_unmarshal. destruct (cb_skip_total 4 data) as ([s|] & ->); cbn [bind]; [|eauto].
  destruct (cb_lp_total 2 s) as ([[exts rest]|] & -> & _); cbn [bind]; [|eauto].
  destruct (negb (is_empty rest)); [eauto|]. apply cee_loop_total. lia.
Qed.

Lemma unmarshal_of_total std t d : exists b, unmarshal_of std t d = Ok b.
Proof.
  destruct t; cbn [unmarshal_of]; try (eexists; reflexivity).
  - destruct (cee_unmarshal_total d) as (r & ->). cbn [bind]. eauto.
  - destruct (cc_unmarshal_total d) as (r & ->). cbn [bind]. eauto.
Qed.

(* every outcome of readHandshake at once: no panic; an alert is one of two; a returned message is a prefix of the
   buffer, of the Go type its first byte selects, and no longer than the larger of the two limits *)
Lemma read_handshake_spec std c hv vers hand : exists o, read_handshake std c hv vers hand = Ok o /\
  match o with
  | NeedMore => True
  | RAlert a => a = alert_internal_error \/ a = alert_unexpected_message
  | RMsg t data => exists d0 k, nth_error hand 0 = Some d0 /\ type_of_byte c vers d0 = Some t /\ data = firstn k hand /\
                     N.of_nat (length data) <= maxHandshakeCertificateMsg + 4
  end.
Proof.
  unfold read_handshake.
  destruct hand as [|h0 [|h1 [|h2 [|h3 hand]]]]; try (eexists; split; [reflexivity|exact I]).
  change (length (h0 :: h1 :: h2 :: h3 :: hand) <? 4)%nat with false. cbv iota.
  replace (if hv then do d0 <- idx (h0 :: h1 :: h2 :: h3 :: hand) 0; Ok (d0 =? 11) else Ok false)
    with (Ok (hv && (h0 =? 11))) by (destruct hv; reflexivity).
  cbn [bind idx nth_error]. set (n := h1 * 65536 + h2 * 256 + h3).
  destruct (N.ltb_spec (if hv && (h0 =? 11) then maxHandshakeCertificateMsg else maxHandshake) n) as [Hm|Hm];
    [eexists; split; [reflexivity|left; reflexivity]|].
  destruct (_ <? _)%nat; [eexists; split; [reflexivity|exact I]|].
  unfold unmarshal_handshake_message. cbn [Nat.add firstn idx nth_error bind].
  destruct (type_of_byte c vers h0) as [t|] eqn:Et; [|eexists; split; [reflexivity|right; reflexivity]].
  match goal with |- context [unmarshal_of ?s ?t ?d] => destruct (unmarshal_of_total s t d) as ([|] & ->) end; cbn [bind];
    (eexists; split; [reflexivity|]); [|right; reflexivity].
  exists h0, (4 + N.to_nat n)%nat. repeat split; [exact Et|].
  cbn [length]. rewrite firstn_length. unfold maxHandshakeCertificateMsg, maxHandshake in *. destruct (hv && _) in Hm; lia.
Qed.

Theorem read_handshake_total std c hv vers hand : exists o, read_handshake std c hv vers hand = Ok o.
Proof. destruct (read_handshake_spec std c hv vers hand) as (o & E & _). eauto. Qed.

(* the Go types allocated for the two uTLS type bytes on a server are accepted at no read point *)
Lemma dispatch_utls rp t : t = T_utlsClientEncryptedExtensions \/ t = T_utlsCompressedCertificate ->
  dispatch rp t = SAlert alert_unexpected_message.
Proof. intros [-> | ->]; destruct rp; reflexivity. Qed.

Theorem server_rejects_utls_types std rp hv vers hand o d0 :
  server_step std rp hv vers hand = Ok o -> nth_error hand 0 = Some d0 -> d0 = 8 \/ d0 = 25 ->
  o = SNeedMore \/ o = SAlert alert_internal_error \/ o = SAlert alert_unexpected_message.
Proof.
  unfold server_step. intros E H0 Hd. destruct (read_handshake_spec std false hv vers hand) as (r & Er & Hr).
  rewrite Er in E. cbn [bind] in E. injection E as <-. destruct r as [|a|t data].
  - left; reflexivity.
  - destruct Hr as [-> | ->]; auto.
  - destruct Hr as (d & _ & Hd0 & Ht & _). rewrite H0 in Hd0. injection Hd0 as <-. right. right.
    apply dispatch_utls. destruct Hd as [-> | ->]; cbn in Ht; injection Ht as <-; auto.
Qed.
