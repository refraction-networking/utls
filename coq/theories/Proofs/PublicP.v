(* The public/private converters of u_public.go (Model/Public.v): a slice rebuilt by the append loop keeps its
   elements, but an empty non-nil slice comes back nil; the [*_view]s name the fields a round trip preserves. *)
From Coq Require Import String.
From UV Require Import Base.Common Model.Public.
Open Scope N_scope.

(* the append loop is map, except that an empty input gives nil *)
Lemma append_loop_acc {A B} (f : A -> B) l : forall acc,
  fold_left (fun acc x => match acc with None => Some [f x] | Some o => Some (o ++ [f x]) end) l (Some acc)
  = Some (acc ++ map f l).
Proof.
  induction l as [|x l IH]; intros acc; cbn [fold_left map].
  - now rewrite app_nil_r.
  - rewrite IH. now rewrite <- app_assoc.
Qed.

Lemma append_loop_spec {A B} (f : A -> B) l :
  append_loop f l = match l with [] => None | _ => Some (map f l) end.
Proof.
  destruct l as [|x l]; [reflexivity|]. unfold append_loop. cbn [fold_left]. now rewrite append_loop_acc.
Qed.

Lemma elems_rebuild {A B} (f : A -> B) s : elems (rebuild f s) = map f (elems s).
Proof. destruct s as [[|x l]|]; try reflexivity. unfold rebuild. now rewrite append_loop_spec. Qed.

Lemma elems_rebuild2 {A B} (f : A -> B) (g : B -> A) s :
  (forall x, g (f x) = x) -> elems (rebuild g (rebuild f s)) = elems s.
Proof.
  intros H. rewrite !elems_rebuild, map_map. rewrite <- (map_id (elems s)) at 2. apply map_ext. exact H.
Qed.

(* exact round trip unless the slice is empty but not nil *)
Lemma rebuild2_exact {A B} (f : A -> B) (g : B -> A) s :
  (forall x, g (f x) = x) -> s <> Some [] -> rebuild g (rebuild f s) = s.
Proof.
  intros H Hne. destruct s as [[|x l]|]; [congruence| |reflexivity].
  unfold rebuild at 2. rewrite append_loop_spec. cbn [map rebuild]. rewrite append_loop_spec. cbn [map].
  rewrite H, map_map. f_equal. f_equal. rewrite <- (map_id l) at 2. apply map_ext. exact H.
Qed.
Lemma rebuild2_empty {A B} (f : A -> B) (g : B -> A) : rebuild g (rebuild f (Some [])) = None.
Proof. reflexivity. Qed.

Lemma ks_pp K : ks_to_public (ks_to_private K) = K. Proof. now destruct K. Qed.
Lemma ks_qq k : ks_to_private (ks_to_public k) = k. Proof. now destruct k. Qed.
Lemma pi_pp P : pi_to_public (pi_to_private P) = P. Proof. now destruct P. Qed.
Lemma pi_qq p : pi_to_private (pi_to_public p) = p. Proof. now destruct p. Qed.
Lemma tk_pp T : tk_ToPublic (TK_ToPrivate T) = T. Proof. now destruct T. Qed.
Lemma tk_qq t : TK_ToPrivate (tk_ToPublic t) = t. Proof. now destruct t. Qed.

Lemma KeyShares_pub_priv_pub s : elems (keyShares_ToPublic (KeyShares_ToPrivate s)) = elems s.
Proof. apply elems_rebuild2, ks_pp. Qed.
Lemma keyShares_priv_pub_priv s : elems (KeyShares_ToPrivate (keyShares_ToPublic s)) = elems s.
Proof. apply elems_rebuild2, ks_qq. Qed.
Lemma KeyShares_exact s : s <> Some [] -> keyShares_ToPublic (KeyShares_ToPrivate s) = s.
Proof. apply rebuild2_exact, ks_pp. Qed.
Lemma keyShares_priv_exact s : s <> Some [] -> KeyShares_ToPrivate (keyShares_ToPublic s) = s.
Proof. apply rebuild2_exact, ks_qq. Qed.
Lemma PskIdentities_pub_priv_pub s : elems (pskIdentities_ToPublic (PskIdentities_ToPrivate s)) = elems s.
Proof. apply elems_rebuild2, pi_pp. Qed.
Lemma pskIdentities_priv_pub_priv s : elems (PskIdentities_ToPrivate (pskIdentities_ToPublic s)) = elems s.
Proof. apply elems_rebuild2, pi_qq. Qed.
Lemma PskIdentities_exact s : s <> Some [] -> pskIdentities_ToPublic (PskIdentities_ToPrivate s) = s.
Proof. apply rebuild2_exact, pi_pp. Qed.
Lemma pskIdentities_priv_exact s : s <> Some [] -> PskIdentities_ToPrivate (pskIdentities_ToPublic s) = s.
Proof. apply rebuild2_exact, pi_qq. Qed.

Lemma KP_pub_priv_pub k : kp_ToPublic (KP_ToPrivate k) = k. Proof. now destruct k as [[]|]. Qed.
Lemma kp_priv_pub_priv k : KP_ToPrivate (kp_ToPublic k) = k. Proof. now destruct k as [[]|]. Qed.
(* PubCipherSuite: getPublicObj returns an object, so nil becomes the zero object *)
Lemma CS_nil : cs_getPublicObj (CS_getPrivatePtr None) = CS_zero. Proof. reflexivity. Qed.

(* FinishedHash: every field but Prf and Prfv2 *)
Definition FH_view (f : FinishedHash) :=
  (FH_Client f, FH_Server f, FH_ClientMD5 f, FH_ServerMD5 f, FH_Buffer f, FH_Version f).
Lemma fh_priv_pub_priv_fields f :
  let f' := FH_getPrivateObj (fh_getPublicObj f) in
  (fh_client f', fh_server f', fh_clientMD5 f', fh_serverMD5 f', fh_buffer f', fh_version f')
  = (fh_client f, fh_server f, fh_clientMD5 f, fh_serverMD5 f, fh_buffer f, fh_version f).
Proof. now destruct f as [a b c d e v [p|]]. Qed.
(* whatever Prf held, what comes back is the wrapper closure around Prfv2 *)
Lemma FH_prf_not_preserved f : FH_Prf (fh_getPublicObj (FH_getPrivateObj f)) <> FH_Prf f \/ FH_Prfv2 f = None /\ FH_Prf f = None \/
  exists p, FH_Prf (fh_getPublicObj (FH_getPrivateObj f)) = Some (OldWrapV2 p).
Proof. right. right. destruct f as [a b c d e v [p|] [o|]]; cbn; eauto. Qed.

(* CertificateRequestMsgTLS13: all fields but Raw / original *)
Definition CR_view (c : CertificateRequestMsgTLS13) :=
  (CR_OcspStapling c, CR_Scts c, CR_SupportedSignatureAlgorithms c, CR_SupportedSignatureAlgorithmsCert c,
   CR_CertificateAuthorities c).
Definition cr_view (c : certificateRequestMsgTLS13) :=
  (cr_ocspStapling c, cr_scts c, cr_supportedSignatureAlgorithms c, cr_supportedSignatureAlgorithmsCert c,
   cr_certificateAuthorities c).

Definition sh_view (s : serverHelloMsg) :=
  (sh_original s, sh_vers s, sh_random s, sh_sessionId s, sh_cipherSuite s, sh_compressionMethod s, sh_ocspStapling s,
   sh_ticketSupported s, sh_secureRenegotiationSupported s, sh_secureRenegotiation s, sh_extendedMasterSecret s,
   sh_alpnProtocol s, sh_scts s, sh_supportedVersion s, sh_serverShare s, sh_selectedIdentityPresent s, sh_selectedIdentity s,
   sh_cookie s, sh_selectedGroup s, sh_nextProtoNeg s, sh_nextProtos s).

(* ClientHello: every field with a counterpart, the rebuilt slices by their elements *)
Definition CH_view (c : PubClientHelloMsg) :=
  (CH_Raw c, CH_Vers c, CH_Random c, CH_SessionId c, CH_CipherSuites c, CH_CompressionMethods c, CH_NextProtoNeg c,
   CH_ServerName c, CH_OcspStapling c, CH_Scts c, CH_Ems c, CH_SupportedCurves c, CH_SupportedPoints c, CH_TicketSupported c,
   CH_SessionTicket c, CH_SupportedSignatureAlgorithms c, CH_SecureRenegotiation c, CH_SecureRenegotiationSupported c,
   CH_AlpnProtocols c, CH_SupportedSignatureAlgorithmsCert c, CH_SupportedVersions c, CH_Cookie c, elems (CH_KeyShares c),
   CH_EarlyData c, CH_PskModes c, elems (CH_PskIdentities c), CH_PskBinders c, CH_QuicTransportParameters c,
   CH_encryptedClientHello c).
Definition ch_view (m : clientHelloMsg) :=
  (ch_original m, ch_vers m, ch_random m, ch_sessionId m, ch_cipherSuites m, ch_compressionMethods m, ch_serverName m,
   ch_ocspStapling m, ch_supportedCurves m, ch_supportedPoints m, ch_ticketSupported m, ch_sessionTicket m,
   ch_supportedSignatureAlgorithms m, ch_supportedSignatureAlgorithmsCert m, ch_secureRenegotiationSupported m,
   ch_secureRenegotiation m, ch_extendedMasterSecret m, ch_alpnProtocols m, ch_scts m, ch_supportedVersions m, ch_cookie m,
   elems (ch_keyShares m), ch_earlyData m, ch_pskModes m, elems (ch_pskIdentities m), ch_pskBinders m,
   ch_quicTransportParameters m, ch_encryptedClientHello m, ch_nextProtoNeg m).

(* the tables are internally consistent: copied fields are declared, no field is copied twice *)
Fixpoint nodup_str (l : list string) : bool :=
  match l with [] => true | x :: r => negb (str_mem x r) && nodup_str r end.
Definition info_ok (i : pair_info) : bool :=
  forallb (fun p => str_mem (fst p) (pi_pub i) && str_mem (snd p) (pi_priv i)) (pi_copied i)
  && nodup_str (map fst (pi_copied i)) && nodup_str (map snd (pi_copied i))
  && nodup_str (pi_pub i) && nodup_str (pi_priv i).
Lemma tables_ok : forallb (fun e => info_ok (snd e)) pair_table = true.
Proof. vm_compute. reflexivity. Qed.
