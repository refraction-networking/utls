(* Model/Prng.v (math/rand over a byte stream, u_prng.go): the rejection loops return values in range for every stream,
   and FlipWeightedCoin at the weight corners, for any rounding function with the laws of Section FlipLaws. *)
From UV Require Import Base.Common Model.Prng.
From Coq Require Import QArith Lqa.
Open Scope N_scope.

Lemma pos_land_le p q : Pos.land p q <= N.pos q.
Proof.
  revert q. induction p as [p IH|p IH|]; intros [q|q|]; cbn [Pos.land]; try lia;
  try (specialize (IH q); destruct (Pos.land p q); cbn [Pos.Nsucc_double Pos.Ndouble]; lia).
Qed.
Lemma land_le a b : N.land a b <= b.
Proof. destruct a as [|p], b as [|q]; cbn [N.land]; try lia. apply pos_land_le. Qed.

Lemma reject_le fuel next mx v s v' s' : reject fuel next mx v s = Some (v', s') -> v' <= mx.
Proof.
  revert v s. induction fuel as [|k IH]; intros v s; cbn [reject].
  - destruct (v <=? mx) eqn:E; [intros [= <- <-]; lia|discriminate].
  - destruct (v <=? mx) eqn:E; [intros [= <- <-]; lia|].
    destruct (next s) as [[v1 s1]|]; [apply IH|discriminate].
Qed.

(* Int31n (rand.go:137) and Int63n (rand.go:120) are one algorithm over two sources *)
Definition randn (next : stream -> option (N * stream)) (top : N) (fuel : nat) (n : N) (s : stream) : option (N * stream) :=
  if N.land n (n - 1) =? 0 then
    match next s with Some (v, r) => Some (N.land v (n - 1), r) | None => None end
  else
    match next s with
    | Some (v, r) => match reject fuel next (top - 1 - top mod n) v r with Some (v', r') => Some (v' mod n, r') | None => None end
    | None => None
    end.
Lemma int31n_randn : int31n = randn int31 2147483648.
Proof. reflexivity. Qed.
Lemma int63n_randn : int63n = randn int63 9223372036854775808.
Proof. reflexivity. Qed.

Lemma randn_range next top fuel n s v r : 0 < n -> randn next top fuel n s = Some (v, r) -> v < n.
Proof.
  intros Hn. unfold randn. destruct (N.land n (n - 1) =? 0).
  - destruct (next s) as [[v0 r0]|]; [|discriminate]. intros [= <- <-].
    pose proof (land_le v0 (n - 1)). lia.
  - destruct (next s) as [[v0 r0]|]; [|discriminate].
    destruct (reject _ _ _ _ _) as [[v1 r1]|]; [|discriminate]. intros [= <- <-].
    apply N.mod_lt. lia.
Qed.

Lemma intn_spec fuel n s v r : intn fuel n s = Some (v, r) ->
  ((n <= 0)%Z -> v = 0%Z /\ r = s) /\ ((0 < n)%Z -> (0 <= v < n)%Z).
Proof.
  unfold intn. destruct (n <=? 0)%Z eqn:E.
  - intros [= <- <-]. split; [auto|lia].
  - destruct (rand_intn fuel (Z.to_N n) s) as [[v0 r0]|] eqn:R; [|discriminate]. intros [= <- <-].
    split; [lia|]. intros Hn. unfold rand_intn in R.
    assert (v0 < Z.to_N n).
    { rewrite int31n_randn, int63n_randn in R. destruct (Z.to_N n <=? 2147483647); eapply randn_range; eauto; lia. }
    lia.
Qed.

Definition is_int (x : Z) : Prop := (-9223372036854775808 <= x <= 9223372036854775807)%Z.
Lemma wrap64_id x : is_int x -> wrap64 x = x.
Proof. unfold is_int, wrap64. intros H. rewrite Z.mod_small by lia. lia. Qed.

(* Range: result in [max(min,0), max], or the clamped minimum when max is below it.
   Stated for Go ints (64-bit), with the wrap-around of max-min+1 included. *)
Lemma range_spec fuel mn mx s v r : is_int mn -> is_int mx -> range fuel mn mx s = Some (v, r) ->
  let lo := Z.max mn 0 in
  ((mx < lo)%Z -> v = lo) /\ ((lo <= mx)%Z -> (lo <= v <= mx)%Z).
Proof.
  intros Hmn Hmx. unfold range. cbv zeta.
  set (lo := if (mn <? 0)%Z then 0%Z else mn).
  assert (Hlo : lo = Z.max mn 0) by (subst lo; destruct (mn <? 0)%Z eqn:E; lia).
  rewrite <- Hlo. assert (Hlo0 : (0 <= lo)%Z) by lia.
  destruct (mx <? lo)%Z eqn:E.
  - intros [= <- <-]. split; [auto|lia].
  - destruct (intn fuel (wrap64 (mx - lo + 1)) s) as [[n0 r0]|] eqn:I; [|discriminate]. intros [= <- <-].
    split; [lia|]. intros _. apply intn_spec in I. destruct I as [I0 I1].
    unfold is_int in *.
    destruct (Z.eq_dec (mx - lo + 1) 9223372036854775808) as [Hov|Hno].
    + (* min = 0, max = MaxInt64: max-min+1 wraps to MinInt64, Intn returns 0 *)
      assert (W : wrap64 (mx - lo + 1) = (-9223372036854775808)%Z) by (rewrite Hov; reflexivity).
      rewrite W in I0. destruct I0 as [-> _]; [lia|]. rewrite wrap64_id by (unfold is_int; lia). lia.
    + rewrite wrap64_id in I1 by (unfold is_int; lia). specialize (I1 ltac:(lia)).
      rewrite wrap64_id by (unfold is_int; lia). lia.
Qed.

(* FlipWeightedCoin (u_prng.go:139), for any rounding function with these IEEE-754 laws *)
Section FlipLaws.
  Variable rnd : Q -> Q.
  Hypothesis rnd_mono : forall x y, (x <= y)%Q -> (rnd x <= rnd y)%Q.
  Hypothesis rnd_0 : (rnd 0 == 0)%Q.
  Hypothesis rnd_1 : (rnd 1 == 1)%Q.
  Hypothesis rnd_two63 : (rnd (inject_Z 9223372036854775808) == inject_Z 9223372036854775808)%Q.
  Hypothesis rnd_ulp : (rnd (1 / inject_Z 9223372036854775808) == 1 / inject_Z 9223372036854775808)%Q.
  Hypothesis rnd_ext : forall x y, (x == y)%Q -> (rnd x == rnd y)%Q.

  Lemma unit_le_1 i : i < 9223372036854775808 -> (unit_float rnd i <= 1)%Q.
  Proof.
    intros Hi. unfold unit_float.
    assert (A : (rnd (inject_Z (Z.of_N i)) <= inject_Z 9223372036854775808)%Q).
    { rewrite <- rnd_two63. apply rnd_mono. rewrite <- Zle_Qle. lia. }
    rewrite <- rnd_1. apply rnd_mono.
    apply Qle_shift_div_r; [reflexivity|]. rewrite Qmult_1_l. exact A.
  Qed.

  Lemma unit_ge_0 i : (0 <= unit_float rnd i)%Q.
  Proof.
    unfold unit_float. rewrite <- rnd_0. apply rnd_mono.
    apply Qle_shift_div_l; [reflexivity|]. rewrite Qmult_0_l.
    rewrite <- rnd_0. apply rnd_mono. change 0%Q with (inject_Z 0). rewrite <- Zle_Qle. lia.
  Qed.

  Lemma unit_pos i : 0 < i -> (0 < unit_float rnd i)%Q.
  Proof.
    intros Hi. unfold unit_float.
    assert (A : (1 <= rnd (inject_Z (Z.of_N i)))%Q).
    { rewrite <- rnd_1. apply rnd_mono. change 1%Q with (inject_Z 1). rewrite <- Zle_Qle. lia. }
    eapply Qlt_le_trans with (y := (1 / inject_Z 9223372036854775808)%Q); [reflexivity|].
    rewrite <- rnd_ulp. apply rnd_mono.
    apply Qle_shift_div_l; [reflexivity|].
    unfold Qdiv. rewrite <- Qmult_assoc, (Qmult_comm (/ _)), Qmult_inv_r by discriminate.
    rewrite Qmult_1_r. exact A.
  Qed.

  Lemma unit_zero : (unit_float rnd 0 == 0)%Q.
  Proof.
    unfold unit_float. cbn [Z.of_N]. change (inject_Z 0) with 0%Q.
    rewrite (rnd_ext (rnd 0 / inject_Z 9223372036854775808) 0); [exact rnd_0|].
    rewrite rnd_0. reflexivity.
  Qed.

  (* weight <= 0 (incl. -Inf): always false *)
  Lemma flip_le0 w i : i < 9223372036854775808 ->
    (match w with WFin q => (q <= 0)%Q | WInf neg => neg = true | WNaN => False end) ->
    flip_with rnd w i = false.
  Proof.
    intros Hi Hw. unfold flip_with. destruct w as [|neg|q]; [contradiction| |].
    - subst neg. reflexivity.
    - cbn [clamp]. destruct (Qlt_le_dec 1 q) as [H1|H1]; [lra|].
      cbn [one_minus gt]. destruct (Qlt_le_dec _ _) as [Hlt|]; [|reflexivity].
      exfalso. pose proof (unit_le_1 i Hi) as U.
      assert (T : (1 <= rnd (1 - q))%Q) by (rewrite <- rnd_1 at 1; apply rnd_mono; lra).
      lra.
  Qed.

  (* weight >= 1 (incl. +Inf): true exactly when the Int63 draw is non-zero *)
  Lemma flip_ge1 w i :
    (match w with WFin q => (1 <= q)%Q | WInf neg => neg = false | WNaN => False end) ->
    flip_with rnd w i = negb (i =? 0).
  Proof.
    intros Hw. unfold flip_with.
    assert (C : exists q1, clamp w = WFin q1 /\ (q1 == 1)%Q).
    { destruct w as [|neg|q]; [contradiction| |].
      - subst neg. exists 1%Q. split; reflexivity.
      - cbn [clamp]. destruct (Qlt_le_dec 1 q); [exists 1%Q; split; reflexivity|exists q; split; [reflexivity|lra]]. }
    destruct C as (q1 & -> & Hq1). cbn [one_minus gt].
    assert (T : (rnd (1 - q1) == 0)%Q) by (rewrite (rnd_ext (1 - q1) 0) by lra; exact rnd_0).
    destruct (i =? 0) eqn:E.
    - apply N.eqb_eq in E. subst i. cbn [negb]. destruct (Qlt_le_dec _ _) as [Hlt|]; [|reflexivity].
      pose proof unit_zero. lra.
    - apply N.eqb_neq in E. cbn [negb]. destruct (Qlt_le_dec _ _) as [|Hle]; [reflexivity|].
      pose proof (unit_pos i ltac:(lia)). lra.
  Qed.

  Lemma flip_nan i : flip_with rnd WNaN i = false.
  Proof. reflexivity. Qed.
End FlipLaws.

Lemma int63_lt s i r : int63 s = Some (i, r) -> i < 9223372036854775808.
Proof.
  unfold int63. destruct (uint64 s) as [[u r0]|]; [|discriminate]. intros [= <- <-].
  pose proof (land_le u 9223372036854775807). lia.
Qed.

Lemma rne_points :
  (rne 0 == 0)%Q /\ (rne 1 == 1)%Q /\ (rne (inject_Z 9223372036854775808) == inject_Z 9223372036854775808)%Q /\
  (rne (1 / inject_Z 9223372036854775808) == 1 / inject_Z 9223372036854775808)%Q.
Proof. repeat split; vm_compute; reflexivity. Qed.
