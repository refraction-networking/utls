(* Proofs over Model/KeyShare.v: sizes of generated shares, every generated share is backed by
   the key establishHandshakeKeys selects (repaired code; refuted for the pre-repair code),
   the Config.Rand draws are contiguous hence pairwise disjoint, QUIC sends an empty session id. *)
From UV Require Import Base.Common Model.Negotiate Model.KeyShare Proofs.NegotiateP.

(* RFC 8446 4.2.8: one share per group; at most one hybrid share *)
Fixpoint nodupN (l : list N) : bool :=
  match l with [] => true | x :: tl => negb (memN x tl) && nodupN tl end.
Definition gen_groups (l : list kshare) : list N := map ks_group (filter generated l).
Definition cl_groups (l : list kshare) : list N := filter (fun g => negb (hybrid g)) (gen_groups l).
Definition hy_groups (l : list kshare) : list N := filter hybrid (gen_groups l).
Definition wf_shares (l : list kshare) : bool :=
  nodupN (cl_groups l) && (length (hy_groups l) <=? 1)%nat.

Lemma nodupN_NoDup l : nodupN l = true -> NoDup l.
Proof.
  induction l as [|x l IH]; simpl; intros H; [constructor|].
  apply andb_true_iff in H as [A B]. constructor; [|auto].
  apply negb_true_iff in A. apply memN_false in A. exact A.
Qed.

Record laws {priv dkey : Type} (ecdh_gen : N -> N -> priv * N) (pub : N -> priv -> bytes)
       (dh : N -> priv -> bytes -> option bytes) (kem_ek : dkey -> bytes)
       (kem_decap : dkey -> bytes -> option bytes) (kem_encap : bytes -> bytes -> bytes * bytes) : Prop := mkLaws {
  L_pub_len : forall g k, classical_impl g = true -> lenN (pub g k) = share_size g;
  L_dh_comm : forall g a b, classical_impl g = true ->
              exists s, dh g a (pub g b) = Some s /\ dh g b (pub g a) = Some s;
  L_ek_len : forall d, length (kem_ek d) = EK_SIZE;
  L_ct_len : forall ek r, length (fst (kem_encap ek r)) = CT_SIZE;
  L_kem : forall d r, kem_decap d (fst (kem_encap (kem_ek d) r)) = Some (snd (kem_encap (kem_ek d) r));
  L_gen_pos : forall g p, 0 < snd (ecdh_gen g p)
}.

Arguments L_pub_len {priv dkey ecdh_gen pub dh kem_ek kem_decap kem_encap} _.
Arguments L_dh_comm {priv dkey ecdh_gen pub dh kem_ek kem_decap kem_encap} _.
Arguments L_ek_len {priv dkey ecdh_gen pub dh kem_ek kem_decap kem_encap} _.
Arguments L_ct_len {priv dkey ecdh_gen pub dh kem_ek kem_decap kem_encap} _.
Arguments L_kem {priv dkey ecdh_gen pub dh kem_ek kem_decap kem_encap} _.
Arguments L_gen_pos {priv dkey ecdh_gen pub dh kem_ek kem_decap kem_encap} _.

Lemma share_size_cases g : classical_impl g = true \/ hybrid g = true ->
  In (share_size g) [32; 65; 97; 133; 1216].
Proof.
  intros [C|C].
  - apply memN_In in C. destruct C as [<-|[<-|[<-|[<-|[]]]]]; cbn; auto 6.
  - apply orb_true_iff in C. destruct C as [C|C]; apply N.eqb_eq in C; subst g; cbn; auto 8.
Qed.

Lemma classical_not_hybrid g : classical_impl g = true -> hybrid g = false.
Proof. intros C. apply memN_In in C. destruct C as [<-|[<-|[<-|[<-|[]]]]]; reflexivity. Qed.

Ltac split5 := split; [|split; [|split; [|split]]].

Lemma Forall2_nth_error {A B} (R : A -> B -> Prop) l o :
  Forall2 R l o -> forall j x y, nth_error l j = Some x -> nth_error o j = Some y -> R x y.
Proof.
  induction 1 as [|a b l o Hab _ IH]; intros [|j] x y X Y; try discriminate; simpl in X, Y.
  - inversion X; inversion Y; subst. exact Hab.
  - eapply IH; eauto.
Qed.

Section P.
  Variables (priv dkey : Type) (rnd : N -> N) (ecdh_gen : N -> N -> priv * N) (pub : N -> priv -> bytes)
            (dh : N -> priv -> bytes -> option bytes) (kem_new : bytes -> dkey) (kem_ek : dkey -> bytes)
            (kem_decap : dkey -> bytes -> option bytes) (kem_encap : bytes -> bytes -> bytes * bytes).
  Hypothesis L : laws ecdh_gen pub dh kem_ek kem_decap kem_encap.

  Notation step := (step priv dkey rnd ecdh_gen pub kem_new kem_ek).
  Notation loop := (loop priv dkey rnd ecdh_gen pub kem_new kem_ek).
  Notation apply_preset := (apply_preset priv dkey rnd ecdh_gen pub kem_new kem_ek).
  Notation client_secret := (client_secret priv dkey dh kem_decap).
  Notation server_flight := (server_flight priv pub dh kem_encap).
  Notation ecdhe_key_for := (ecdhe_key_for priv dkey).
  Notation keysT := (keys priv dkey).
  Notation stT := (st priv dkey).

  Inductive step_spec (fixed : bool) (gv : N) (i : nat) (k : kshare) (s : stT) : kshare -> stT -> Prop :=
  | SGrease : is_grease (ks_group k) = true -> step_spec fixed gv i k s (mkKS gv (ks_data k)) s
  | SPreset : is_grease (ks_group k) = false -> (1 <? lenN (ks_data k)) = true -> step_spec fixed gv i k s k s
  | SHybrid xk n d : generated k = true -> hybrid (ks_group k) = true ->
      ecdh_gen 29 (s_pos s) = (xk, n) -> d = kem_new (take_at rnd (s_pos s + n) SEED_SIZE) ->
      step_spec fixed gv i k s
        (mkKS (ks_group k) (if ks_group k =? G_KYBER then pub 29 xk ++ kem_ek d else kem_ek d ++ pub 29 xk))
        (mkSt (s_pos s + n + N.of_nat SEED_SIZE)
              (mkKeys (if fixed then match k_ecdhe (s_keys s) with None => Some (mkEK 29 xk) | o => o end
                       else k_ecdhe (s_keys s))
                      (Some d) (Some (mkEK 29 xk)) (k_extra (s_keys s)))
              (s_pref s)
              (s_log s ++ [mkSeg (DKey i) (s_pos s) n; mkSeg (DSeed i) (s_pos s + n) (N.of_nat SEED_SIZE)]))
  | SClassical ck n : generated k = true -> hybrid (ks_group k) = false -> classical_impl (ks_group k) = true ->
      ecdh_gen (ks_group k) (s_pos s) = (ck, n) ->
      step_spec fixed gv i k s
        (mkKS (ks_group k) (pub (ks_group k) ck))
        (mkSt (s_pos s + n)
              (if negb (s_pref s) then mkKeys (Some (mkEK (ks_group k) ck)) (k_mlkem (s_keys s)) (k_mlkem_ecdhe (s_keys s)) (k_extra (s_keys s))
               else if fixed then mkKeys (k_ecdhe (s_keys s)) (k_mlkem (s_keys s)) (k_mlkem_ecdhe (s_keys s)) (k_extra (s_keys s) ++ [mkEK (ks_group k) ck])
               else s_keys s)
              true (s_log s ++ [mkSeg (DKey i) (s_pos s) n])).

  Lemma step_inv fixed gv i k s k' s' : step fixed gv i k s = Ok (k', s') -> step_spec fixed gv i k s k' s'.
  Proof.
    unfold KeyShare.step. intros H.
    destruct (is_grease (ks_group k)) eqn:G.
    { inversion H; subst. now constructor. }
    destruct (1 <? lenN (ks_data k)) eqn:D.
    { inversion H; subst. now constructor. }
    assert (Gen : generated k = true) by (unfold generated; rewrite G, D; reflexivity).
    destruct (hybrid (ks_group k)) eqn:Hy.
    { destruct (ecdh_gen 29 (s_pos s)) as [xk n] eqn:E. inversion H; subst.
      eapply SHybrid; eauto. }
    destruct (classical_impl (ks_group k)) eqn:C; simpl in H; [|discriminate].
    destruct (ecdh_gen (ks_group k) (s_pos s)) as [ck n] eqn:E. inversion H; subst.
    eapply SClassical; eauto.
  Qed.

  Lemma loop_cons fixed gv i k tl s out s' :
    loop fixed gv i (k :: tl) s = Ok (out, s') ->
    exists k' s1 tl', step fixed gv i k s = Ok (k', s1) /\ loop fixed gv (S i) tl s1 = Ok (tl', s') /\ out = k' :: tl'.
  Proof.
    simpl. destruct (step fixed gv i k s) as [[k' s1]| |] eqn:E1; try (intros X; discriminate X).
    destruct (loop fixed gv (S i) tl s1) as [[tl' s2]| |] eqn:E2; try (intros X; discriminate X).
    intros H; inversion H; subst. exists k', s1, tl'. auto.
  Qed.

  (* The induction over the loop: a property of a run (input, entry state, output, exit state) that holds of the empty
     run and is carried across one iteration holds of every run that succeeds. *)
  Lemma loop_ind fixed gv (P : list kshare -> stT -> list kshare -> stT -> Prop) :
    (forall s, P [] s [] s) ->
    (forall k tl i s k' s1 tl' s', step_spec fixed gv i k s k' s1 -> loop fixed gv (S i) tl s1 = Ok (tl', s') ->
                                   P tl s1 tl' s' -> P (k :: tl) s (k' :: tl') s') ->
    forall l i s out s', loop fixed gv i l s = Ok (out, s') -> P l s out s'.
  Proof.
    intros P0 PS. induction l as [|k tl IH]; intros i s out s' H.
    - simpl in H. inversion H; subst. apply P0.
    - apply loop_cons in H as (k' & s1 & tl' & A & B & ->). apply step_inv in A. eauto.
  Qed.

  Definition size_rel (gv : N) (k k' : kshare) : Prop :=
    if is_grease (ks_group k) then ks_group k' = gv /\ ks_data k' = ks_data k
    else if 1 <? lenN (ks_data k) then k' = k
    else ks_group k' = ks_group k /\ lenN (ks_data k') = share_size (ks_group k)
         /\ In (share_size (ks_group k)) [32; 65; 97; 133; 1216].

  Lemma lenN_app {A} (a b : list A) : lenN (a ++ b) = lenN a + lenN b.
  Proof. unfold lenN. rewrite app_length. lia. Qed.

  Lemma step_size fixed gv i k s k' s' : step_spec fixed gv i k s k' s' -> size_rel gv k k'.
  Proof.
    intros H. unfold size_rel. destruct H as [G|G D|xk n d Gen Hy E Hd|ck n Gen Hy C E].
    - rewrite G. auto.
    - rewrite G, D. reflexivity.
    - unfold generated in Gen. apply andb_true_iff in Gen as [G D]. apply negb_true_iff in G, D. rewrite G, D.
      simpl. split; [reflexivity|]. split; [|apply share_size_cases; auto].
      assert (X : lenN (pub 29 xk) = 32) by (rewrite (L_pub_len L); reflexivity).
      assert (Y : lenN (kem_ek d) = 1184) by (unfold lenN; rewrite (L_ek_len L); reflexivity).
      assert (S : share_size (ks_group k) = 1216).
      { apply orb_true_iff in Hy. destruct Hy as [Hy|Hy]; apply N.eqb_eq in Hy; rewrite Hy; reflexivity. }
      rewrite S. destruct (ks_group k =? G_KYBER); rewrite lenN_app, X, Y; reflexivity.
    - unfold generated in Gen. apply andb_true_iff in Gen as [G D]. apply negb_true_iff in G, D. rewrite G, D.
      simpl. split; [reflexivity|]. split; [apply (L_pub_len L); assumption|apply share_size_cases; auto].
  Qed.

  Lemma loop_sizes fixed gv : forall l i s out s', loop fixed gv i l s = Ok (out, s') -> Forall2 (size_rel gv) l out.
  Proof.
    apply loop_ind; [constructor|].
    intros k tl i s k' s1 tl' s' A _ IH. constructor; [exact (step_size _ _ _ _ _ _ _ A) | exact IH].
  Qed.

  Lemma apply_inv fixed quic gv shares p0 a :
    apply_preset fixed quic gv shares p0 = Ok a ->
    exists s0 s, loop fixed gv 0 shares s0 = Ok (a_shares a, s)
      /\ s_keys s0 = no_keys /\ s_pref s0 = false
      /\ a_keys a = s_keys s /\ a_log a = s_log s /\ a_end a = s_pos s
      /\ a_random a = take_at rnd p0 32
      /\ a_sid a = (if quic then [] else take_at rnd (p0 + 32 + 32 + N.of_nat GREASE_BYTES) 32)
      /\ s_pos s0 = (if quic then p0 + 32 + N.of_nat GREASE_BYTES else p0 + 32 + 32 + N.of_nat GREASE_BYTES + 32)
      /\ s_log s0 = (if quic then [mkSeg DRandom p0 32; mkSeg DGrease (p0 + 32) (N.of_nat GREASE_BYTES)]
                     else [mkSeg DRandom p0 32; mkSeg DSidEarly (p0 + 32) 32;
                           mkSeg DGrease (p0 + 32 + 32) (N.of_nat GREASE_BYTES);
                           mkSeg DSid (p0 + 32 + 32 + N.of_nat GREASE_BYTES) 32]).
  Proof.
    (* once quic is decided the entry state of the loop is an explicit record: E names it, the clauses about it and
       about the output are then read off *)
    unfold KeyShare.apply_preset. intros H. destruct quic; simpl in H.
    all: destruct (loop fixed gv 0 shares _) as [[out s]| |] eqn:E in H; try discriminate.
    all: injection H as <-; eexists; exists s; split; [exact E|]; simpl; repeat split; reflexivity.
  Qed.

  Theorem share_sizes fixed quic gv shares p0 a :
    apply_preset fixed quic gv shares p0 = Ok a -> Forall2 (size_rel gv) shares (a_shares a).
  Proof.
    intros H. apply apply_inv in H as (s0 & s & A & _). eapply loop_sizes; eauto.
  Qed.

  (* the retained keys ks hold what establishHandshakeKeys selects for the output share k' *)
  Definition sbacked (ks : keysT) (k' : kshare) : Prop :=
    k_ecdhe ks <> None /\
    if hybrid (ks_group k') then
      exists xk d, k_mlkem ks = Some d /\ k_mlkem_ecdhe ks = Some (mkEK 29 xk)
        /\ ks_data k' = (if ks_group k' =? G_KYBER then pub 29 xk ++ kem_ek d else kem_ek d ++ pub 29 xk)
    else
      classical_impl (ks_group k') = true /\
      exists ck, ks_data k' = pub (ks_group k') ck /\ ecdhe_key_for true ks (ks_group k') = Some (mkEK (ks_group k') ck).

  Lemma find_app_skip (g : N) (l1 l2 : list (ekey priv)) :
    (forall e, In e l1 -> ek_curve e <> g) ->
    find (fun x => ek_curve x =? g) (l1 ++ l2) = find (fun x => ek_curve x =? g) l2.
  Proof.
    induction l1 as [|x l1 IH]; simpl; intros H; [reflexivity|].
    destruct (N.eqb_spec (ek_curve x) g) as [E|_]; [exfalso; eapply H; eauto|]. apply IH. intros e He. apply H. auto.
  Qed.

  (* invariant of loop_backed: every retained classical key is for a group in seen, the classical groups handled so far *)
  Definition keys_in (seen : list N) (s : stT) : Prop :=
    (s_pref s = true -> exists e, k_ecdhe (s_keys s) = Some e /\ In (ek_curve e) seen)
    /\ (forall e, In e (k_extra (s_keys s)) -> In (ek_curve e) seen).

  Definition is_hy (k : kshare) : bool := generated k && hybrid (ks_group k).
  Definition is_cl (k : kshare) : bool := generated k && negb (hybrid (ks_group k)).

  Lemma hy_groups_cons k tl : hy_groups (k :: tl) = if is_hy k then ks_group k :: hy_groups tl else hy_groups tl.
  Proof.
    unfold hy_groups, gen_groups, is_hy. simpl. destruct (generated k); simpl; [|reflexivity].
    destruct (hybrid (ks_group k)); reflexivity.
  Qed.
  Lemma cl_groups_cons k tl : cl_groups (k :: tl) = if is_cl k then ks_group k :: cl_groups tl else cl_groups tl.
  Proof.
    unfold cl_groups, gen_groups, is_cl. simpl. destruct (generated k); simpl; [|reflexivity].
    destruct (hybrid (ks_group k)); reflexivity.
  Qed.

  Lemma step_preserves gv i k s k' s1 : step_spec true gv i k s k' s1 ->
    (k_ecdhe (s_keys s) <> None -> k_ecdhe (s_keys s1) <> None)
    /\ (s_pref s = true -> k_ecdhe (s_keys s) <> None -> k_ecdhe (s_keys s1) = k_ecdhe (s_keys s))
    /\ (s_pref s = true -> s_pref s1 = true)
    /\ (exists added, k_extra (s_keys s1) = k_extra (s_keys s) ++ added)
    /\ (is_hy k = false -> k_mlkem (s_keys s1) = k_mlkem (s_keys s) /\ k_mlkem_ecdhe (s_keys s1) = k_mlkem_ecdhe (s_keys s)).
  Proof.
    intros H. destruct H as [G|G D|xk n d Gen Hy E Hd|ck n Gen Hy C E]; simpl.
    - split5; auto. exists []. now rewrite app_nil_r.
    - split5; auto. exists []. now rewrite app_nil_r.
    - split5; auto.
      + destruct (k_ecdhe (s_keys s)); congruence.
      + intros _ Q. destruct (k_ecdhe (s_keys s)); congruence.
      + exists []. now rewrite app_nil_r.
      + unfold is_hy. rewrite Gen, Hy. discriminate.
    - destruct (s_pref s) eqn:P; simpl; split5; auto; try discriminate.
      + exists [mkEK (ks_group k) ck]. reflexivity.
      + exists []. now rewrite app_nil_r.
  Qed.

  Lemma loop_preserves gv : forall l i s out s',
    loop true gv i l s = Ok (out, s') ->
    (k_ecdhe (s_keys s) <> None -> k_ecdhe (s_keys s') <> None)
    /\ (s_pref s = true -> k_ecdhe (s_keys s) <> None -> k_ecdhe (s_keys s') = k_ecdhe (s_keys s))
    /\ (s_pref s = true -> s_pref s' = true)
    /\ (exists added, k_extra (s_keys s') = k_extra (s_keys s) ++ added)
    /\ (hy_groups l = [] -> k_mlkem (s_keys s') = k_mlkem (s_keys s) /\ k_mlkem_ecdhe (s_keys s') = k_mlkem_ecdhe (s_keys s)).
  Proof.
    apply loop_ind.
    - intros s. split5; auto. exists []. now rewrite app_nil_r.
    - intros k tl i s k' s1 tl' s' A _ (I1 & I2 & I3 & (ad2 & I4) & I5).
      apply step_preserves in A as (A1 & A2 & A3 & (ad1 & A4) & A5).
      split5.
      + auto.
      + intros P Q. rewrite I2; auto.
      + auto.
      + exists (ad1 ++ ad2). rewrite I4, A4, app_assoc. reflexivity.
      + intros H. rewrite hy_groups_cons in H. destruct (is_hy k) eqn:Z; [discriminate|].
        destruct (I5 H) as [X X']. destruct (A5 eq_refl) as [Y Y']. split; congruence.
  Qed.

  Lemma NoDup_app_mid (a : list N) g b : NoDup (a ++ g :: b) -> NoDup ((a ++ [g]) ++ b) /\ ~ In g a.
  Proof.
    intros H. split.
    - rewrite <- app_assoc. exact H.
    - apply NoDup_remove_2 in H. intros X. apply H. apply in_or_app. auto.
  Qed.

  Lemma loop_backed gv : forall l i s out s' seen,
    loop true gv i l s = Ok (out, s') ->
    keys_in seen s -> NoDup (seen ++ cl_groups l) -> (length (hy_groups l) <= 1)%nat ->
    Forall2 (fun k k' => generated k = true -> sbacked (s_keys s') k') l out.
  Proof.
    intros l i s out s' seen H. revert seen. revert l i s out s' H. refine (loop_ind _ _ _ _ _).
    { intros s seen _ _ _. constructor. }
    intros k tl i s k' s1 tl' s' A B IH seen [K1 K2] ND HY.
    pose proof (loop_preserves _ _ _ _ _ _ B) as (I1 & I2 & _ & (ad2 & I4) & I5).
    rewrite cl_groups_cons in ND. rewrite hy_groups_cons in HY. unfold is_cl, is_hy in ND, HY.
    destruct A as [G|G D|xk n d Gen Hy E Hd|ck n Gen Hy C E].
    1, 2: (* GREASE entry, preset data: nothing generated *)
      assert (Z : generated k = false) by (unfold generated; rewrite G, ?D; reflexivity);
      rewrite Z in ND, HY; (constructor; [congruence|]); eapply IH; eauto; split; auto.
    - rewrite Gen, Hy in ND, HY. simpl in *.
      assert (HT : hy_groups tl = []) by (destruct (hy_groups tl); [reflexivity|simpl in HY; lia]).
      constructor.
      + intros _. unfold sbacked. simpl. rewrite Hy. split.
        { apply I1. simpl. destruct (k_ecdhe (s_keys s)); discriminate. }
        destruct (I5 HT) as [X Y]. simpl in X, Y. exists xk, d. repeat split; auto.
      + eapply IH; eauto; [|rewrite HT; simpl; lia].
        split; simpl.
        { intros P. destruct (K1 P) as (e & Q & R). exists e. rewrite Q. auto. }
        { exact K2. }
    - rewrite Gen, Hy in ND, HY. simpl in *.
      apply NoDup_app_mid in ND as [ND NI].
      constructor.
      + intros _. unfold sbacked. simpl. rewrite Hy. simpl in *.
        destruct (s_pref s) eqn:P; simpl in *.
        * (* a later classical share: its key is among the extras *)
          destruct (K1 eq_refl) as (e0 & Q & R).
          assert (NE : k_ecdhe (s_keys s) <> None) by congruence.
          rewrite (I2 eq_refl NE). split; [congruence|]. split; [exact C|].
          exists ck. split; [reflexivity|].
          unfold KeyShare.ecdhe_key_for. simpl. rewrite Hy, (I2 eq_refl NE), Q, C. simpl.
          assert (NG : (ek_curve e0 =? ks_group k) = false).
          { apply N.eqb_neq. intros X. apply NI. rewrite <- X. exact R. }
          rewrite NG. simpl. rewrite I4. simpl. rewrite <- app_assoc.
          rewrite find_app_skip.
          -- simpl. rewrite N.eqb_refl. reflexivity.
          -- intros e He X. apply NI. rewrite <- X. apply K2. exact He.
        * (* the first classical share: its key is Ecdhe *)
          assert (NE : Some (mkEK (ks_group k) ck) <> (None : option (ekey priv))) by discriminate.
          rewrite (I2 eq_refl NE). split; [exact NE|]. split; [exact C|].
          exists ck. split; [reflexivity|].
          unfold KeyShare.ecdhe_key_for. simpl. rewrite Hy, (I2 eq_refl NE). simpl. rewrite N.eqb_refl, andb_false_r. reflexivity.
      + eapply IH; [ | exact ND | exact HY]. split; simpl.
        * intros _. destruct (s_pref s) eqn:P; simpl.
          -- destruct (K1 eq_refl) as (e & Q & R). exists e. split; [exact Q|]. apply in_or_app. auto.
          -- eexists. split; [reflexivity|]. simpl. apply in_or_app. right. simpl. auto.
        * intros e He. destruct (s_pref s) eqn:P; simpl in He.
          -- apply in_app_or in He as [He|[<-|[]]]; apply in_or_app; [left; auto|right; simpl; auto].
          -- apply in_or_app. left. auto.
  Qed.

  Lemma firstn_exact {A} (a b : list A) n : length a = n -> firstn n (a ++ b) = a.
  Proof. intros <-. rewrite firstn_app, Nat.sub_diag, firstn_all. simpl. now rewrite app_nil_r. Qed.
  Lemma skipn_exact {A} (a b : list A) n : length a = n -> skipn n (a ++ b) = b.
  Proof. intros <-. rewrite skipn_app, Nat.sub_diag, skipn_all. reflexivity. Qed.

  Lemma pub_len_nat g k : classical_impl g = true -> length (pub g k) = N.to_nat (share_size g).
  Proof. intros C. pose proof (L_pub_len L g k C) as H. unfold lenN in H. lia. Qed.

  (* the key and ciphertext sizes are nat literals (1184, 1088, 32): [simpl] must not run firstn/skipn/eqb/+ on them *)
  Local Arguments firstn : simpl never.
  Local Arguments skipn : simpl never.
  Local Arguments Nat.eqb : simpl never.
  Local Arguments Nat.add : simpl never.

  (* structural backing + the crypto laws: the client derives the server's secret *)
  Lemma sbacked_agree ks k' : sbacked ks k' ->
    forall b r sdata ssec, server_flight (ks_group k') (ks_data k') b r = Some (sdata, ssec) ->
                           client_secret true true ks (ks_group k') sdata = Ok ssec.
  Proof.
    intros [NE SB] b r sdata ssec SF. unfold KeyShare.client_secret.
    destruct (k_ecdhe ks) as [e0|] eqn:Q; [|congruence].
    destruct (hybrid (ks_group k')) eqn:Hy.
    - destruct SB as (xk & d & M1 & M2 & DD).
      assert (X32 : forall k, length (pub 29 k) = 32%nat) by (intros; rewrite pub_len_nat; reflexivity).
      pose proof (L_ct_len L (kem_ek d) r) as CL. pose proof (L_kem L d r) as KK.
      destruct (L_dh_comm L 29 xk b eq_refl) as (s & D1 & D2).
      unfold hybrid in Hy. unfold KeyShare.server_flight in SF. unfold G_MLKEM, G_KYBER in *.
      destruct (N.eqb_spec (ks_group k') 4588) as [EM|NM].
      + (* X25519MLKEM768 *)
        rewrite EM in *. change (4588 =? 25497) with false in *. simpl in DD. rewrite DD in SF.
        rewrite (firstn_exact _ _ EK_SIZE (L_ek_len L d)), (skipn_exact _ _ EK_SIZE (L_ek_len L d)) in SF.
        destruct (kem_encap (kem_ek d) r) as [ct ss]. simpl in CL, KK.
        rewrite D2 in SF. inversion SF; subst sdata ssec.
        assert (LEN : (length (ct ++ pub 29 b) =? CT_SIZE + X_SIZE)%nat = true)
          by (rewrite app_length, CL, X32; apply Nat.eqb_refl).
        simpl. rewrite LEN. simpl.
        rewrite (skipn_exact _ _ CT_SIZE CL), (firstn_exact _ _ CT_SIZE CL).
        unfold KeyShare.ecdhe_key_for. simpl. rewrite M2. unfold KeyShare.get_shared. simpl. rewrite D1, M1. simpl. rewrite KK. reflexivity.
      + destruct (N.eqb_spec (ks_group k') 25497) as [EK|NK]; [|discriminate].
        rewrite EK in *. change (25497 =? 4588) with false in *. simpl in DD. rewrite DD in SF.
        rewrite (firstn_exact _ _ X_SIZE (X32 xk)), (skipn_exact _ _ X_SIZE (X32 xk)) in SF.
        destruct (kem_encap (kem_ek d) r) as [ct ss]. simpl in CL, KK.
        rewrite D2 in SF. inversion SF; subst sdata ssec.
        assert (LEN : (length (pub 29 b ++ ct) =? X_SIZE + CT_SIZE)%nat = true)
          by (rewrite app_length, CL, X32; apply Nat.eqb_refl).
        simpl. rewrite LEN. simpl.
        rewrite (skipn_exact _ _ X_SIZE (X32 b)), (firstn_exact _ _ X_SIZE (X32 b)).
        unfold KeyShare.ecdhe_key_for. simpl. rewrite M2. unfold KeyShare.get_shared. simpl. rewrite D1, M1. simpl. rewrite KK. reflexivity.
    - destruct SB as (C & ck & DD & SEL).
      unfold hybrid in Hy. apply orb_false_iff in Hy as [NM NK].
      unfold KeyShare.server_flight in SF. unfold G_MLKEM, G_KYBER in *. rewrite NM, NK in *. simpl.
      rewrite SEL. rewrite DD in SF.
      destruct (L_dh_comm L (ks_group k') ck b C) as (s & D1 & D2). rewrite D2 in SF. inversion SF; subst sdata ssec.
      unfold KeyShare.get_shared. simpl. rewrite D1.
      reflexivity.
  Qed.

  Theorem keys_retained quic gv shares p0 a :
    wf_shares shares = true ->
    apply_preset true quic gv shares p0 = Ok a ->
    forall i k k', nth_error shares i = Some k -> nth_error (a_shares a) i = Some k' -> generated k = true ->
      ks_group k' = ks_group k /\
      forall b r sdata ssec, server_flight (ks_group k') (ks_data k') b r = Some (sdata, ssec) ->
                             client_secret true true (a_keys a) (ks_group k') sdata = Ok ssec.
  Proof.
    intros WF H i k k' N1 N2 Gen.
    pose proof (share_sizes _ _ _ _ _ _ H) as SZ.
    apply apply_inv in H as (s0 & s & A & K0 & P0 & KA & _).
    unfold wf_shares in WF. apply andb_true_iff in WF as [W1 W2]. apply nodupN_NoDup in W1. apply Nat.leb_le in W2.
    assert (KI : keys_in [] s0).
    { split; [rewrite P0; discriminate|rewrite K0; simpl; intros e []]. }
    pose proof (loop_backed gv _ _ _ _ _ [] A KI W1 W2) as F.
    rewrite KA. split; [|exact (sbacked_agree _ _ (Forall2_nth_error _ _ _ F _ _ _ N1 N2 Gen))].
    pose proof (Forall2_nth_error _ _ _ SZ _ _ _ N1 N2) as Hs. unfold size_rel in Hs.
    unfold generated in Gen. apply andb_true_iff in Gen as [G1 G2]. apply negb_true_iff in G1, G2. rewrite G1, G2 in Hs.
    apply Hs.
  Qed.

  (* the Config.Rand draws follow one another from cursor p; Some q = the cursor after the last *)
  Fixpoint contiguous (p : N) (l : list seg) : option N :=
    match l with
    | [] => Some p
    | s :: tl => if (sg_start s =? p) && (0 <? sg_len s) then contiguous (p + sg_len s) tl else None
    end.

  Lemma contiguous_app p l1 l2 q : contiguous p l1 = Some q -> contiguous p (l1 ++ l2) = contiguous q l2.
  Proof.
    revert p. induction l1 as [|s l1 IH]; simpl; intros p H; [inversion H; reflexivity|].
    destruct ((sg_start s =? p) && (0 <? sg_len s)); [auto|discriminate].
  Qed.

  Lemma step_contig fixed gv i k s k' s1 p0 : step_spec fixed gv i k s k' s1 ->
    contiguous p0 (s_log s) = Some (s_pos s) -> contiguous p0 (s_log s1) = Some (s_pos s1).
  Proof.
    intros H C. destruct H as [G|G D|xk n d Gen Hy E Hd|ck n Gen Hy Cl E]; auto; simpl.
    - rewrite (contiguous_app _ _ _ _ C). simpl.
      pose proof (L_gen_pos L 29 (s_pos s)) as GP. rewrite E in GP. simpl in GP.
      rewrite N.eqb_refl. replace (0 <? n) with true by lia. simpl. rewrite N.eqb_refl. reflexivity.
    - rewrite (contiguous_app _ _ _ _ C). simpl.
      pose proof (L_gen_pos L (ks_group k) (s_pos s)) as GP. rewrite E in GP. simpl in GP.
      rewrite N.eqb_refl. replace (0 <? n) with true by lia. reflexivity.
  Qed.

  Lemma loop_contig fixed gv p0 : forall l i s out s', loop fixed gv i l s = Ok (out, s') ->
    contiguous p0 (s_log s) = Some (s_pos s) -> contiguous p0 (s_log s') = Some (s_pos s').
  Proof.
    (* refine: the conclusion is itself a product, so apply miscounts the premises of loop_ind *)
    refine (loop_ind _ _ _ _ _); [auto|].
    intros k tl i s k' s1 tl' s' A _ IH C. apply IH. exact (step_contig _ _ _ _ _ _ _ _ A C).
  Qed.

  Lemma loop_log fixed gv : forall l i s out s', loop fixed gv i l s = Ok (out, s') -> exists rest, s_log s' = s_log s ++ rest.
  Proof.
    apply loop_ind.
    - intros s. exists []. now rewrite app_nil_r.
    - intros k tl i s k' s1 tl' s' A _ (r2 & R2). destruct A; simpl in *; eauto; rewrite R2, <- app_assoc; eauto.
  Qed.

  Theorem draws_contiguous fixed quic gv shares p0 a :
    apply_preset fixed quic gv shares p0 = Ok a -> contiguous p0 (a_log a) = Some (a_end a).
  Proof.
    intros H. apply apply_inv in H as (s0 & s & A & _ & _ & _ & LA & EA & _ & _ & PS & LS).
    rewrite LA, EA. eapply loop_contig; eauto. rewrite LS, PS.
    destruct quic; simpl; repeat (rewrite N.eqb_refl; simpl); reflexivity.
  Qed.

  Lemma contiguous_le p l q : contiguous p l = Some q -> p <= q.
  Proof.
    revert p. induction l as [|s l IH]; simpl; intros p H; [inversion H; lia|].
    destruct ((sg_start s =? p) && (0 <? sg_len s)) eqn:E; [|discriminate]. apply IH in H. lia.
  Qed.

  Lemma contiguous_bounds p l q : contiguous p l = Some q ->
    forall i s, nth_error l i = Some s -> p <= sg_start s /\ 0 < sg_len s /\ sg_start s + sg_len s <= q.
  Proof.
    revert p. induction l as [|x l IH]; simpl; intros p H i s N1; [destruct i; discriminate|].
    destruct ((sg_start x =? p) && (0 <? sg_len x)) eqn:E; [|discriminate].
    apply andb_true_iff in E as [E1 E2]. apply N.eqb_eq in E1. apply N.ltb_lt in E2.
    destruct i; simpl in N1.
    - inversion N1; subst. apply contiguous_le in H. lia.
    - destruct (IH _ H _ _ N1) as (A & B & C). lia.
  Qed.

  Lemma contiguous_disjoint p l q : contiguous p l = Some q ->
    forall i j si sj, (i < j)%nat -> nth_error l i = Some si -> nth_error l j = Some sj ->
                      sg_start si + sg_len si <= sg_start sj.
  Proof.
    revert p. induction l as [|x l IH]; simpl; intros p H i j si sj LT N1 N2; [destruct i; discriminate|].
    destruct ((sg_start x =? p) && (0 <? sg_len x)) eqn:E; [|discriminate].
    apply andb_true_iff in E as [E1 E2]. apply N.eqb_eq in E1.
    destruct j; [lia|]. simpl in N2. destruct i; simpl in N1.
    - inversion N1; subst. destruct (contiguous_bounds _ _ _ H _ _ N2) as (A & _). lia.
    - apply (IH _ H i j si sj); [lia|exact N1|exact N2].
  Qed.

  Theorem draw_disjoint fixed quic gv shares p0 a :
    apply_preset fixed quic gv shares p0 = Ok a ->
    (* every draw lies inside [p0, a_end) and is non-empty *)
    (forall i s, nth_error (a_log a) i = Some s -> p0 <= sg_start s /\ 0 < sg_len s /\ sg_start s + sg_len s <= a_end a)
    (* no byte of the stream serves two draws *)
    /\ (forall i j si sj, (i < j)%nat -> nth_error (a_log a) i = Some si -> nth_error (a_log a) j = Some sj ->
                          sg_start si + sg_len si <= sg_start sj)
    (* the random and the session id are the bytes of their own draws *)
    /\ (nth_error (a_log a) 0 = Some (mkSeg DRandom p0 32) /\ a_random a = take_at rnd p0 32)
    /\ (quic = false -> exists p, nth_error (a_log a) 3 = Some (mkSeg DSid p 32) /\ a_sid a = take_at rnd p 32).
  Proof.
    intros H. pose proof (draws_contiguous _ _ _ _ _ _ H) as C.
    split; [eapply contiguous_bounds; eauto|]. split; [eapply contiguous_disjoint; eauto|].
    apply apply_inv in H as (s0 & s & A & _ & _ & _ & LA & _ & RA & SA & _ & LS).
    pose proof (loop_log _ _ _ _ _ _ _ A) as PRE.
    destruct PRE as (rest & PRE). rewrite LA, PRE, LS. split.
    - destruct quic; split; auto.
    - intros ->. eexists. split; [reflexivity|]. exact SA.
  Qed.

  (* RFC 9001 8.4: QUIC sends an empty legacy_session_id *)
  Theorem quic_empty_sid fixed gv shares p0 a :
    apply_preset fixed true gv shares p0 = Ok a -> a_sid a = [].
  Proof. intros H. apply apply_inv in H as (s0 & s & _ & _ & _ & _ & _ & _ & _ & SA & _). exact SA. Qed.

  Lemma take_at_length p n : length (take_at rnd p n) = n.
  Proof. unfold take_at. now rewrite map_length, seq_length. Qed.

  Theorem tcp_sid_random_32 fixed gv shares p0 a :
    apply_preset fixed false gv shares p0 = Ok a -> length (a_sid a) = 32%nat /\ length (a_random a) = 32%nat.
  Proof.
    intros H. apply apply_inv in H as (s0 & s & _ & _ & _ & _ & _ & _ & RA & SA & _).
    rewrite RA, SA. split; apply take_at_length.
  Qed.

  (* two connections reading one Config.Rand one after the other use disjoint parts of the stream *)
  Theorem fresh_across fixed q1 q2 gv1 gv2 sh1 sh2 p1 p2 a1 a2 :
    apply_preset fixed q1 gv1 sh1 p1 = Ok a1 -> apply_preset fixed q2 gv2 sh2 p2 = Ok a2 -> a_end a1 <= p2 ->
    forall i j s1 s2, nth_error (a_log a1) i = Some s1 -> nth_error (a_log a2) j = Some s2 ->
                      sg_start s1 + sg_len s1 <= sg_start s2.
  Proof.
    intros H1 H2 LE i j s1 s2 N1 N2.
    destruct (draw_disjoint _ _ _ _ _ _ H1) as (B1 & _). destruct (draw_disjoint _ _ _ _ _ _ H2) as (B2 & _).
    destruct (B1 _ _ N1) as (_ & _ & X). destruct (B2 _ _ N2) as (Y & _). lia.
  Qed.
End P.

(* keys_retained over every crypto instance that satisfies the laws; fixed = false is refuted in Props/C18.v *)
Definition keys_retained_stmt (fixed : bool) : Prop :=
  forall (priv dkey : Type) (rnd : N -> N) (ecdh_gen : N -> N -> priv * N) (pub : N -> priv -> bytes)
         (dh : N -> priv -> bytes -> option bytes) (kem_new : bytes -> dkey) (kem_ek : dkey -> bytes)
         (kem_decap : dkey -> bytes -> option bytes) (kem_encap : bytes -> bytes -> bytes * bytes),
    laws ecdh_gen pub dh kem_ek kem_decap kem_encap ->
    forall quic gv shares p0 a,
      wf_shares shares = true ->
      apply_preset priv dkey rnd ecdh_gen pub kem_new kem_ek fixed quic gv shares p0 = Ok a ->
      forall i k k', nth_error shares i = Some k -> nth_error (a_shares a) i = Some k' -> generated k = true ->
        ks_group k' = ks_group k /\
        forall b r sdata ssec,
          server_flight priv pub dh kem_encap (ks_group k') (ks_data k') b r = Some (sdata, ssec) ->
          client_secret priv dkey dh kem_decap fixed true (a_keys a) (ks_group k') sdata = Ok ssec.

Theorem keys_retained_fixed : keys_retained_stmt true.
Proof. unfold keys_retained_stmt. intros. eapply keys_retained; eauto. Qed.

Lemma pad_length n l : length (pad n l) = n.
Proof. unfold pad. rewrite firstn_length, app_length, repeat_length. lia. Qed.

Lemma firstn_pad_prefix (x : bytes) m n : length x = m -> (m <= n)%nat -> firstn m (pad n x) = x.
Proof.
  intros Hx Hm. unfold pad. rewrite firstn_firstn, Nat.min_l by exact Hm.
  subst m. rewrite firstn_app, Nat.sub_diag, firstn_all. simpl. apply app_nil_r.
Qed.

Lemma toy_laws rnd : laws (toy_gen rnd) toy_pub toy_dh toy_kem_ek toy_kem_decap toy_kem_encap.
Proof.
  constructor.
  - intros g k C. unfold toy_pub, lenN. rewrite pad_length. lia.
  - intros g a b C.
    assert (S2 : exists m, N.to_nat (share_size g) = S (S m)).
    { apply memN_In in C. destruct C as [<-|[<-|[<-|[<-|[]]]]]; eexists; vm_compute; reflexivity. }
    destruct S2 as (m & S2).
    assert (P : forall x k, toy_dh g x (toy_pub g k) = Some [g; (x * k) mod 65521]).
    { intros x k. unfold toy_dh. unfold lenN, toy_pub. rewrite pad_length, N2Nat.id, N.eqb_refl.
      unfold pad. rewrite S2. simpl.
      replace (k / 256 * 256 + k mod 256) with k; [reflexivity|].
      rewrite N.mul_comm. apply N.div_mod. lia. }
    exists [g; (a * b) mod 65521]. split; [apply P|]. rewrite P, N.mul_comm. reflexivity.
  - intros d. unfold toy_kem_ek. apply pad_length.
  - intros ek r. unfold toy_kem_encap. simpl. apply pad_length.
  - intros d r. unfold toy_kem_decap, toy_kem_encap. cbn [fst snd]. f_equal.
    apply firstn_pad_prefix; [apply pad_length|unfold CT_SIZE; lia].
  - intros g p. unfold toy_gen. simpl.
    destruct (N.odd (rnd p)); destruct (g =? 29); destruct (g =? 23); destruct (g =? 24); lia.
Qed.

(* the stream of the pre-repair witness (Props/C18.v) *)
Definition rnd0 (i : N) : N := (i * 7 + 3) mod 251.

(* fingerprinted copies: every non-GREASE share of an imported key_share list is generated per connection *)
Lemma import_generated wire k :
  In k (import_shares wire) -> is_grease (ks_group k) = true \/ generated k = true.
Proof.
  unfold import_shares. intros H. apply in_map_iff in H as (x & <- & _). unfold import_share.
  destruct (is_grease (ks_group x)) eqn:G; simpl.
  - left. reflexivity.
  - right. unfold generated. simpl. rewrite G. reflexivity.
Qed.

Lemma import_groups wire :
  map ks_group (filter generated (import_shares wire)) = map ks_group (filter (fun k => negb (is_grease (ks_group k))) wire).
Proof.
  induction wire as [|x l IH]; [reflexivity|].
  change (import_shares (x :: l)) with (import_share x :: import_shares l).
  cbn [filter]. unfold import_share. destruct (is_grease (ks_group x)) eqn:G.
  - assert (E : generated (mkKS GREASE_PLACEHOLDER (ks_data x)) = false) by reflexivity.
    rewrite E. cbn [negb]. exact IH.
  - assert (E : generated (mkKS (ks_group x) []) = true) by (unfold generated; cbn [ks_group ks_data]; rewrite G; reflexivity).
    rewrite E. cbn [negb map ks_group]. f_equal. exact IH.
Qed.
