(* C26 — concurrent use of a UConn is deadlock-free and consistent (race freedom of real memory: observed only).

   Model/HsLock.v: UConn.handshakeContext (u_conn.go:317-423) of one caller, statement by statement, with its
   interrupter goroutine, running against an environment that may do everything any number of other callers,
   readers, writers, interrupters and Close can do to the shared state. C26_guarantee shows that the caller's own
   effects are environment steps, so each statement holds for every caller of an N-caller system, for every N.
   Initial states: any shared state in which the caller holds no lock and not both a result and an error exist.
   The state space is finite; single-step facts are decided by one exhaustive evaluation over the states that
   satisfy the invariant (all 17 labels) and lifted to all reachable states by induction over the run (unbounded
   length, any interleaving). *)
From UV Require Import Base.Common Model.HsLock Proofs.HsLockP.
From UV Require Model.WrClose Proofs.WrCloseP.

Definition start_ok (s0 : state) : Prop :=
  exists cn mu il co he cl ca, s0 = init cn mu il co he cl ca /\ mu <> Mine /\ mu <> Parked /\ il <> Mine /\
    (il = Parked -> co = true) /\ (co && he = false) /\ (ca = true -> cn = true).

Lemma start_inv s0 : start_ok s0 -> invb s0 = true.
Proof.
  intros (cn & mu & il & co & he & cl & ca & -> & Hm & Hp & Hi & Hpk & Hc & Hca).
  destruct mu; try congruence; destruct il; try congruence; destruct co, he; try discriminate;
  try (specialize (Hpk eq_refl); discriminate);
  destruct ca; try (rewrite Hca by reflexivity); destruct cn, cl; reflexivity.
Qed.

Lemma reach_fact f s0 s : In f inv_facts -> start_ok s0 -> reach s0 s -> f s = true.
Proof. intros F H0 R. exact (inv_fact f s F (inv_reach _ _ (start_inv _ H0) R)). Qed.

(* every caller returns the shared outcome (nil exactly when complete — or the peer has since asked for a TLS 1.2
   renegotiation, which clears the flag again; the stored error only when not complete) or its own ctx error, and
   then the connection has been closed (and its ctx really was cancelled) — also when the ctx was already cancelled
   when the call was made ([init] takes the cancelled flag as a parameter) *)
Theorem C26_hs_outcome : forall s0 s, start_ok s0 -> reach s0 s -> returned s = true ->
  exists r, ret s = Some r /\ outcome_ok r (complete s) (hs_err s) (conn_closed s) (cancelled s) (reneg s) = true.
Proof.
  intros s0 s H0 R Hr. assert (H : outcome_p s = true) by (apply (reach_fact _ s0); cbn; auto 10).
  unfold outcome_p in H. rewrite Hr in H. cbn [implb] in H.
  destruct (ret s) as [r|]; [exists r; auto | discriminate].
Qed.
Print Assumptions C26_hs_outcome.

(* the caller's own interrupter has closed the connection exactly when the caller reports its ctx error: a nil (or
   handshake-error) return means this call's cancellation did not touch the connection *)
Theorem C26_interrupted_iff_ctx_error : forall s0 s, start_ok s0 -> reach s0 s -> returned s = true ->
  (it s = IFired <-> ret s = Some RCtx).
Proof.
  intros s0 s H0 R Hr. assert (H : interrupted_p s = true) by (apply (reach_fact _ s0); cbn; auto 10).
  unfold interrupted_p in H. rewrite Hr in H. cbn [implb] in H.
  apply eqb_prop in H. split.
  - intros E. rewrite E in H. cbn in H. destruct (ret s) as [[| | |]|]; try discriminate; reflexivity.
  - intros E. rewrite E in H. destruct (it s); try discriminate; reflexivity.
Qed.
Print Assumptions C26_interrupted_iff_ctx_error.

(* a caller with a cancellable ctx that is queued on handshakeMutex (p = P2) — or anywhere else before its epilogue —
   already has its interrupter: when its ctx is cancelled the interrupter can fire at once, without the mutex, and
   that closes the connection (which is what ends the I/O of whoever owns the handshake) *)
Theorem C26_cancel_while_queued_closes : forall s0 s, start_ok s0 -> reach s0 s -> cancellable s = true -> p s = P2 ->
  it s <> INone /\
  (it s = IWait -> cancelled s = true -> exists s', step s LIFire = Some s' /\ conn_closed s' = true /\ it s' = IFired).
Proof.
  intros s0 s H0 R Hc HP. assert (H : queued_p s = true) by (apply (reach_fact _ s0); cbn; auto 10).
  unfold queued_p in H. rewrite Hc, HP in H. cbn [andb implb] in H.
  apply andb_true_iff in H as [H _]. apply andb_true_iff in H as [H1 H2]. split.
  - intros E. rewrite E in H1. cbn in H1. discriminate.
  - intros E C. rewrite E, C in H2. cbn [is_iwait andb negb orb] in H2. destruct (step s LIFire) as [s'|]; [|discriminate].
    exists s'. apply andb_true_iff in H2 as [A B]. repeat split; auto. destruct (it s'); try discriminate; reflexivity.
Qed.
Print Assumptions C26_cancel_while_queued_closes.

(* nil and the stored error exclude each other for good *)
Theorem C26_outcome_exclusive : forall s0 s, start_ok s0 -> reach s0 s -> complete s && hs_err s = false.
Proof.
  intros s0 s H0 R. pose proof (inv_reach _ _ (start_inv _ H0) R) as I. unfold invb in I.
  repeat (apply andb_true_iff in I; destruct I as [I ?]). apply negb_true_iff in I. exact I.
Qed.
Print Assumptions C26_outcome_exclusive.

(* a caller that has not returned can always take a step of its own, of its interrupter, or wait for a lock that
   its holder can release / a body that its holder can finish (I/O deadlines make bodies finite) *)
Theorem C26_hs_no_deadlock : forall s0 s, start_ok s0 -> reach s0 s -> returned s = false -> can_progress s = true.
Proof.
  intros s0 s H0 R Hr. assert (H : progress_p s = true) by (apply (reach_fact _ s0); cbn; auto 10).
  unfold progress_p in H. rewrite Hr in H. exact H.
Qed.
Print Assumptions C26_hs_no_deadlock.

(* after the call has returned: the interrupter is gone, cancelling the ctx changes nothing shared, and this stays so *)
Theorem C26_late_cancel_noop : forall s0 s, start_ok s0 -> reach s0 s -> returned s = true ->
  step s LIFire = None /\
  (forall s', step s LCancel = Some s' -> shared s' = shared s /\ returned s' = true) /\
  (forall l s', step s l = Some s' -> returned s' = true).
Proof.
  intros s0 s H0 R Hr. assert (H : late_p s = true) by (apply (reach_fact _ s0); cbn; auto 10).
  unfold late_p in H. rewrite Hr in H. cbn [implb] in H.
  apply andb_true_iff in H as [H Hall]. apply andb_true_iff in H as [H Hc]. apply andb_true_iff in H as [H Hlc].
  apply andb_true_iff in H as [Hfire Hdone].
  split; [|split].
  - unfold enabledb in Hfire. destruct (step s LIFire); [discriminate Hfire|reflexivity].
  - intros s' E. rewrite E in Hc. apply andb_true_iff in Hc as [A B]. split; [|exact B].
    unfold shared_eqb in A. unfold shared.
    apply andb_true_iff in A as [A A5]. apply andb_true_iff in A as [A A4]. apply andb_true_iff in A as [A A3].
    apply andb_true_iff in A as [A1 A2]. apply eqb_prop in A3, A4, A5. rewrite A3, A4, A5.
    destruct (mutex s), (mutex s'); try discriminate; destruct (inl s), (inl s'); try discriminate; reflexivity.
  - intros l s' S. rewrite forallb_forall in Hall. specialize (Hall l (labels_all l)). rewrite S in Hall. exact Hall.
Qed.
Print Assumptions C26_late_cancel_noop.

(* lock discipline: the statements that touch handshakeErr / the handshake state run with handshakeMutex held, those
   that touch the input side with the input lock held too, and while the caller holds the mutex nobody else can
   take it or run the body *)
Theorem C26_lockset : forall s0 s, start_ok s0 -> reach s0 s ->
  (touches_hs (p s) = true -> mutex s = Mine) /\ (touches_in (p s) = true -> inl s = Mine) /\
  (mutex s = Mine -> step s EBodyOk = None /\ step s EBodyErr = None /\ step s EAcquire = None).
Proof.
  intros s0 s H0 R. assert (H : lockset_p s = true) by (apply (reach_fact _ s0); cbn; auto 10).
  unfold lockset_p in H.
  apply andb_true_iff in H as [H H3]. apply andb_true_iff in H as [H1 H2]. unfold enabledb in H3.
  split; [|split].
  - intros T. rewrite T in H1. cbn in H1. destruct (mutex s); try discriminate; reflexivity.
  - intros T. rewrite T in H2. cbn in H2. destruct (inl s); try discriminate; reflexivity.
  - intros M. rewrite M in H3. cbn [is_mine negb orb] in H3.
    apply andb_true_iff in H3 as [H3 H3c]. apply andb_true_iff in H3 as [H3a H3b].
    split; [|split].
    + destruct (step s EBodyOk); [discriminate H3a|reflexivity].
    + destruct (step s EBodyErr); [discriminate H3b|reflexivity].
    + destruct (step s EAcquire); [discriminate H3c|reflexivity].
Qed.
Print Assumptions C26_lockset.

(* the caller's and its interrupter's effect on the shared state, seen by anybody else, is nothing or an environment step *)
Theorem C26_guarantee : forall s0 s l s', start_ok s0 -> reach s0 s -> own_label l = true -> step s l = Some s' ->
  view_eqb (view s) (view s') || env_allows (view s) (view s') = true.
Proof.
  intros s0 s l s' H0 R O S. assert (H : guarantee_p s = true) by (apply (reach_fact _ s0); cbn; auto 10).
  unfold guarantee_p in H.
  rewrite forallb_forall in H. specialize (H l (labels_all l)). rewrite O, S in H. exact H.
Qed.
Print Assumptions C26_guarantee.

(* Implicit handshakes (Read and Write call Handshake() first): a caller waits for the input lock only while no
   result exists; in particular never behind a reader that is parked in Read (which exists only once the handshake
   is complete) — so a writer's implicit Handshake cannot be blocked by a reader waiting for the reply to the
   request that writer is about to send. *)
Theorem C26_in_wait_only_without_result : forall s0 s, start_ok s0 -> reach s0 s -> p s = P4 ->
  complete s = false /\ hs_err s = false /\ inl s <> Parked.
Proof.
  intros s0 s H0 R HP. assert (H : inwait_p s = true) by (apply (reach_fact _ s0); cbn; auto 10).
  unfold inwait_p in H. rewrite HP in H.
  apply andb_true_iff in H as [H H3]. apply andb_true_iff in H as [H1 H2].
  apply negb_true_iff in H1, H2. repeat split; auto. intros E. rewrite E in H3. discriminate.
Qed.
Print Assumptions C26_in_wait_only_without_result.

(* The Write / Close interlock (Model/WrClose.v): one writer, one closer, possibly stalled peer. *)
Module WC := WrClose.
Module WCP := WrCloseP.

Lemma interlock_inv co st s : WCP.reach (WC.init false co st) s -> WCP.invb s = true.
Proof. apply WCP.inv_reach. destruct co, st; reflexivity. Qed.

(* neither call can block forever: until both have returned one of them can take a step, and each step decreases a
   measure — even when the peer has stopped reading and no write deadline is set *)
Theorem C26_interlock_no_deadlock : forall co st s,
  WCP.reach (WC.init false co st) s -> WC.finished s = false -> WC.can_step s = true.
Proof.
  intros co st s R F. pose proof (interlock_inv co st s R) as I.
  assert (H : WCP.progress_p s = true) by (apply WCP.inv_fact; [cbn; auto | exact I]).
  unfold WCP.progress_p in H. rewrite I, F in H. exact H.
Qed.
Print Assumptions C26_interlock_no_deadlock.

Theorem C26_interlock_terminates : forall s l s', WC.step s l = Some s' -> (WCP.measure s' < WCP.measure s)%nat.
Proof. exact WCP.step_decreases. Qed.
Print Assumptions C26_interlock_terminates.

(* Close takes c.out (closeNotify) only when no Write is in flight; a Write that passed the interlock stays marked
   in flight until it has returned; a Write returns nil only if its record reached a peer that reads *)
Theorem C26_interlock : forall co st s, WCP.reach (WC.init false co st) s ->
  (WC.c s = WC.C2 -> WC.out s <> WC.HW) /\
  (WCP.w_in (WC.w s) = true -> WC.inflight s = true) /\
  (WC.wret s = WC.WOk -> WC.stall s = false).
Proof.
  intros co st s R. pose proof (interlock_inv co st s R) as I.
  assert (H : WCP.interlock_p s = true) by (apply WCP.inv_fact; [cbn; auto | exact I]).
  unfold WCP.interlock_p in H. rewrite I in H. cbn [implb] in H.
  apply andb_true_iff in H as [H H3]. apply andb_true_iff in H as [H1 H2].
  split; [|split].
  - intros E. rewrite E in H1. cbn in H1. intros O. rewrite O in H1. discriminate.
  - intros E. rewrite E in H2. exact H2.
  - intros E. rewrite E in H3. apply negb_true_iff in H3. exact H3.
Qed.
Print Assumptions C26_interlock.

(* the model tells the two orderings apart: with the marker dropped before the record is written, Close during a
   Write on a stalled peer blocks on c.out for ever *)
Example C26_ex_marker_early_deadlocks :
  match WC.run (WC.init true true true) [WC.LW; WC.LW; WC.LW; WC.LC; WC.LC] with
  | Some s => negb (WC.finished s) && negb (WC.can_step s) | None => false end = true.
Proof. vm_compute. reflexivity. Qed.
Example C26_ex_close_ends_stalled_write :
  match WC.run (WC.init false true true) [WC.LW; WC.LW; WC.LW; WC.LC; WC.LC; WC.LW; WC.LW; WC.LW] with
  | Some s => WC.finished s && match WC.wret s with WC.WErr => true | _ => false end | None => false end = true.
Proof. vm_compute. reflexivity. Qed.
(* and the input lock: a caller made to wait for it although the result exists, behind a parked reader, is stuck *)
Example C26_ex_in_lock_first_deadlocks :
  can_progress (mkState Mine Parked true false false false false false INone P4 None false) = false.
Proof. vm_compute. reflexivity. Qed.

(* Renegotiation (ERenegStart: a reader parked in Read gets a HelloRequest; handleRenegotiation takes handshakeMutex and
   only then clears isHandshakeComplete) is part of the environment of every theorem above: C26_hs_no_deadlock and
   C26_in_wait_only_without_result therefore say that Handshake/Write callers and a renegotiating reader cannot block
   each other. Clearing the flag before the mutex is taken is outside the environment, and then the stuck state is reachable: *)
Example C26_ex_reneg_clears_flag_first_deadlocks :
  (* reader (input lock held, waits for handshakeMutex) has cleared complete; the caller took the mutex, found no result, wants the input lock *)
  can_progress (mkState Mine Parked false false false false false false INone P4 None true) = false.
Proof. vm_compute. reflexivity. Qed.
Example C26_ex_reneg_run :
  match run (init false Free Free true false false false) [LC; EReadPark; ERenegStart] with
  | Some s => returned s && negb (complete s) && reneg s && match ret s with Some RNil => true | _ => false end | None => false end = true.
Proof. vm_compute. reflexivity. Qed.
Example C26_ex_reneg_caller_waits_then_gets_outcome :
  match run (init false Free Free false false false false)
            [EAcquire; EInAcquire; EBodyOk; EInRelease; ERelease; EReadPark; ERenegStart; LC; LC; EBodyErr; EInRelease; ERelease; LC; LC; LC; LC] with
  | Some s => returned s && match ret s with Some RHsErr => true | _ => false end | None => false end = true.
Proof. vm_compute. reflexivity. Qed.
(* a ctx error handed back without the interrupter having closed the connection is not an allowed outcome *)
Example C26_ex_ctx_error_needs_close : outcome_ok RCtx false false false true false = false.
Proof. reflexivity. Qed.
(* a ctx already cancelled at call time: the caller gets its ctx error only through the interrupter, which closes the conn *)
Example C26_ex_precancelled :
  match run (init true Free Free false false false true) [LC; LC; LIFire; LC; LC; LC; LC; LBodyErr; LC; LC; LC; LC] with
  | Some s => returned s && conn_closed s && match ret s with Some RCtx => true | _ => false end | None => false end = true.
Proof. vm_compute. reflexivity. Qed.

(* Non-vacuity: [start_ok] has instances, and runs of the model reach each outcome. *)
Example C26_ex_start : start_ok (init true Others Free false false false false).
Proof. exists true, Others, Free, false, false, false, false. repeat split; congruence. Qed.
Example C26_ex_start_parked_reader : start_ok (init false Free Parked true false false false).
Proof. exists false, Free, Parked, true, false, false, false. repeat split; congruence. Qed.
(* the caller completes the handshake itself *)
Example C26_ex_complete :
  match run (init true Free Free false false false false) [LC; LC; LC; LC; LC; LC; LBodyOk; LC; LC; LC; LIDone; LC] with
  | Some s => returned s && complete s && match ret s with Some RNil => true | _ => false end | None => false end = true.
Proof. vm_compute. reflexivity. Qed.
(* cancellation during the body: conn closed, body fails, caller returns its ctx error *)
Example C26_ex_cancel :
  match run (init true Free Free false false false false) [LC; LC; LC; LC; LC; LC; LCancel; LIFire; LBodyErr; LC; LC; LC; LC] with
  | Some s => returned s && conn_closed s && hs_err s && match ret s with Some RCtx => true | _ => false end | None => false end = true.
Proof. vm_compute. reflexivity. Qed.
(* another caller completes while this one waits for the mutex; it then returns nil from line 367 *)
Example C26_ex_other_completes :
  match run (init false Free Free false false false false) [LC; LC; EAcquire; EInAcquire; EBodyOk; EInRelease; ERelease; LC; LC; LC; LC] with
  | Some s => returned s && match ret s with Some RNil => true | _ => false end | None => false end = true.
Proof. vm_compute. reflexivity. Qed.
