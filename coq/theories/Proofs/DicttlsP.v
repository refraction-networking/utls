(* Proofs for C32: soundness of the boolean table check, the exhaustive check of
   the regenerated tables (finite domain = all entries of Gen/Dict.v), and the
   render/import round trip of the JSON name lists. *)
From Coq Require Import String.
From UV Require Import Base.Common Model.Dicttls Gen.Dict.
Open Scope string_scope.

Lemma entry_ok_spec ni p : entry_ok ni p = true <-> lookup_name (snd p) ni = Some (fst p).
Proof.
  unfold entry_ok. destruct (lookup_name (snd p) ni) as [v|]; split; intros H; try discriminate.
  - apply N.eqb_eq in H. subst. reflexivity.
  - inversion H. apply N.eqb_refl.
Qed.

Lemma table_ok_sound t : table_ok t = true ->
  forall v n, In (v, n) (fst t) -> lookup_name n (snd t) = Some v.
Proof.
  unfold table_ok. intros H v n Hin. rewrite forallb_forall in H.
  specialize (H (v, n) Hin). apply entry_ok_spec in H. exact H.
Qed.

Lemma table_ok_complete t : (forall v n, In (v, n) (fst t) -> lookup_name n (snd t) = Some v) -> table_ok t = true.
Proof.
  intros H. unfold table_ok. apply forallb_forall. intros [v n] Hin. apply entry_ok_spec. apply H. exact Hin.
Qed.

Lemma asym_nil t : asym t = [] <-> table_ok t = true.
Proof.
  unfold asym, table_ok. induction (fst t) as [|p l IH]; cbn; [tauto|].
  destruct (entry_ok (snd t) p); cbn; [exact IH | split; discriminate].
Qed.

Lemma all_asym_nil ts : all_asym ts = [] <-> forallb (fun t => table_ok (snd t)) ts = true.
Proof.
  unfold all_asym. induction ts as [|[name t] r IH]; cbn; [tauto|].
  destruct (asym_nil t) as [A1 A2]. destruct (table_ok t).
  - rewrite (A2 eq_refl). exact IH.
  - destruct (asym t); [discriminate (A1 eq_refl)|]. split; discriminate.
Qed.

(* The exhaustive sweep over the regenerated finite domain: every paired table of Gen/Dict.v.
   It is the only evaluation of the tables; everything else about them follows from it. *)
Lemma all_tables_ok : forallb (fun t => table_ok (snd t)) dict_tables = true.
Proof. vm_compute. reflexivity. Qed.

(* membership in a list of named tables, decided on the names alone (the tables stay folded) *)
Lemma in_by_name {T} (ts : list (string * T)) x :
  find (fun y => String.eqb (fst y) (fst x)) ts = Some x -> In x ts.
Proof. intros H. exact (proj1 (find_some _ _ H)). Qed.

Lemma lookup_value_In v vi n : lookup_value v vi = Some n -> In (v, n) vi.
Proof.
  induction vi as [|[k m] r IH]; cbn; [discriminate|].
  destruct (N.eqb_spec k v) as [->|NE].
  - intros H; inversion H. left. reflexivity.
  - intros H. right. apply IH. exact H.
Qed.

Lemma import_render_grease is_g vi ni : table_ok (vi, ni) = true -> no_name_is_grease vi = true ->
  forall vs names, render_names is_g vi vs = Some names ->
  import_names_grease ni names = Some (map (ungrease is_g) vs).
Proof.
  intros Hok Hng. induction vs as [|v r IH]; intros names H; cbn in H.
  - inversion H. reflexivity.
  - destruct (render_names is_g vi r) as [ns|] eqn:Er.
    2: { destruct (if is_g v then Some "GREASE" else lookup_value v vi); discriminate. }
    specialize (IH ns eq_refl). cbn [map]. unfold ungrease at 1.
    destruct (is_g v) eqn:Eg.
    + inversion H; subst. cbn [import_names_grease]. rewrite String.eqb_refl, IH. reflexivity.
    + destruct (lookup_value v vi) as [n|] eqn:El; [|discriminate]. inversion H; subst.
      pose proof (lookup_value_In _ _ _ El) as Hin.
      cbn [import_names_grease].
      unfold no_name_is_grease in Hng. rewrite forallb_forall in Hng. specialize (Hng (v, n) Hin). cbn [snd] in Hng.
      apply negb_true_iff in Hng. rewrite Hng.
      pose proof (table_ok_sound (vi, ni) Hok v n Hin) as Hs. cbn [snd] in Hs. rewrite Hs, IH. reflexivity.
Qed.

Lemma import_render vi ni : table_ok (vi, ni) = true ->
  forall vs names, render_names (fun _ => false) vi vs = Some names -> import_names ni names = Some vs.
Proof.
  intros Hok. induction vs as [|v r IH]; intros names H; cbn in H.
  - inversion H. reflexivity.
  - destruct (lookup_value v vi) as [n|] eqn:El; [|discriminate].
    destruct (render_names (fun _ => false) vi r) as [ns|] eqn:Er; [|discriminate].
    inversion H; subst. cbn [import_names].
    pose proof (table_ok_sound (vi, ni) Hok v n (lookup_value_In _ _ _ El)) as Hs. cbn [snd] in Hs.
    rewrite Hs, (IH ns eq_refl). reflexivity.
Qed.

(* the tables the JSON importer uses: each is one of dict_tables (so all_tables_ok applies) and holds no name "GREASE" *)
Definition json_tables : list (string * (vtable * ntable)) :=
  [("CipherSuite", (CipherSuite_value_indexed, CipherSuite_name_indexed));
   ("SupportedGroups", (SupportedGroups_value_indexed, SupportedGroups_name_indexed));
   ("SignatureScheme", (SignatureScheme_value_indexed, SignatureScheme_name_indexed));
   ("ExtType", (ExtType_value_indexed, ExtType_name_indexed));
   ("CompMeth", (CompMeth_value_indexed, CompMeth_name_indexed));
   ("ECPointFormat", (ECPointFormat_value_indexed, ECPointFormat_name_indexed));
   ("CertificateCompressionAlgorithm", (CertificateCompressionAlgorithm_value_indexed, CertificateCompressionAlgorithm_name_indexed));
   ("PSKKeyExchangeMode", (PSKKeyExchangeMode_value_indexed, PSKKeyExchangeMode_name_indexed))].

Lemma json_tables_in_dict_tables x : In x json_tables -> In x dict_tables.
Proof. revert x. apply Forall_forall. repeat (constructor; [apply in_by_name; reflexivity|]). constructor. Qed.

Lemma json_names_not_grease : forallb (fun t => no_name_is_grease (fst (snd t))) json_tables = true.
Proof. vm_compute. reflexivity. Qed.

Lemma json_table_facts name vi ni : In (name, (vi, ni)) json_tables ->
  table_ok (vi, ni) = true /\ no_name_is_grease vi = true.
Proof.
  intros Hin. split.
  - pose proof all_tables_ok as H. rewrite forallb_forall in H.
    exact (H _ (json_tables_in_dict_tables _ Hin)).
  - pose proof json_names_not_grease as H. rewrite forallb_forall in H. exact (H _ Hin).
Qed.
