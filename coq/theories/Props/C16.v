(* C16 — GREASE ECH extensions look like real outer ECH extensions.
   Model: Model/EchGrease.v (GREASEEncryptedClientHelloExtension.init / Len / Read, cipherLen); the random draws
   are inputs ([fresh]). [template_ok]: the object as a parrot carries it (nothing generated yet, candidate AEADs
   are HPKE AEADs, candidate lengths + 16 fit the u16 length prefix). [fresh_ok]: picks are indices into the
   candidate lists, the generated encapsulated key has 32 bytes (X25519), rand.Read fills its buffer. *)
From UV Require Import Base.Common Model.EchGrease Proofs.EchGreaseP.

(* Well-formed: Read writes type 0xfe0d, u16 length, and the body
   0x00 || kdf || aead || config id || u16 len enc || enc || u16 len payload || payload
   with (kdf,aead) from the candidate list (the default pair when the list is empty), a 32-byte enc, and a payload
   of candidate length + 16; a parser for ECHClientHello(outer) reads exactly these fields back. *)
Theorem grease_ech_wf : forall (g : grease) (f : fresh) (buflen : N),
  template_ok g -> fresh_ok g f ->
  let cs := chosen_suite g f in let c := chosen_len g f in
  let pl := f_rand f (c + 16) in
  let e := outer_ext (fst cs) (snd cs) (chosen_id g f) (f_enc f) pl in
  nlen e <= buflen ->
  (exists g1, Read g f buflen = Ok (g1, e) /\ init_done g1 = true) /\
  In cs (candidates_or_default (CandidateCipherSuites g)) /\
  In c (lens_or_default (CandidatePayloadLens g)) /\
  nlen (f_enc f) = 32 /\ nlen pl = c + 16 /\
  parse_ext e = Some (utlsExtensionECH, outer_body (fst cs) (snd cs) (chosen_id g f) (f_enc f) pl) /\
  parse_outer (outer_body (fst cs) (snd cs) (chosen_id g f) (f_enc f) pl)
    = Some (mkOuter (fst cs) (snd cs) (chosen_id g f) (f_enc f) pl) /\
  wf_grease_ext (CandidateCipherSuites g) (CandidatePayloadLens g) e = true.
Proof.
  intros g f buflen T F cs c pl e Hbuf.
  destruct (chosen_suite_ok g f T F) as (Hin & Hk & Hv).
  destruct (chosen_len_ok g f T F) as (Hlin & Hlen).
  pose proof (f_enc_32 g f F) as He. pose proof (f_rand_fills g f F (c + 16)) as Hp. fold pl in Hp.
  assert (Ha : snd cs < 65536) by (unfold cs; destruct Hv as [E|[E|E]]; rewrite E; vm_compute; reflexivity).
  fold c in Hlen.
  pose proof (parse_outer_ext (fst cs) (snd cs) (chosen_id g f) (f_enc f) pl ltac:(lia)) as Hpe. fold e in Hpe.
  assert (Hne : pl <> []). { intros E. rewrite E in Hp. unfold nlen in Hp. cbn in Hp. lia. }
  pose proof (parse_outer_body (fst cs) (snd cs) (chosen_id g f) (f_enc f) pl Hk Ha ltac:(lia) ltac:(lia) Hne) as Hpo.
  repeat split; try assumption.
  - eexists. split.
    + unfold Read. rewrite (init_template g f T F). cbn [bind].
      rewrite ext_len_of_bytes, ext_bytes_layout. cbn [cipherSuite configId EncapsulatedKey payload].
      fold cs c pl e.
      destruct (buflen <? nlen e) eqn:Hlt; [lia | reflexivity].
    + reflexivity.
  - unfold wf_grease_ext. rewrite Hpe, Hpo. cbn [o_kdf o_aead o_enc o_payload]. rewrite N.eqb_refl. cbn [andb].
    rewrite He, N.eqb_refl.
    assert (H1 : existsb (suite_eqb (fst cs, snd cs)) (candidates_or_default (CandidateCipherSuites g)) = true).
    { apply existsb_exists. exists cs. split; [exact Hin|]. unfold suite_eqb. cbn. rewrite !N.eqb_refl. reflexivity. }
    assert (H2 : existsb (fun c0 => nlen pl =? c0 + 16) (lens_or_default (CandidatePayloadLens g)) = true).
    { apply existsb_exists. exists c. split; [exact Hlin|]. rewrite Hp. apply N.eqb_refl. }
    rewrite H1, H2. reflexivity.
Qed.
Print Assumptions grease_ech_wf.

(* Stable: any number of Read calls on the same object (whatever each call could have drawn) return the
   bytes of the first one — the resend after a HelloRetryRequest. No premise on the object. *)
Theorem grease_ech_stable : forall (g : grease) (f : fresh) (fs : list fresh) (buflen : N) (e : bytes) (es : list bytes),
  reads g (f :: fs) buflen = Ok (e :: es) -> Forall (eq e) es.
Proof.
  intros g f fs b e es. cbn [reads]. destruct (Read g f b) as [[g1 e1]| |] eqn:E; cbn [bind]; try discriminate. cbn [fst snd].
  destruct (reads g1 fs b) as [rest| |] eqn:E2; cbn [bind]; try discriminate.
  intros H. injection H as <- <-.
  destruct (Read_state g f b g1 e1 E) as [Hd ->]. exact (reads_done g1 fs b rest Hd E2).
Qed.
Print Assumptions grease_ech_stable.

Theorem grease_ech_len : forall (g : grease) (f f' : fresh) (buflen : N) (g1 : grease) (e : bytes),
  Read g f buflen = Ok (g1, e) -> Len g1 f' = Ok (g1, nlen e).
Proof.
  intros g f f' b g1 e H. destruct (Read_state g f b g1 e H) as [Hd ->]. unfold Len. rewrite (init_done_id g1 f' Hd). cbn [bind].
  rewrite ext_len_of_bytes. reflexivity.
Qed.
Print Assumptions grease_ech_len.

(* Fresh: the encapsulated key, the payload and the config id of an initialised object are the draws of that
   one initialisation ... *)
Theorem grease_ech_fresh : forall (g : grease) (f : fresh) (buflen : N) (g1 : grease) (e : bytes),
  template_ok g -> fresh_ok g f -> Read g f buflen = Ok (g1, e) ->
  EncapsulatedKey g1 = f_enc f /\
  payload g1 = f_rand f (chosen_len g f + 16) /\
  configId g1 = chosen_id g f /\
  (CandidateConfigIds g = [] -> configId g1 = f_id_byte f).
Proof.
  intros g f b g1 e T F H. unfold Read in H. rewrite (init_template g f T F) in H. cbn [bind] in H.
  match type of H with (if ?c then _ else _) = _ => destruct c end; [discriminate|].
  injection H as <- _. cbn. repeat split. intros E. unfold chosen_id. rewrite E. reflexivity.
Qed.
Print Assumptions grease_ech_fresh.

(* ... and of nothing else: whatever stale values the template's generated fields hold, the bytes depend only
   on the candidate lists and the draws. *)
Theorem grease_ech_fresh_only : forall (g g' : grease) (f : fresh) (buflen : N),
  template_ok g -> template_ok g' -> fresh_ok g f ->
  CandidateCipherSuites g = CandidateCipherSuites g' -> CandidateConfigIds g = CandidateConfigIds g' ->
  CandidatePayloadLens g = CandidatePayloadLens g' ->
  Read g f buflen = Read g' f buflen.
Proof.
  intros g g' f b T T' F E1 E2 E3.
  assert (F' : fresh_ok g' f).
  { destruct F as [a b0 c d]. constructor; try assumption; [rewrite <- E1 | rewrite <- E3]; assumption. }
  unfold Read. rewrite (init_template g f T F), (init_template g' f T' F').
  unfold chosen_suite, chosen_id, chosen_len. rewrite E1, E2, E3. reflexivity.
Qed.
Print Assumptions grease_ech_fresh_only.

(* BoringGREASEECH() (u_ech.go:336-352) and the Firefox_120 extension (u_parrots.go:1443-1455) *)
Definition boring : grease := mkGrease [(1, 1); (1, 3)] (0, 0) [] 0 [] [128; 160; 192; 224] [] false.
Definition firefox : grease := mkGrease [(1, 1); (1, 3)] (0, 0) [] 0 [] [223] [] false.
Definition ex_fresh (sp lp : N) (fill : N) : fresh :=
  mkFresh 77 0 sp (repeat 9 32) lp (fun n => repeat fill (N.to_nat n)).

Lemma repeat_nlen (x : N) (n : N) : nlen (repeat x (N.to_nat n)) = n.
Proof. unfold nlen. rewrite repeat_length. apply N2Nat.id. Qed.

Example C16_ex_template_boring : template_ok boring.
Proof.
  constructor; try reflexivity.
  - apply Forall_cons; [split; [reflexivity | left; reflexivity]|].
    apply Forall_cons; [split; [reflexivity | right; right; reflexivity]|]. constructor.
  - repeat (apply Forall_cons; [reflexivity|]). constructor.
Qed.
Example C16_ex_template_firefox : template_ok firefox.
Proof.
  constructor; try reflexivity.
  - apply Forall_cons; [split; [reflexivity | left; reflexivity]|].
    apply Forall_cons; [split; [reflexivity | right; right; reflexivity]|]. constructor.
  - repeat (apply Forall_cons; [reflexivity|]). constructor.
Qed.
Example C16_ex_fresh : fresh_ok boring (ex_fresh 1 2 7).
Proof.
  constructor; cbn; try (intros; lia); try reflexivity.
  intros n. apply repeat_nlen.
Qed.

(* the model run on it: Chacha suite, payload 192+16 = 208 bytes, total 4 + 10 + 32 + 208 bytes; three Reads
   with different draws give the same bytes; the oracle accepts them *)
Example C16_ex_run :
  match reads boring [ex_fresh 1 2 7; ex_fresh 0 0 8; ex_fresh 0 3 9] 1000 with
  | Ok [e1; e2; e3] =>
      nlen e1 = 254 /\ e2 = e1 /\ e3 = e1 /\ firstn 12 e1 = [254; 13; 0; 250; 0; 0; 1; 0; 3; 77; 0; 32] /\
      wf_grease_ext (CandidateCipherSuites boring) (CandidatePayloadLens boring) e1 = true
  | _ => False
  end.
Proof. vm_compute. repeat split. Qed.

(* the premises of grease_ech_wf are needed: an unknown AEAD id panics in cipherLen, and a candidate length
   whose ciphertext does not fit the u16 prefix yields bytes the oracle rejects *)
Example C16_ex_bad_aead :
  Read (mkGrease [(1, 9)] (0, 0) [] 0 [] [128] [] false) (ex_fresh 0 0 7) 1000 = Panic P_invalid_aead.
Proof. reflexivity. Qed.
Example C16_ex_len_overflow :
  match Read (mkGrease [(1, 1)] (0, 0) [] 0 [] [65535] [] false) (ex_fresh 0 0 7) 70000 with
  | Ok (_, e) => wf_grease_ext [(1, 1)] [65535] e = false
  | _ => False
  end.
Proof. vm_compute. reflexivity. Qed.
