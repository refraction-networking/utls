(* C10 — every offered fingerprint completes a handshake with a compliant server.

   client_run10 (Model/Complete.v) is the client's decision (Model/Negotiate.v: UConn.clientHandshake, the TLS 1.3
   and TLS <= 1.2 state machines) with the key selection of the repaired establishHandshakeKeys; [compliant e m w fl]
   says the server flight fl answers the wire hello w with choices inside (offered on the wire) /\ (implemented by
   utls) - version, cipher suite, key-exchange group directly or through a HelloRetryRequest (new group or cookie),
   ALPN, certificate compression, TLS 1.2 ECDHE curve - and follows RFC 8446 / RFC 5246 (session-id echo, null
   compression, downgrade sentinel only when it negotiates below its own maximum, valid cryptography).
   State of the files: the tree WITH fixes/C18-keyshare-private-keys.diff ([fixed := true]); [fixed := false] is
   the code before it. Crypto, certificates and the record layer are the flight's f_crypto_ok bit (partial). *)
From UV Require Import Base.Common Model.Negotiate Model.KeyShare Model.Complete Proofs.CompleteP.

(* The full statement - a hello whose view equals its wire image, whose advertised versions are the ones Config
   accepts, with one share per group, keys as ApplyPreset leaves them, completes on EVERY compliant flight - is
   false: two classes of offered choices make the client abort. *)

(* class 1 (finding psk-hrr/<parrot>): a hello carrying pre_shared_key + a HelloRetryRequest for an offered group:
   "uTLS does not support reprocessing of PSK" *)
Theorem C10_psk_hrr_aborts :
  let ks := mkShape 29 [] false 0 in
  counterexample true (wit_view [29; 23] [29] 1 ks) ks V12 (wit_wire [29; 23] [29] 1) (wit_flight (Some 23) 23) a_none.
Proof. vm_compute. repeat split. Qed.
Print Assumptions C10_psk_hrr_aborts.

(* class 2 (finding hrr-hybrid/<parrot>): supported_groups lists X25519MLKEM768 without a key share (randomized
   specs) and the server requests it in a HelloRetryRequest: "CurvePreferences includes unsupported curve" *)
Theorem C10_hrr_hybrid_aborts :
  let ks := mkShape 29 [] false 0 in
  counterexample true (wit_view [4588; 29; 23] [29] 0 ks) ks V12 (wit_wire [4588; 29; 23] [29] 0) (wit_flight (Some 4588) 4588) a_internal_error.
Proof. vm_compute. repeat split. Qed.
Print Assumptions C10_hrr_hybrid_aborts.

Theorem C10_full_refuted : ~ C10_full true.
Proof. exact (counterexample_refutes _ _ _ _ _ _ _ C10_psk_hrr_aborts). Qed.
Print Assumptions C10_full_refuted.

(* The strongest true conditional: outside these two classes, every spec whose generated shares are backed by the
   key the client selects (keys_ok; established for ApplyPreset's keys by C18_keys_retained and checked per spec on
   every run) completes on every compliant flight, on exactly the server's choices. For every environment (with or
   without the C12/C13 repairs), both values of [fixed]. *)
Theorem C10_holds_if : forall fixed e v ks m w fl,
  c10_cond fixed e v ks m w fl = true -> compliant e m w fl = true ->
  exists st, client_run10 fixed e v ks fl = Complete st
             /\ cs_suite st = h_suite (f_sh fl)
             /\ ((cs_vers st = V13 /\ cs_group st = h_share (f_sh fl) /\ cs_alpn st = f_ee_alpn fl)
                 \/ (cs_vers st = h_vers (f_sh fl) /\ cs_vers st <> V13 /\ cs_alpn st = h_alpn (f_sh fl))).
Proof. exact c10_holds_if. Qed.
Print Assumptions C10_holds_if.

(* Application data: a successful Write reports exactly len(b), whatever the version and cipher family (the 1/n-1
   record split of TLS <= 1.0 CBC suites included); the echo itself is observed by the runs. *)
Theorem C10_write_reports_all : forall vers cbc len, uconn_write vers cbc len = len.
Proof.
  intros vers cbc len. unfold uconn_write. destruct ((1 <? len) && (vers <=? V10) && cbc) eqn:E; [|reflexivity].
  apply andb_true_iff in E as [E _]. apply andb_true_iff in E as [E _]. apply N.ltb_lt in E. lia.
Qed.
Print Assumptions C10_write_reports_all.

(* A CertificateRequest (optional client authentication) in the flight changes nothing: the conditional holds verbatim for
   flights that carry one, and the client (which has no certificate) answers with an empty Certificate message. Whether the
   transcript still verifies with the extra message - also when the server certificate arrives compressed - is part of
   f_crypto_ok and is exercised by the runs (clientauth, clientauth-certcomp, clientauth-hrr). *)
Theorem C10_holds_with_certificate_request : forall fixed e v ks m w fl creq,
  c10_cond fixed e v ks m w fl = true -> compliant e m w fl = true ->
  exists st, client_run10q fixed e v ks fl creq = Complete st /\ cs_suite st = h_suite (f_sh fl)
             /\ client_cert_reply creq = (if creq then Some 0 else None).
Proof.
  intros fixed e v ks m w fl creq H C. destruct (c10_holds_if fixed e v ks m w fl H C) as (st & R & S & _).
  exists st. repeat split; assumption.
Qed.
Print Assumptions C10_holds_with_certificate_request.

(* Before the repair the full statement failed already on a server selecting Firefox's second share: two classical
   shares, the server selects the second ... *)
Theorem C10_second_share_aborted_before_fix :
  let ks := mkShape 29 [] false 0 in
  counterexample false (wit_view [29; 23] [29; 23] 0 ks) ks V12 (wit_wire [29; 23] [29; 23] 0) (wit_flight None 23) a_illegal_parameter.
Proof. vm_compute. repeat split. Qed.
Print Assumptions C10_second_share_aborted_before_fix.

Theorem C10_before_fix_refuted : ~ C10_full false.
Proof. exact (counterexample_refutes _ _ _ _ _ _ _ C10_second_share_aborted_before_fix). Qed.
Print Assumptions C10_before_fix_refuted.

(* non-vacuity: ... and with the fix the same spec satisfies c10_cond on X25519, P-256 and (through a HelloRetryRequest) P-384 *)
Example C10_ex_second_share_now :
  let ks := mkShape 29 [23] false 0 in
  preset_shape true [29; 23] = Some ks
  /\ forall fl, In fl [wit_flight None 29; wit_flight None 23; wit_flight (Some 24) 24] ->
       c10_cond true env_fixed (wit_view [29; 23; 24] [29; 23] 0 ks) ks V12 (wit_wire [29; 23; 24] [29; 23] 0) fl = true
       /\ compliant env_fixed V12 (wit_wire [29; 23; 24] [29; 23] 0) fl = true.
Proof.
  split; [vm_compute; reflexivity|]. intros fl H. simpl in H.
  repeat (destruct H as [<-|H]; [vm_compute; split; reflexivity|]). destruct H.
Qed.

(* a TLS 1.2 server (ECDHE suite 49195 on P-256, no sentinel) is compliant for the same hello, and it completes *)
Example C10_ex_tls12 :
  let ks := mkShape 29 [23] false 0 in
  let fl := mkFlight None (mkHello V12 0 0 [] 49195 0 0 0 false None []) [] None (Some 23) true in
  c10_cond true env_fixed (wit_view [29; 23] [29; 23] 0 ks) ks V12 (wit_wire [29; 23] [29; 23] 0) fl = true
  /\ compliant env_fixed V12 (wit_wire [29; 23] [29; 23] 0) fl = true
  /\ exists st, client_run10 true env_fixed (wit_view [29; 23] [29; 23] 0 ks) ks fl = Complete st /\ cs_vers st = V12.
Proof. vm_compute. repeat split. eexists. split; reflexivity. Qed.

(* keys_ok holds for ApplyPreset's keys on the parrots' share lists (Chrome PQ, Firefox, hybrid-only, five shares) *)
Example C10_ex_keys_ok :
  forallb (fun l => match preset_shape true l with
                    | Some ks => keys_ok true (wit_view l l 0 ks) ks
                    | None => false end)
          [[2570; 4588; 29]; [29; 23]; [4588]; [4588; 23]; [23; 4588; 29; 24; 25]; [14906; 25497; 29]] = true.
Proof. vm_compute. reflexivity. Qed.

(* C10 over the regenerated parrot table (Gen/Parrots.v), from static conditions on the spec alone
   (Model/ParrotNeg.v on top of Model/PresetOk.v; see "From a ClientHelloSpec" in Props/C02.v).
     ParrotNeg.neg_static sp     decidable from the spec: at most one supported_groups / key_share / supported_versions /
                                 compress_certificate extension, version bounds derivable, and - for ALL 16 x 16 GREASE (group,
                                 version) values - spec_ok without [synced] and without the compress_certificate implication
                                 holds with the keys the repaired ApplyPreset retains (ParrotNeg.static_shape, proved for
                                 every crypto instance: C18_parrots)
     ParrotNeg.hybrid_static sp  every hybrid group in supported_groups has its key share (else: finding hrr-hybrid)
     ParrotNegC.psk_quiet sp     without a session the pre_shared_key extension serialises nothing (else: finding psk-hrr)
   The exception classes are THEOREMS over the table: a new parrot that falls into one changes a statement here. *)
From UV Require Model.Ext Model.Marshal Model.ChMarshal Model.WriteToUConn Model.Preset Model.ParrotSpec Model.Shuffle.
From UV Require Model.PresetOk Model.ParrotNeg Gen.Parrots.
From UV Require Proofs.ComposeW Proofs.PresetOkC Proofs.ParrotNegS Proofs.ParrotNegC.

(* every shipped parrot satisfies the static condition ... *)
Theorem C10_parrots_static : forallb (fun p => ParrotNeg.neg_static (Preset.p_spec p)) Parrots.all = true.
Proof. exact ParrotNegS.parrots_neg_static. Qed.

(* ... class hrr-hybrid (supported_groups lists X25519MLKEM768 / Kyber without sending its share): NO shipped parrot
   (the finding hrr-hybrid/* concerns randomized specs only) ... *)
Theorem C10_parrots_hrr_hybrid_exceptions : map Preset.p_name ParrotNegS.hrr_hybrid_exceptions = [].
Proof. exact (f_equal (map Preset.p_name) (ParrotNegS.filter_negb_nil _ _ ParrotNegS.parrots_hybrid_static)). Qed.

(* ... class psk-hrr (finding psk-hrr): reachable only when a session is offered; exactly the four parrots that carry a
   pre_shared_key extension can offer one. Without a session their extension is omitted (OmitEmptyPsk) for all 38: *)
Theorem C10_parrots_psk_hrr_class :
  map Preset.p_name ParrotNegS.psk_hrr_class
  = map Preset.p_name [Parrots.p_Chrome_100_PSK; Parrots.p_Chrome_112_PSK_Shuf; Parrots.p_Chrome_114_Padding_PSK_Shuf; Parrots.p_Chrome_115_PQ_PSK].
Proof. vm_compute. reflexivity. Qed.
Theorem C10_parrots_psk_quiet : forallb (fun p => ParrotNegC.psk_quiet (Preset.p_spec p)) Parrots.all = true.
Proof. exact ParrotNegC.parrots_psk_quiet. Qed.

(* THE PROPERTY for the shipped parrots, no session offered: every table entry, every rearrangement the shuffle can produce,
   every Config with an SNI name of at most 255 bytes and OmitEmptyPsk, every randomness for which ApplyPreset returns, every
   bufio behaviour: on EVERY compliant server flight the client completes, on exactly the server's choices.
   v = the view UConn.ApplyConfig builds (WriteToUConn.view_of), ks = the shape of the keys ApplyPreset retains. *)
Theorem C10_parrots : forall p swaps exts', In p Parrots.all ->
  Shuffle.shuffle ParrotSpec.fixedb swaps (Preset.sp_exts (Preset.p_spec p)) = Ok exts' ->
  forall c fr h es, PresetOkC.parrot_class c ->
  Preset.apply_preset (PresetOk.with_exts (Preset.p_spec p) exts') c fr = Ok (h, es) ->
  forall mn mx env bbs padto raw s',
  Preset.set_tls_vers (PresetOk.with_exts (Preset.p_spec p) exts') = Ok (mn, mx) ->
  WriteToUConn.we_cache_session env = false ->
  ChMarshal.marshal_hello bbs padto h es = Ok raw ->
  WriteToUConn.apply_config env (ChMarshal.marshal_hello bbs padto h es) (ComposeW.preset_state h mn mx) es = Ok s' ->
  let ks := ParrotNeg.static_shape (ParrotNeg.lastS ParrotNeg.s_shares (Preset.sp_exts (Preset.p_spec p)) []) in
  let v := WriteToUConn.view_of (WriteToUConn.finish false es s') es (sh_ecdhe ks) (sh_mlkem ks) 0 in
  exists w, WriteToUConn.wire_of raw = Some w /\
    forall fl, compliant env_fixed mn w fl = true ->
    exists st, client_run10 true env_fixed v ks fl = Complete st
      /\ cs_suite st = h_suite (f_sh fl)
      /\ ((cs_vers st = V13 /\ cs_group st = h_share (f_sh fl) /\ cs_alpn st = f_ee_alpn fl)
          \/ (cs_vers st = h_vers (f_sh fl) /\ cs_vers st <> V13 /\ cs_alpn st = h_alpn (f_sh fl))).
Proof.
  intros p swaps exts' Hin Hsh c fr h es Hc Ha mn mx env bbs padto raw s' Hv Hcache Hm Hcfg ks v.
  (* the static conditions are theorems over the table, invariant under the shuffle *)
  assert (T : forall f, forallb f Parrots.all = true -> f p = true) by (intros f H; exact (proj1 (forallb_forall f _) H p Hin)).
  destruct (ParrotNegS.neg_static_shuffle _ swaps exts' (T _ ParrotNegS.parrots_neg_static) Hsh) as (TN' & THy & _ & Esh).
  rewrite (T _ ParrotNegS.parrots_hybrid_static) in THy.
  assert (Tq : ParrotNegC.psk_quiet (PresetOk.with_exts (Preset.p_spec p) exts') = true).
  { destruct (PresetP.shuffle_ok _ _ _ _ Hsh) as [P _]. unfold ParrotNegC.psk_quiet. cbn [PresetOk.with_exts Preset.sp_exts].
    rewrite <- (PresetOkS.forallb_perm _ _ _ P). exact (T _ ParrotNegC.parrots_psk_quiet). }
  destruct (PresetOkC.parrot_output p swaps exts' Hin Hsh c fr h es Hc Ha) as (Hwf & _ & Hty).
  destruct (ParrotNegC.spec_c10_cond _ c fr h es TN' THy Tq Ha Hwf Hty mn mx env bbs padto raw s' Hv Hcache Hm Hcfg) as (w & Hw & Hcond).
  cbn [PresetOk.with_exts Preset.sp_exts] in Hcond. rewrite Esh in Hcond.
  exists w. split; [exact Hw|]. intros fl Hcomp.
  exact (c10_holds_if true env_fixed v ks mn w fl (Hcond fl Hcomp) Hcomp).
Qed.
Print Assumptions C10_parrots.

(* Firefox_120 (key shares X25519 and P-256) through the whole chain with concrete randomness: a compliant TLS 1.3 server
   selecting the SECOND share (P-256) - the case that aborted before the C18 repair - and one selecting the first: compliant,
   c10_cond holds, the client completes on that group; retained keys Ecdhe = X25519, ExtraEcdhe = [P-256] *)
Example C10_ex_firefox120_second_share :
  ParrotNegC.ex_firefox120 23 = true /\ ParrotNegC.ex_firefox120 29 = true
  /\ ParrotNeg.static_shape (ParrotNeg.lastS ParrotNeg.s_shares (Preset.sp_exts (Preset.p_spec Parrots.p_Firefox_120)) []) = mkShape 29 [23] false 0.
Proof. exact ParrotNegC.ex_firefox120_ok. Qed.

(* imported last, for the driver's closure scan only (lib/vcheck.py follows "Require Import" lines); nothing follows *)
From UV Require Import Model.WriteToUConn Proofs.ComposeP Proofs.ComposeW.
From UV Require Import Model.PresetOk Model.ParrotNeg Proofs.PresetOkP Proofs.PresetOkS Proofs.PresetOkC Proofs.ParrotNegP Proofs.ParrotNegS Proofs.ParrotNegC.
