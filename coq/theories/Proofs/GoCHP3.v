(* Model/GoCH.v: marshalMsg then unmarshal on a message, the public entry points (UnmarshalClientHello /
   Marshal) and the decidable form of the well-formedness premise. *)
From UV Require Import Base.Common Model.Public Model.GoCH Proofs.PublicP Proofs.GoCHP Proofs.GoCHP2.
Open Scope N_scope.

Lemma NoDup_map_filter {A B} (f : A -> B) (p : A -> bool) l : NoDup (map f l) -> NoDup (map f (filter p l)).
Proof.
  induction l as [|a l IH]; intros H; [constructor|]. cbn [map] in H. inversion H as [|? ? Hni Hnd]; subst.
  cbn [filter]. destruct (p a); [|now apply IH]. cbn [map]. constructor; [|now apply IH].
  intros Hin. apply Hni. apply in_map_iff in Hin as (x & Hx & Hxin). apply filter_In in Hxin as [Hxin _].
  rewrite <- Hx. now apply in_map.
Qed.

Lemma present_nodup m : NoDup (map ext_id (present m)).
Proof.
  unfold present. rewrite map_map. apply (NoDup_map_filter (fun e => ext_id (snd e)) fst).
  assert (E : map (fun e => ext_id (snd e)) (slots m) = [0;11;35;65281;23;18;42;57;65037;5;10;13;50;16;43;44;51;45;41])
    by reflexivity.
  rewrite E. repeat (constructor; [intros H; cbn [In] in H; lia|]). constructor.
Qed.

Definition no41 (l : list (bool * ext)) : bool := forallb (fun e => negb (ext_id (snd e) =? 41)) l.
Lemma psk_lastb_snoc l c x : no41 l = true -> psk_lastb (map snd (filter fst (l ++ [(c, x)]))) = true.
Proof.
  induction l as [|[b y] l IH]; intros H.
  - cbn. destruct c; cbn; [now rewrite orb_true_r|reflexivity].
  - unfold no41 in H. cbn [forallb] in H. apply andb_true_iff in H as [H1 H2]. cbn [app filter fst]. destruct b.
    + cbn [map snd psk_lastb]. cbn [snd] in H1. rewrite H1. cbn [orb andb]. now apply IH.
    + now apply IH.
Qed.
Lemma present_psk_last m : psk_lastb (present m) = true.
Proof.
  unfold present. rewrite <- (firstn_skipn 18 (slots m)).
  change (skipn 18 (slots m)) with
    [(negb (is_nil (elems (ch_pskIdentities m))), XPsk (elems (ch_pskIdentities m)) (ch_pskBinders m))].
  apply psk_lastb_snoc. reflexivity.
Qed.

Definition wf_msg (m : clientHelloMsg) : Prop :=
  canon m /\ Forall wf_ext (present m) /\ ch_vers m < 65536 /\ Forall u16_ok (ch_cipherSuites m).

(* The layout marshalMsg writes (handshake_messages.go:366-396).
   [present m] has to stay folded for the kernel: two unfolded copies of [filter fst (slots m)] are compared along all
   2^19 outcomes of the presence tests.  So marshalMsg_opt is unfolded in the goal, where the folded side is the one
   the kernel unfolds first, and never by [unfold ... in] a hypothesis, which is checked the other way round. *)
Lemma marshalMsg_opt_inv m b : marshalMsg_opt m = Some b ->
  exists eb sidb csb compb ebb h,
    cat_opt (map enc_ext (present m)) = Some eb /\ length (ch_random m) = 32%nat /\
    enc_u8lp (ch_sessionId m) = Some sidb /\ enc_u16lp (enc_u16s (ch_cipherSuites m)) = Some csb /\
    enc_u8lp (ch_compressionMethods m) = Some compb /\ (if is_nil eb then Some [] else enc_u16lp eb) = Some ebb /\
    length h = 4%nat /\ b = h ++ enc_u16 (ch_vers m) ++ ch_random m ++ sidb ++ csb ++ compb ++ ebb.
Proof.
  unfold marshalMsg_opt. intros E.
  apply obind_some in E as (eb & Eext & E). apply obind_some in E as (r & Er & E).
  apply obind_some in E as (sidb & Esid & E). apply obind_some in E as (csb & Ecs & E).
  apply obind_some in E as (compb & Ecomp & E). apply obind_some in E as (ebb & Eebb & E).
  apply obind_some in E as (body & Ebody & E).
  destruct (Nat.eqb_spec (length (ch_random m)) 32) as [Hr|]; [injection Er as <-|discriminate].
  apply enc_u24lp_inv in Ebody as ->. injection E as <-.
  exists eb, sidb, csb, compb, ebb, (1 :: enc_u24 (len (enc_u16 (ch_vers m) ++ ch_random m ++ sidb ++ csb ++ compb ++ ebb))).
  repeat split; assumption.
Qed.

(* what unmarshal makes of marshalMsg's output, whether or not the absent fields of m are in canonical form *)
Theorem unmarshal_marshalMsg m b :
  Forall wf_ext (present m) -> ch_vers m < 65536 -> Forall u16_ok (ch_cipherSuites m) -> marshalMsg_opt m = Some b ->
  unmarshal b = Some (project b (ch_vers m) (ch_random m) (ch_sessionId m) (ch_cipherSuites m) (ch_compressionMethods m) (present m)).
Proof.
  intros Hw Hv Hs E.
  apply marshalMsg_opt_inv in E as (eb & sidb & csb & compb & ebb & h & Eext & Hr & Esid & Ecs & Ecomp & Eebb & Hh & Hb).
  exact (unmarshal_encoding _ _ _ _ _ _ _ _ _ _ _ _ Hh Hv Hr Esid Hs Ecs Ecomp Hw (present_nodup m) (present_psk_last m) Eext Eebb b Hb).
Qed.

Theorem marshal_unmarshal m b : wf_msg m -> marshalMsg m = Ok b ->
  exists m', unmarshal b = Some m' /\ ch_fields m' = ch_fields m /\ ch_original m' = Some b /\
             ch_extensions m' = map ext_id (present m).
Proof.
  intros (Hc & Hw & Hv & Hs). unfold marshalMsg. destruct (marshalMsg_opt m) as [b0|] eqn:E; [intros [= ->]|discriminate].
  eexists. split; [exact (unmarshal_marshalMsg m b Hw Hv Hs E)|].
  split; [exact (project_present m b Hc)|split; [apply project_original|apply project_extensions]].
Qed.

(* unmarshal keeps its input as [original] (handshake_messages.go:450) *)
Lemma unmarshal_original b m : unmarshal b = Some m -> ch_original m = Some b.
Proof.
  unfold unmarshal. intros E.
  apply obind_some in E as ([h s0] & _ & E). apply obind_some in E as ([vers s1] & _ & E).
  apply obind_some in E as ([random s2] & _ & E). apply obind_some in E as ([sid s3] & _ & E).
  apply obind_some in E as ([cs s4] & _ & E). apply obind_some in E as (suites & _ & E).
  apply obind_some in E as ([comp s5] & _ & E). destruct (is_nil s5); [now injection E as <-|].
  apply obind_some in E as ([exts s6] & _ & E). destruct (negb (is_nil s6)); [discriminate|].
  apply obind_some in E as (l & _ & E). now injection E as <-.
Qed.

Lemma private_original c : ch_original (CH_private_of c) = CH_Raw c. Proof. reflexivity. Qed.

(* UnmarshalClientHello then Marshal returns the input: Marshal never re-encodes while Raw is set (handshake_messages.go:402) *)
Theorem unmarshal_marshal_raw b c : UnmarshalClientHello b = Some c -> Marshal c = Ok b.
Proof.
  unfold UnmarshalClientHello. destruct (unmarshal b) as [m|] eqn:E; [|discriminate]. cbn [ch_getPublicPtr].
  intros H; injection H as <-. unfold Marshal, marshal. rewrite private_original. cbn [CH_Raw].
  rewrite (unmarshal_original _ _ E). reflexivity.
Qed.

Lemma marshal_cleared c : Marshal (CH_clear_raw c) = marshalMsg (CH_private_of (CH_clear_raw c)).
Proof. reflexivity. Qed.

(* [cbn] below must leave the slice converters and [elems] folded, for the PublicP round-trip lemmas to apply *)
Local Arguments keyShares_ToPublic : simpl never.
Local Arguments KeyShares_ToPrivate : simpl never.
Local Arguments pskIdentities_ToPublic : simpl never.
Local Arguments PskIdentities_ToPrivate : simpl never.
Local Arguments elems : simpl never.

Lemma values_of_fields m n c c' : ch_fields m = ch_fields n ->
  ch_getPublicPtr (Some m) = Some c -> ch_getPublicPtr (Some n) = Some c' -> CH_values c = CH_values c'.
Proof. intros Hf [= <-] [= <-]. destruct m, n. cbn in Hf. injection Hf as ->; intros; subst. reflexivity. Qed.
Lemma values_pub_priv_pub c c' : ch_getPublicPtr (Some (CH_private_of c)) = Some c' -> CH_values c' = CH_values c.
Proof. intros [= <-]. destruct c. unfold CH_values. cbn. now rewrite KeyShares_pub_priv_pub, PskIdentities_pub_priv_pub. Qed.

Theorem reparse_pub c b' : wf_msg (CH_private_of (CH_clear_raw c)) -> Marshal (CH_clear_raw c) = Ok b' ->
  exists c', UnmarshalClientHello b' = Some c' /\ CH_values c' = CH_values c /\ CH_Raw c' = Some b'.
Proof.
  intros W E. rewrite marshal_cleared in E. destruct (marshal_unmarshal _ _ W E) as (m' & Hu & Hf & Ho & _).
  unfold UnmarshalClientHello. rewrite Hu. eexists. split; [reflexivity|]. split; [|exact Ho].
  rewrite (values_of_fields _ _ _ _ Hf eq_refl eq_refl). exact (values_pub_priv_pub (CH_clear_raw c) _ eq_refl).
Qed.

Lemma nonnilb_spec {A} (l : list A) : nonnilb l = true -> l <> [].
Proof. destruct l; cbn; intros H; congruence. Qed.
Lemma forallb_Forall {A} (p : A -> bool) (P : A -> Prop) l :
  (forall x, p x = true -> P x) -> forallb p l = true -> Forall P l.
Proof.
  intros HP. induction l as [|x l IH]; cbn [forallb]; intros H; [constructor|].
  apply andb_true_iff in H as [H1 H2]. constructor; auto.
Qed.
Lemma u16s_ok l : forallb u16_okb l = true -> Forall u16_ok l.
Proof. apply forallb_Forall. intros x H. unfold u16_okb in H. unfold u16_ok. lia. Qed.
Lemma nonnils_ok (l : list bytes) : forallb nonnilb l = true -> Forall nonnil l.
Proof. apply forallb_Forall. intros x H. now apply nonnilb_spec. Qed.

Ltac split_and H := repeat match type of H with
  | _ && _ = true => let H1 := fresh "Hb" in apply andb_true_iff in H as [H H1] end.

Lemma wf_extb_sound x : wf_extb x = true -> wf_ext x.
Proof.
  destruct x; cbn [wf_extb wf_ext]; intros H; try exact I; try discriminate; split_and H.
  - (* server_name *) split; [now apply nonnilb_spec|]. intros E. rewrite E in Hb. discriminate.
  - (* status_request *) exact H.
  - (* supported_groups *) split; [now apply nonnilb_spec|now apply u16s_ok].
  - (* ec_point_formats *) now apply nonnilb_spec.
  - (* signature_algorithms *) split; [now apply nonnilb_spec|now apply u16s_ok].
  - (* signature_algorithms_cert *) split; [now apply nonnilb_spec|now apply u16s_ok].
  - (* alpn *) split; [now apply nonnilb_spec|now apply nonnils_ok].
  - (* supported_versions *) split; [now apply nonnilb_spec|now apply u16s_ok].
  - (* cookie *) now apply nonnilb_spec.
  - (* key_share *) revert H. apply forallb_Forall. intros k Hk. unfold share_okb in Hk. apply andb_true_iff in Hk as [H1 H2].
    split; [lia|now apply nonnilb_spec].
  - (* pre_shared_key *) repeat split; [now apply nonnilb_spec| |now apply nonnilb_spec|now apply nonnils_ok].
    revert Hb1. apply forallb_Forall. intros k Hk. unfold id_okb in Hk. apply andb_true_iff in Hk as [H1 H2].
    split; [lia|now apply nonnilb_spec].
Qed.

Lemma canonb_sound m : canonb m = true -> canon m.
Proof.
  unfold canonb, canon. intros H. split_and H. repeat split.
  - intros E. rewrite E in H. cbn in H. destruct (ch_sessionTicket m); [reflexivity|discriminate].
  - intros E. rewrite E in Hb4. cbn in Hb4. destruct (ch_secureRenegotiation m); [reflexivity|discriminate].
  - intros E. rewrite E in Hb3. exact Hb3.
  - intros E. rewrite E in Hb2. cbn in Hb2. destruct (ch_pskBinders m); [reflexivity|discriminate].
  - intros E. rewrite E in Hb1. discriminate.
  - intros E. rewrite E in Hb0. discriminate.
  - destruct (ch_nextProtoNeg m); [discriminate|reflexivity].
Qed.

Lemma wf_msgb_sound m : wf_msgb m = true -> wf_msg m.
Proof.
  unfold wf_msgb, wf_msg. intros H. split_and H.
  split; [now apply canonb_sound|]. split; [apply (forallb_Forall wf_extb wf_ext); [exact wf_extb_sound|assumption]|].
  split; [lia|now apply u16s_ok].
Qed.
