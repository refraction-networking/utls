(* Proofs for C01 over Model/UConn.v: what Handshake writes is the hello rebuilt at
   handshake start from the current header fields and extension objects; no documented edit
   is lost between BuildHandshakeState and Handshake; Raw afterwards is the last hello sent. *)
From UV Require Import Base.Common Model.Ext Model.Marshal Model.ChMarshal Model.UConn.

Section P.
Variable bbs : N -> N.
Variable padto : Z.

Lemma build_ok load s s1 : build bbs padto load s = (s1, Ok tt) ->
  marshal_hello bbs padto (u_hdr s1) (u_exts s1) = Ok (u_raw s1)
  /\ u_sent s1 = u_sent s /\ u_done s1 = u_done s
  /\ (load = true -> u_status s1 = BuildByUtls)
  /\ ((u_status s = BuildByUtls \/ u_applied s = true) -> u_hdr s1 = u_hdr s /\ u_exts s1 = u_exts s)
  /\ (u_status s = NotBuilt -> u_applied s = false -> u_spec s = Ok (u_hdr s1, u_exts s1)).
Proof.
  (* three ways to Ok: NotBuilt with the preset applied earlier, NotBuilt applying it now, BuildByUtls;
     in each the six conjuncts are read off the state that is returned *)
  unfold build. intros H.
  destruct (u_status s) eqn:Hst; [| |inversion H].
  - destruct (u_applied s) eqn:Hap.
    + destruct (marshal_hello bbs padto (u_hdr s) (u_exts s)) as [raw| |] eqn:Hm; inversion H; subst s1; cbn.
      split; [exact Hm|]. split; [reflexivity|]. split; [reflexivity|]. split; [intros ->; reflexivity|].
      split; [intros _; split; reflexivity | intros _ Hf; discriminate Hf].
    + destruct (u_spec s) as [[h es]| |] eqn:Hsp; [|inversion H|inversion H]. cbn [u_hdr u_exts] in H.
      destruct (marshal_hello bbs padto h es) as [raw| |] eqn:Hm; inversion H; subst s1; cbn.
      split; [exact Hm|]. split; [reflexivity|]. split; [reflexivity|]. split; [intros ->; reflexivity|].
      split; [intros [Hf|Hf]; discriminate Hf | intros _ _; reflexivity].
  - destruct (marshal_hello bbs padto (u_hdr s) (u_exts s)) as [raw| |] eqn:Hm; inversion H; subst s1; cbn.
    split; [exact Hm|]. split; [reflexivity|]. split; [reflexivity|]. split; [intros _; destruct load; reflexivity|].
    split; [intros _; split; reflexivity | intros Hf; discriminate Hf].
Qed.

Lemma handshake_ok srv s s' : u_done s = false -> handshake bbs padto srv s = (s', Ok tt) ->
  exists s1, build bbs padto true s = (s1, Ok tt)
    /\ marshal_hello bbs padto (u_hdr s1) (u_exts s1) = Ok (u_raw s1)
    /\ u_hdr s' = u_hdr s1
    /\ match srv with
       | SrvPlain => u_sent s' = u_sent s ++ [u_raw s1] /\ u_raw s' = u_raw s1 /\ u_exts s' = u_exts s1
       | SrvHRR g key cookie idx =>
           exists raw2, hrr_exts g key cookie idx (u_exts s1) = Ok (u_exts s')
             /\ marshal_hello bbs padto (u_hdr s1) (u_exts s') = Ok raw2
             /\ u_sent s' = u_sent s ++ [u_raw s1; raw2] /\ u_raw s' = raw2
       end.
Proof.
  intros Hd H. unfold handshake in H. rewrite Hd in H.
  destruct (build bbs padto true s) as [s1 [[]| |]] eqn:Hb; try (inversion H; fail).
  destruct (build_ok true s s1 Hb) as (Hm & Hsent & _). exists s1. split; [reflexivity|]. split; [exact Hm|].
  destruct srv as [|g key cookie idx].
  - inversion H; subst s'; cbn. rewrite Hsent. auto.
  - destruct (hrr_exts g key cookie idx (u_exts s1)) as [es'| |] eqn:Hh; try (inversion H; fail).
    destruct (marshal_hello bbs padto (u_hdr s1) es') as [raw2| |] eqn:Hm2; inversion H; subst s'; cbn.
    split; [reflexivity|]. exists raw2. rewrite Hsent, <- app_assoc. auto.
Qed.

Lemma first_record srv s s' : u_done s = false -> handshake bbs padto srv s = (s', Ok tt) ->
  exists s1, build bbs padto true s = (s1, Ok tt)
    /\ nth (length (u_sent s)) (u_sent s') [] = u_raw s1
    /\ marshal_hello bbs padto (u_hdr s1) (u_exts s1) = Ok (u_raw s1).
Proof.
  intros Hd H. destruct (handshake_ok srv s s' Hd H) as (s1 & Hb & Hm & _ & Hs). exists s1. split; [exact Hb|]. split; [|exact Hm].
  destruct srv.
  - destruct Hs as (-> & _). rewrite app_nth2, Nat.sub_diag by lia. reflexivity.
  - destruct Hs as (raw2 & _ & _ & -> & _). rewrite app_nth2, Nat.sub_diag by lia. reflexivity.
Qed.

Lemma raw_after srv s s' : u_done s = false -> handshake bbs padto srv s = (s', Ok tt) ->
  u_raw s' = last (u_sent s') [] /\ marshal_hello bbs padto (u_hdr s') (u_exts s') = Ok (u_raw s')
  /\ length (u_sent s') = (length (u_sent s) + match srv with SrvPlain => 1 | _ => 2 end)%nat.
Proof.
  intros Hd H. destruct (handshake_ok srv s s' Hd H) as (s1 & Hb & Hm & Hh & Hs).
  destruct srv.
  - destruct Hs as (Hsent & Hraw & He). rewrite Hsent, Hraw, last_last, Hh, He, app_length. cbn [length]. auto.
  - destruct Hs as (raw2 & _ & Hm2 & Hsent & Hraw).
    rewrite Hsent, Hraw, Hh, app_length. cbn [length].
    change [u_raw s1; raw2] with ([u_raw s1] ++ [raw2]). rewrite app_assoc, last_last. auto.
Qed.

Definition edits (ops : list op) (hf : hello_hdr * list ext) : hello_hdr * list ext :=
  fold_left (fun hf o => edit o hf) ops hf.

Lemma step_edit s o : is_edit o = true ->
  fst (step bbs padto s o) = set_fields s (fst (edit o (u_hdr s, u_exts s))) (snd (edit o (u_hdr s, u_exts s))).
Proof.
  destruct o; try discriminate; intros _; cbn [step]; destruct (edit _ _); reflexivity.
Qed.

Lemma run_edits ops : forallb is_edit ops = true -> forall s,
  run bbs padto s ops = set_fields s (fst (edits ops (u_hdr s, u_exts s))) (snd (edits ops (u_hdr s, u_exts s))).
Proof.
  induction ops as [|o ops IH]; intros Hall s.
  - destruct s; reflexivity.
  - cbn [forallb] in Hall. apply andb_true_iff in Hall. destruct Hall as [Ho Hr].
    cbn [run]. rewrite (step_edit s o Ho), (IH Hr). unfold edits. cbn [fold_left set_fields u_hdr u_exts].
    destruct (edit o (u_hdr s, u_exts s)) as [h es]. reflexivity.
Qed.

Lemma edits_reach_wire s eds srv s' :
  u_status s = BuildByUtls -> u_done s = false -> forallb is_edit eds = true ->
  handshake bbs padto srv (run bbs padto s eds) = (s', Ok tt) ->
  let hf := edits eds (u_hdr s, u_exts s) in
  exists first, nth (length (u_sent s)) (u_sent s') [] = first
    /\ marshal_hello bbs padto (fst hf) (snd hf) = Ok first.
Proof.
  intros Hst Hd Hall H hf. rewrite (run_edits eds Hall s) in H.
  set (se := set_fields s (fst (edits eds (u_hdr s, u_exts s))) (snd (edits eds (u_hdr s, u_exts s)))) in *.
  assert (Hd' : u_done se = false) by exact Hd.
  destruct (first_record srv se s' Hd' H) as (s1 & Hb & Hn & Hm).
  destruct (build_ok true se s1 Hb) as (_ & _ & _ & _ & Hsame & _).
  destruct (Hsame (or_introl Hst)) as [Hh He]. exists (u_raw s1). split; [exact Hn|].
  rewrite Hh, He in Hm. exact Hm.
Qed.

Lemma edits_app a b hf : edits (a ++ b) hf = edits b (edits a hf).
Proof. unfold edits. apply fold_left_app. Qed.

End P.
