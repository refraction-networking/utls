(* C06 — Fingerprinting a ClientHello and re-applying it reproduces its shape.

   The hello is described by extension VALUES (Model/Ext.v); hello_record is its wire image
   (Model/Shape.v; each extension contributes exactly what its Read writes: C06_wire_is_read).
   FromRaw / FingerprintClientHello are the models of Model/FromRaw.v, tied to the code by the
   C06 and C07 runners on the bytes the code really produced. *)
From UV Require Import Base.Common Model.Wire Model.Varint Model.Ext Model.ExtSpec Model.FromRaw Model.Shape
  Proofs.WireP Proofs.ExtP Proofs.FromRawP.
Open Scope list_scope.

(* what a hello puts on the wire for an extension is what the extension's Read writes *)
Theorem C06_wire_is_read : forall e, wf_ext e = true ->
  ext_read e (ext_len e) = Ok (ext_wire e) /\ blen (ext_wire e) = ext_len e.
Proof.
  intros e Hwf. pose proof (read_layout e Hwf) as HL. unfold ext_wire.
  destruct (ext_absent e); destruct HL as [HR HB]; (split; [exact HR|]).
  - rewrite HB. reflexivity.
  - rewrite blen_app, blen_enc_u16, blen_enc_u16lp. lia.
Qed.
Print Assumptions C06_wire_is_read.

(* Round trip: for every hello within the limits of its own length prefixes whose extensions are
   round-trippable (rt_ok: within wire limits, present, of a type FromRaw can rebuild), FromRaw
   returns exactly: legacy version, cipher suites with GREASE -> 0x0a0a, compression methods, and
   the extensions IN ORDER, each normalised (GREASE -> placeholder, key-share data dropped unless
   GREASE, SNI / ticket / renegotiation body dropped, PSK kept (fake) or emptied (real), ECH-GREASE
   bytes zeroed at equal sizes, padding policy := pad to the captured length). *)
Theorem C06_fp_roundtrip : forall (blunt real : bool) (h : hello), hello_ok h = true ->
  from_raw blunt real (hello_record h) = Ok (fp_spec real h).
Proof. exact from_raw_record. Qed.
Print Assumptions C06_fp_roundtrip.

(* ... hence through Fingerprinter.FingerprintClientHello without AlwaysAddPadding *)
Theorem C06_fp_roundtrip_fingerprinter : forall (blunt real : bool) (h : hello), hello_ok h = true ->
  fingerprint {| f_blunt := blunt; f_always_pad := false; f_real_psk := real |} (hello_record h) = Ok (fp_spec real h).
Proof. intros blunt real h H. unfold fingerprint. cbn [f_blunt f_real_psk f_always_pad]. rewrite (from_raw_record blunt real h H). reflexivity. Qed.
Print Assumptions C06_fp_roundtrip_fingerprinter.

(* Idempotence / shape: any two hellos of the same shape (in particular the captured hello and
   the one regenerated from its fingerprint with other per-connection material) fingerprint to
   specs with the same suites, compression methods, version bounds and extension list (up to the
   freshly drawn ECH-GREASE bytes); only the recorded padding target may differ. *)
Theorem C06_fp_idempotent : forall (blunt real : bool) (h1 h2 : hello),
  hello_ok h1 = true -> hello_ok h2 = true -> same_shape real h1 h2 ->
  exists s1 s2, from_raw blunt real (hello_record h1) = Ok s1 /\ from_raw blunt real (hello_record h2) = Ok s2
    /\ sp_suites s1 = sp_suites s2 /\ sp_comp s1 = sp_comp s2
    /\ sp_vmin s1 = sp_vmin s2 /\ sp_vmax s1 = sp_vmax s2
    /\ map ech_mask (sp_exts s1) = map ech_mask (sp_exts s2).
Proof.
  intros blunt real h1 h2 H1 H2 Hs. exists (fp_spec real h1), (fp_spec real h2).
  split; [exact (from_raw_record blunt real h1 H1)|]. split; [exact (from_raw_record blunt real h2 H2)|].
  destruct Hs as (Hv & Hs & Hc & Hhv & He). unfold fp_spec.
  pose proof (install_pad_to_mask (map (fp_norm real) (h_exts h1))) as [A1 _].
  pose proof (install_pad_to_mask (map (fp_norm real) (h_exts h2))) as [A2 _].
  destruct (install_pad_to (map (fp_norm real) (h_exts h1))) as [e1 p1].
  destruct (install_pad_to (map (fp_norm real) (h_exts h2))) as [e2 p2].
  cbn [sp_suites sp_comp sp_exts sp_vmin sp_vmax fst] in *. rewrite Hhv, Hv. repeat split; try assumption.
  rewrite A1, A2, He. reflexivity.
Qed.
Print Assumptions C06_fp_idempotent.

(* the normalisation is itself a fixed point (fingerprint of a fingerprint) *)
Theorem C06_norm_idempotent : forall e, ext_norm (ext_norm e) = ext_norm e.
Proof. exact norm_idem. Qed.
Print Assumptions C06_norm_idempotent.

(* Length: equal sizes of every per-connection part (random, session id, each extension's wire
   image, e.g. a server name of the same length) give records of equal total length. The padding
   extension's size is a function of the other sizes and the captured length (C05_fp_length,
   C05_fp_pads_to_captured_length). *)
Theorem C06_fp_length_eq : forall h1 h2, same_sizes h1 h2 -> blen (hello_record h1) = blen (hello_record h2).
Proof.
  intros h1 h2 (Hr & Hs & Hsu & Hc & He).
  assert (Hb : blen (hello_body h1) = blen (hello_body h2)).
  { unfold hello_body. pose proof (blen_exts_block_eq _ _ He) as Hx.
    destruct (h_exts h1) as [|a1 r1]; destruct (h_exts h2) as [|a2 r2]; inversion He; subst;
      rewrite !blen_app, !blen_enc_u8lp, !blen_enc_u16lp, !blen_flat_u16, !blen_enc_u16.
    - rewrite ?blen_nil. lia.
    - rewrite ?blen_enc_u16lp. lia. }
  unfold hello_record. rewrite !blen_app, !blen_enc_u16, !blen_enc_u24. cbn [blen length]. unfold blen in *. lia.
Qed.
Print Assumptions C06_fp_length_eq.

(* satisfiable hypotheses on non-trivial hellos *)
Definition ex_h (sni : bytes) (rnd : N) (grease : N) (key : bytes) : hello :=
  {| h_vers := 771; h_random := repeat rnd 32; h_sid := repeat 7 32;
     h_suites := [grease; 4865; 49195]; h_comp := [0];
     h_exts := [EGREASE grease []; ESNI sni; EExtendedMasterSecret; ESupportedCurves [grease; 29; 23];
                ESupportedVersions [grease; 772; 771]; EKeyShare [(grease, [0]); (29, key)];
                EPSKKeyExchangeModes [1]; EPadding 5 true PadBoring] |}.

Definition ex_h1 := ex_h [97; 46; 98; 99] 1 2570 (repeat 9 32).
Definition ex_h2 := ex_h [120; 121; 46; 122] 2 19018 (repeat 200 32).

Example C06_ex_hello_ok : hello_ok ex_h1 = true /\ hello_ok ex_h2 = true.
Proof. split; vm_compute; reflexivity. Qed.

Example C06_ex_same_shape : same_shape false ex_h1 ex_h2.
Proof.
  unfold same_shape. refine (conj _ (conj _ (conj _ (conj _ _)))).
  all: vm_compute. all: reflexivity.
Qed.

Example C06_ex_same_sizes : same_sizes ex_h1 ex_h2.
Proof.
  unfold same_sizes. refine (conj _ (conj _ (conj _ (conj _ _)))).
  1-4: (vm_compute; reflexivity).
  cbn [ex_h1 ex_h2 ex_h h_exts].
  repeat (apply Forall2_cons; [vm_compute; reflexivity|]).
  apply Forall2_nil.
Qed.

Example C06_ex_roundtrip :
  from_raw false false (hello_record ex_h1) =
  Ok {| sp_suites := [2570; 4865; 49195]; sp_comp := [0];
        sp_exts := [EGREASE 2570 []; ESNI []; EExtendedMasterSecret; ESupportedCurves [2570; 29; 23];
                    ESupportedVersions [2570; 772; 771]; EKeyShare [(2570, [0]); (29, [])];
                    EPSKKeyExchangeModes [1]; EPadding 0 false PadOther];
        sp_vmin := 0; sp_vmax := 0; sp_padto := Some (Z.of_N (blen (hello_record ex_h1)) - 5)%Z |}.
Proof. vm_compute. reflexivity. Qed.
