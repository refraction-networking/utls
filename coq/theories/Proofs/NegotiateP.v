(* Proofs about the negotiation core: whatever the server sends, a completed
   handshake only ever carries selections the client's view contains (C12) and a
   version the client's configuration / hello lists (C13). *)
From UV Require Import Base.Common Model.Negotiate.

Lemma memN_In x l : memN x l = true <-> In x l.
Proof.
  unfold memN. rewrite existsb_exists. split.
  - intros [y [Hy He]]. apply N.eqb_eq in He. subst. exact Hy.
  - intros H. exists x. split; [exact H | apply N.eqb_refl].
Qed.

Lemma memN_false x l : memN x l = false <-> ~ In x l.
Proof.
  rewrite <- memN_In. destruct (memN x l); split; intros H; congruence.
Qed.

Lemma memB_In x l : memB x l = true <-> In x l.
Proof.
  unfold memB. rewrite existsb_exists. split.
  - intros [y [Hy He]]. apply bytes_eqb_eq in He. subst. exact Hy.
  - intros H. exists x. split; [exact H | apply bytes_eqb_eq; reflexivity].
Qed.

Lemma list_eqN_eq a b : list_eqN a b = true -> a = b.
Proof. intros H. apply bytes_eqb_eq. exact H. Qed.

Lemma list_eqB_eq a b : list_eqB a b = true -> a = b.
Proof.
  unfold list_eqB. revert b. induction a as [|x a IH]; intros [|y b] H; simpl in H; try discriminate; auto.
  apply andb_true_iff in H. destruct H as [H1 H2]. apply bytes_eqb_eq in H1. apply IH in H2. subst. reflexivity.
Qed.

Lemma client_versions_sub v x : In x (client_versions v) -> In x [V13; V12; V11; V10].
Proof. unfold client_versions. intros H. apply filter_In in H. tauto. Qed.

Lemma pick_version_in v h x : pick_version v h = Some x -> In x (client_versions v).
Proof.
  unfold pick_version. destruct (memN _ _) eqn:E; intros H; inversion H; subst.
  apply memN_In. exact E.
Qed.

Lemma pick_version_peer v h x : pick_version v h = Some x -> x = (if h_sv h =? 0 then h_vers h else h_sv h).
Proof. unfold pick_version. destruct (memN _ _); intros H; inversion H; reflexivity. Qed.

Lemma check_hello13_inv v prev h s :
  check_hello13 v prev h = inr s ->
  s = h_suite h /\ In s (cv_suites v) /\ In s tls13_suites /\ h_sid h = cv_sid v /\ h_comp h = 0
  /\ h_sv h = V13 /\ h_vers h = V12 /\ h_alpn h = [] /\ (forall p, prev = Some p -> s = p).
Proof.
  unfold check_hello13.
  destruct (h_sv h =? 0) eqn:E0; [discriminate|].
  destruct (h_sv h =? V13) eqn:E1; [|discriminate]. cbn [negb].
  destruct (h_vers h =? V12) eqn:E2; [|discriminate]. cbn [negb].
  destruct (h_alpn h) eqn:E3; [|discriminate]. cbn [negb].
  destruct (bytes_eqb (cv_sid v) (h_sid h)) eqn:E4; [|discriminate]. cbn [negb].
  destruct (h_comp h =? 0) eqn:E5; [|discriminate]. cbn [negb].
  apply bytes_eqb_eq in E4. apply N.eqb_eq in E1, E2, E5.
  destruct (mutual13 (cv_suites v) (h_suite h)) eqn:M; [|destruct prev; discriminate].
  apply andb_true_iff in M. destruct M as [M1 M2]. apply memN_In in M1, M2.
  destruct prev as [p|]; cbn [andb].
  - destruct (h_suite h =? p) eqn:E; [|discriminate]. apply N.eqb_eq in E.
    intros H; inversion H; subst s. repeat split; auto. intros q Hq. inversion Hq. congruence.
  - intros H; inversion H; subst s. repeat split; auto. discriminate.
Qed.

Lemma process_hrr_inv v h shares ecdhe :
  process_hrr v h = inr (shares, ecdhe) ->
  (h_selgroup h = 0 /\ shares = cv_shares v /\ ecdhe = cv_ecdhe v)
  \/ (h_selgroup h <> 0 /\ shares = [h_selgroup h] /\ ecdhe = h_selgroup h
      /\ In (h_selgroup h) (cv_curves v) /\ ~ In (h_selgroup h) (cv_shares v)
      /\ classical_impl (h_selgroup h) = true).
Proof.
  unfold process_hrr.
  destruct ((h_selgroup h =? 0) && negb (h_cookie h)); [discriminate|].
  destruct (h_share h =? 0); [|discriminate]. cbn [negb].
  destruct (h_selgroup h =? 0) eqn:E0.
  - destruct (0 <? cv_psk v); [discriminate|]. intros H; inversion H. left. apply N.eqb_eq in E0. auto.
  - destruct (memN (h_selgroup h) (cv_curves v)) eqn:E1; [|discriminate]. cbn [negb].
    destruct (memN (h_selgroup h) (cv_shares v)) eqn:E2; [discriminate|].
    destruct (classical_impl (h_selgroup h)) eqn:E3; [|discriminate]. cbn [negb].
    destruct (0 <? cv_psk v); [discriminate|]. intros H; inversion H. right.
    apply N.eqb_neq in E0. apply memN_In in E1. apply memN_false in E2. repeat split; auto.
Qed.

Lemma process_sh13_inv v shares suite h psk :
  process_sh13 v shares suite h = inr psk ->
  In (h_share h) shares /\ h_share h <> 0 /\ (forall i, h_psk h = Some i -> i < cv_psk v)
  /\ psk = match h_psk h with Some _ => true | None => false end.
Proof.
  unfold process_sh13.
  destruct (h_cookie h); [discriminate|].
  destruct (h_selgroup h =? 0); [|discriminate]. cbn [negb].
  destruct (h_share h =? 0) eqn:E0; [discriminate|].
  destruct (memN (h_share h) shares) eqn:E1; [|discriminate]. cbn [negb].
  apply memN_In in E1. apply N.eqb_neq in E0.
  destruct (h_psk h) as [i|].
  - destruct (cv_psk v <=? i) eqn:E2; [discriminate|]. apply N.leb_gt in E2.
    destruct (_ || _); [discriminate|]. destruct (negb (memN _ _)); [discriminate|].
    destruct (negb (_ =? _)); [discriminate|].
    intros H; inversion H. repeat split; auto. intros j Hj. inversion Hj; subst. exact E2.
  - intros H; inversion H. repeat split; auto. discriminate.
Qed.

Lemma check_alpn_inv client server :
  check_alpn client server = true -> server = [] \/ In server client.
Proof.
  unfold check_alpn. destruct server as [|b s]; [auto|].
  destruct client as [|c cl]; [discriminate|]. intros H. right. apply memB_In. exact H.
Qed.

Lemma check_ccert_inv v cc :
  check_ccert v cc = None -> forall a, cc = Some a -> In a (cv_ccalgs v) /\ In a [1; 2; 3].
Proof.
  unfold check_ccert. destruct cc as [alg|]; [|intros _ a H; discriminate].
  destruct (cv_ccext v && _); [|discriminate].
  destruct (memN alg (cv_ccalgs v)) eqn:E1; [|discriminate]. cbn [negb].
  destruct (memN alg [1; 2; 3]) eqn:E2; [|discriminate].
  intros _ a H. inversion H; subst. split; apply memN_In; assumption.
Qed.

(* what a completed TLS 1.3 handshake implies, in terms of the client's view *)
Set Implicit Arguments.
Record accepted13 (v : client_view) (fl : flight) (st : conn_state) : Prop := {
  a13_vers : cs_vers st = V13;
  a13_suite : cs_suite st = h_suite (f_sh fl);
  a13_suite_offered : In (h_suite (f_sh fl)) (cv_suites v);
  a13_suite_tls13 : In (h_suite (f_sh fl)) tls13_suites;
  a13_sid : h_sid (f_sh fl) = cv_sid v;
  a13_comp : h_comp (f_sh fl) = 0;
  a13_group : cs_group st = h_share (f_sh fl);
  a13_group_offered :
    match f_hrr fl with
    | None => In (h_share (f_sh fl)) (cv_shares v)
    | Some h =>
        (h_selgroup h = 0 /\ In (h_share (f_sh fl)) (cv_shares v))
        \/ (h_selgroup h <> 0 /\ h_share (f_sh fl) = h_selgroup h
            /\ In (h_selgroup h) (cv_curves v) /\ ~ In (h_selgroup h) (cv_shares v))
    end;
  a13_hrr : forall h, f_hrr fl = Some h ->
            h_sid h = cv_sid v /\ h_comp h = 0 /\ h_suite h = h_suite (f_sh fl) /\ In (h_suite h) (cv_suites v);
  a13_alpn : cs_alpn st = f_ee_alpn fl;
  a13_alpn_offered : f_ee_alpn fl = [] \/ In (f_ee_alpn fl) (cv_alpn v);
  a13_psk : forall i, h_psk (f_sh fl) = Some i -> i < cv_psk v;
  a13_resumed : cs_psk st = match h_psk (f_sh fl) with Some _ => true | None => false end;
  a13_ccert : cs_psk st = false -> forall a, f_ccert fl = Some a -> In a (cv_ccalgs v)
}.

Unset Implicit Arguments.

Lemma run13_inv v fl st : run13 v fl = Complete st -> accepted13 v fl st.
Proof.
  unfold run13.
  destruct ((cv_ecdhe v =? 0) || _); [discriminate|].
  destruct (f_hrr fl) as [hrr|] eqn:Ehrr.
  - destruct (check_hello13 v None hrr) as [a|suite0] eqn:E1; [discriminate|].
    destruct (process_hrr v hrr) as [a|[shares ecdhe]] eqn:E2; [discriminate|].
    destruct (check_hello13 v (Some suite0) (f_sh fl)) as [a|suite] eqn:E3; [discriminate|].
    destruct (process_sh13 v shares suite (f_sh fl)) as [a|psk] eqn:E4; [discriminate|].
    destruct (establish_keys _ _ _); [discriminate|].
    destruct (f_crypto_ok fl); [|discriminate]. cbn [negb].
    destruct (check_alpn (cv_alpn v) (f_ee_alpn fl)) eqn:E5; [|discriminate]. cbn [negb].
    destruct (if psk then None else check_ccert v (f_ccert fl)) eqn:E6; [discriminate|].
    intros H; inversion H; subst st; clear H.
    apply check_hello13_inv in E1. destruct E1 as (A1 & A2 & _ & A4 & A5 & _).
    apply check_hello13_inv in E3. destruct E3 as (B1 & B2 & B3 & B4 & B5 & _ & _ & _ & B9).
    specialize (B9 suite0 eq_refl). rewrite B1, A1 in B9. symmetry in B9. subst suite suite0.
    apply process_sh13_inv in E4. destruct E4 as (C1 & _ & C3 & C4).
    apply check_alpn_inv in E5. apply process_hrr_inv in E2.
    constructor; rewrite ?Ehrr; cbn [cs_vers cs_suite cs_group cs_alpn cs_psk]; auto.
    + destruct E2 as [(D1 & -> & _) | (D1 & -> & _ & D4 & D5 & _)]; [auto|].
      destruct C1 as [C1|[]]. rewrite <- C1. auto.
    + intros h Hh. inversion Hh; subst h. auto.
    + intros Hp a Ha. subst psk. rewrite Hp in E6. exact (proj1 (check_ccert_inv _ _ E6 a Ha)).
  - destruct (check_hello13 v None (f_sh fl)) as [a|suite] eqn:E1; [discriminate|].
    destruct (process_sh13 v (cv_shares v) suite (f_sh fl)) as [a|psk] eqn:E4; [discriminate|].
    destruct (establish_keys _ _ _); [discriminate|].
    destruct (f_crypto_ok fl); [|discriminate]. cbn [negb].
    destruct (check_alpn (cv_alpn v) (f_ee_alpn fl)) eqn:E5; [|discriminate]. cbn [negb].
    destruct (if psk then None else check_ccert v (f_ccert fl)) eqn:E6; [discriminate|].
    intros H; inversion H; subst st; clear H.
    apply check_hello13_inv in E1. destruct E1 as (A1 & A2 & A3 & A4 & A5 & _). subst suite.
    apply process_sh13_inv in E4. destruct E4 as (C1 & _ & C3 & C4).
    apply check_alpn_inv in E5.
    constructor; rewrite ?Ehrr; cbn [cs_vers cs_suite cs_group cs_alpn cs_psk]; auto; [discriminate|].
    intros Hp a Ha. subst psk. rewrite Hp in E6. exact (proj1 (check_ccert_inv _ _ E6 a Ha)).
Qed.

Set Implicit Arguments.
Record accepted12 (e : env) (v : client_view) (vers : N) (h : hello_msg) (fl : flight) (st : conn_state) : Prop := {
  a12_vers : cs_vers st = vers;
  a12_suite : cs_suite st = h_suite h;
  a12_suite_offered : In (h_suite h) (cv_suites v);
  a12_suite_impl : In (h_suite h) (e_impl12 e);
  a12_comp : h_comp h = 0;
  a12_alpn : cs_alpn st = h_alpn h;
  a12_alpn_offered : h_alpn h = [] \/ In (h_alpn h) (cv_alpn v);
  a12_group : cs_group st = match f_skx fl with Some c => c | None => 0 end;
  a12_curve : forall c, f_skx fl = Some c ->
              classical_impl c = true /\ (e_fix_curve12 e = true -> In c (cv_curves v));
  a12_resumed : cs_psk st = false
}.

Unset Implicit Arguments.

Lemma run12_inv e v vers h fl st : run12 e v vers h fl = Complete st -> accepted12 e v vers h fl st.
Proof.
  unfold run12.
  destruct (memN (h_suite h) (cv_suites v) && memN (h_suite h) (e_impl12 e)) eqn:E1; [|discriminate]. cbn [negb].
  destruct (h_comp h =? 0) eqn:E2; [|discriminate]. cbn [negb].
  destruct (check_alpn (cv_alpn v) (h_alpn h)) eqn:E3; [|discriminate]. cbn [negb].
  destruct (process_skx e v (h_suite h) (f_skx fl)) eqn:E4; [discriminate|].
  destruct (f_crypto_ok fl); [|discriminate]. cbn [negb].
  intros H; inversion H; subst st; clear H.
  apply andb_true_iff in E1. destruct E1 as [E1 E1'].
  apply memN_In in E1, E1'. apply N.eqb_eq in E2. apply check_alpn_inv in E3.
  constructor; cbn [cs_vers cs_suite cs_group cs_alpn cs_psk]; auto.
  intros c Hc. rewrite Hc in E4.
  unfold process_skx in E4. destruct (memN (h_suite h) (e_ecdhe12 e)); [|discriminate].
  destruct (classical_impl c); [|discriminate]. cbn [negb] in E4.
  split; [reflexivity|]. intros Hf. rewrite Hf in E4. cbn [andb] in E4.
  destruct (memN c (cv_curves v)) eqn:E6; [|discriminate]. apply memN_In. exact E6.
Qed.

Definition first_hello (fl : flight) : hello_msg := match f_hrr fl with Some h => h | None => f_sh fl end.

(* the three tests every completed handshake has passed, at the version it completed with, before the
   version-specific part starts; C13 needs nothing else of the decision function *)
Definition settled (e : env) (v : client_view) (fl : flight) (vers : N) : Prop :=
  pick_version v (first_hello fl) = Some vers /\ version_offered e v vers = true
  /\ canary_abort e v vers (first_hello fl) = false.

Lemma client_run_inv {e v fl st} :
  client_run_gen e v fl = Complete st ->
  settled e v fl (cs_vers st)
  /\ ((cs_vers st = V13 /\ accepted13 v fl st)
      \/ (cs_vers st <> V13 /\ accepted12 e v (cs_vers st) (first_hello fl) fl st)).
Proof.
  unfold client_run_gen, settled. fold (first_hello fl).
  destruct (pick_version v (first_hello fl)) as [vers|]; [|discriminate].
  destruct (version_offered e v vers) eqn:E2; [|discriminate]. cbn [negb].
  destruct (canary_abort e v vers (first_hello fl)) eqn:E3; [discriminate|].
  destruct (N.eqb_spec vers V13) as [E4|E4]; intros H.
  - subst vers. apply run13_inv in H. rewrite (a13_vers H). auto.
  - apply run12_inv in H. rewrite (a12_vers H). auto.
Qed.

Lemma completed13 {e v fl st} : client_run_gen e v fl = Complete st -> cs_vers st = V13 -> accepted13 v fl st.
Proof. intros H Hv. destruct (client_run_inv H) as [_ [[_ A]|[E _]]]; [exact A | contradiction]. Qed.

Lemma completed12 {e v fl st} :
  client_run_gen e v fl = Complete st -> cs_vers st <> V13 -> accepted12 e v (cs_vers st) (first_hello fl) fl st.
Proof. intros H Hv. destruct (client_run_inv H) as [_ [[E _]|[_ A]]]; [contradiction | exact A]. Qed.

Lemma settled_configured {e v fl vers} :
  settled e v fl vers -> In vers (client_versions v) /\ version_offered e v vers = true.
Proof. intros (P & O & _). split; [eapply pick_version_in; eauto | exact O]. Qed.

Lemma completed_version e v fl st :
  client_run_gen e v fl = Complete st ->
  In (cs_vers st) (client_versions v) /\ version_offered e v (cs_vers st) = true.
Proof. intros H. eapply settled_configured, client_run_inv, H. Qed.

Lemma consistent_in v specmin w x :
  versions_consistent v specmin w = true -> In x (client_versions v) -> In x (advertised specmin w).
Proof.
  unfold versions_consistent. intros H Hx. rewrite forallb_forall in H. apply memN_In. apply H. exact Hx.
Qed.

Lemma version_in_advertised_fixed v specmin w vers :
  versions_synced v specmin w = true ->
  In vers (client_versions v) -> version_offered env_fixed v vers = true ->
  In vers (advertised specmin w).
Proof.
  unfold versions_synced. intros S Hc Ho. destruct (w_has_sv w) eqn:Hs.
  - apply andb_true_iff in S. destruct S as [S1 S2]. apply list_eqN_eq in S1.
    unfold version_offered in Ho. cbn [env_fixed e_fix_version] in Ho. rewrite S1 in Ho.
    destruct (w_sv w) as [|a l] eqn:El; [discriminate|].
    unfold advertised. rewrite Hs, El. apply filter_In. split; [apply memN_In; exact Ho|].
    apply client_versions_sub in Hc. destruct Hc as [<-|[<-|[<-|[<-|[]]]]]; reflexivity.
  - eapply consistent_in; eauto.
Qed.

(* when the maximum the test uses is TLS 1.3, a sentinel leaves no version below 1.3 *)
Lemma settled_canary e v fl vers :
  offered_max e v = V13 ->
  h_tail (first_hello fl) = 1 \/ h_tail (first_hello fl) = 2 ->
  settled e v fl vers -> vers = V13.
Proof.
  intros Hm Ht (P & _ & Cn). apply pick_version_in, client_versions_sub in P.
  unfold canary_abort in Cn. rewrite Hm in Cn.
  destruct P as [P|[P|[P|[P|[]]]]]; subst vers; [reflexivity|..];
    destruct Ht as [Ht|Ht]; rewrite Ht in Cn; discriminate.
Qed.

Lemma max_version_le v : max_version v <= V13.
Proof.
  unfold max_version. destruct (client_versions v) as [|x l] eqn:E; cbn [hd]; [apply N.leb_le; reflexivity|].
  assert (H : In x (client_versions v)) by (rewrite E; left; reflexivity).
  apply client_versions_sub in H. destruct H as [H|[H|[H|[H|[]]]]]; subst x; apply N.leb_le; reflexivity.
Qed.

Lemma offered_max_of_config e v : max_version v = V13 -> offered_max e v = V13.
Proof.
  intros H. unfold offered_max. rewrite H. destruct (e_fix_version e); [|reflexivity].
  destruct (memN V13 (cv_sv v)); [reflexivity|]. destruct (memN V12 (cv_sv v)); reflexivity.
Qed.

Lemma offered_max_of_hello v : In V13 (cv_sv v) -> offered_max env_fixed v = V13.
Proof.
  intros H. unfold offered_max. cbn [env_fixed e_fix_version]. apply memN_In in H. rewrite H.
  apply N.max_r, max_version_le.
Qed.

(* with the repair the test takes its maximum from what the hello lists *)
Lemma offered_max_of_wire v specmin w :
  versions_synced v specmin w = true -> offers13 w = true -> offered_max env_fixed v = V13.
Proof.
  unfold offers13, versions_synced. intros Hs Ho. apply andb_true_iff in Ho. destruct Ho as [Ho1 Ho2].
  rewrite Ho1 in Hs. apply andb_true_iff in Hs. destruct Hs as [Hs _]. apply list_eqN_eq in Hs.
  apply offered_max_of_hello. rewrite Hs. apply memN_In. exact Ho2.
Qed.

(* pre-repair reading: if the wire advertises 1.3 and the spec is canary-consistent, the client's max is 1.3 *)
Definition canary_consistent (v : client_view) (w : wire_view) : bool :=
  implb (offers13 w) (max_version v =? V13).

Lemma synced_inv v w :
  synced v w = true ->
  cv_suites v = w_suites w /\ cv_curves v = w_groups w /\ cv_shares v = w_shares w
  /\ cv_alpn v = w_alpn w /\ cv_sid v = w_sid w /\ cv_psk v = w_psk w
  /\ cv_ccalgs v = w_ccalgs w /\ In 0 (w_comps w).
Proof.
  unfold synced. intros H.
  repeat (apply andb_true_iff in H; let H' := fresh "S" in destruct H as [H H']).
  apply list_eqN_eq in H. apply list_eqN_eq in S6. apply list_eqN_eq in S5. apply list_eqB_eq in S4.
  apply bytes_eqb_eq in S3. apply N.eqb_eq in S2. apply list_eqN_eq in S1. apply memN_In in S.
  repeat split; assumption.
Qed.

(* C12, in terms of what the wire hello offered *)
Section Wire.
  Variables (e : env) (v : client_view) (w : wire_view) (fl : flight) (st : conn_state).
  Hypothesis Hsync : synced v w = true.
  Hypothesis Hrun : client_run_gen e v fl = Complete st.

  Lemma wire_suite13 :
    cs_vers st = V13 ->
    cs_suite st = h_suite (f_sh fl) /\ In (cs_suite st) (w_suites w) /\ In (cs_suite st) tls13_suites
    /\ (forall h, f_hrr fl = Some h -> h_suite h = cs_suite st).
  Proof.
    intros Hv. destruct (synced_inv _ _ Hsync) as (S1 & _). pose proof (completed13 Hrun Hv) as A.
    rewrite (a13_suite A), <- S1. repeat split.
    - exact (a13_suite_offered A).
    - exact (a13_suite_tls13 A).
    - intros h Hh. apply (a13_hrr A Hh).
  Qed.

  Lemma wire_suite12 :
    cs_vers st <> V13 ->
    cs_suite st = h_suite (first_hello fl) /\ In (cs_suite st) (w_suites w) /\ In (cs_suite st) (e_impl12 e).
  Proof.
    intros Hv. destruct (synced_inv _ _ Hsync) as (S1 & _). pose proof (completed12 Hrun Hv) as A.
    rewrite (a12_suite A), <- S1. repeat split.
    - exact (a12_suite_offered A).
    - exact (a12_suite_impl A).
  Qed.

  Lemma wire_group13 :
    cs_vers st = V13 ->
    cs_group st = h_share (f_sh fl)
    /\ match f_hrr fl with
       | None => In (cs_group st) (w_shares w)
       | Some h => (h_selgroup h = 0 /\ In (cs_group st) (w_shares w))
                   \/ (h_selgroup h <> 0 /\ cs_group st = h_selgroup h
                       /\ In (cs_group st) (w_groups w) /\ ~ In (cs_group st) (w_shares w))
       end.
  Proof.
    intros Hv. destruct (synced_inv _ _ Hsync) as (_ & S2 & S3 & _). pose proof (completed13 Hrun Hv) as A.
    rewrite (a13_group A), <- S2, <- S3. split; [reflexivity|].
    pose proof (a13_group_offered A) as G.
    destruct (f_hrr fl) as [h|]; [|exact G].
    destruct G as [G|(G1 & G2 & G3 & G4)]; [left; exact G|].
    right. rewrite G2. auto.
  Qed.

  Lemma wire_alpn : cs_alpn st = [] \/ In (cs_alpn st) (w_alpn w).
  Proof.
    destruct (synced_inv _ _ Hsync) as (_ & _ & _ & S4 & _). rewrite <- S4.
    destruct (client_run_inv Hrun) as [_ [[_ A]|[_ A]]].
    - rewrite (a13_alpn A). exact (a13_alpn_offered A).
    - rewrite (a12_alpn A). exact (a12_alpn_offered A).
  Qed.

  Lemma wire_psk : cs_vers st = V13 -> forall i, h_psk (f_sh fl) = Some i -> i < w_psk w.
  Proof.
    intros Hv. destruct (synced_inv _ _ Hsync) as (_ & _ & _ & _ & _ & S6 & _). rewrite <- S6.
    intros i Hi. exact (a13_psk (completed13 Hrun Hv) Hi).
  Qed.

  Lemma wire_certcomp : cs_vers st = V13 -> cs_psk st = false -> forall a, f_ccert fl = Some a -> In a (w_ccalgs w).
  Proof.
    intros Hv. destruct (synced_inv _ _ Hsync) as (_ & _ & _ & _ & _ & _ & S7 & _). rewrite <- S7.
    intros Hp a Ha. exact (a13_ccert (completed13 Hrun Hv) Hp Ha).
  Qed.

  Lemma wire_sessionid :
    cs_vers st = V13 -> h_sid (f_sh fl) = w_sid w /\ (forall h, f_hrr fl = Some h -> h_sid h = w_sid w).
  Proof.
    intros Hv. destruct (synced_inv _ _ Hsync) as (_ & _ & _ & _ & S5 & _). rewrite <- S5.
    pose proof (completed13 Hrun Hv) as A.
    split; [exact (a13_sid A)|]. intros h Hh. apply (a13_hrr A Hh).
  Qed.

  Lemma wire_curve12 :
    e_fix_curve12 e = true -> cs_vers st <> V13 ->
    forall c, f_skx fl = Some c -> cs_group st = c /\ In c (w_groups w).
  Proof.
    intros Hf Hv c Hc. destruct (synced_inv _ _ Hsync) as (_ & S2 & _). rewrite <- S2.
    pose proof (completed12 Hrun Hv) as A.
    rewrite (a12_group A), Hc. split; [reflexivity|]. apply (a12_curve A Hc), Hf.
  Qed.
End Wire.

(* F-12: Chrome-like hello offering X25519, P-256, P-384; TLS 1.2 server signs a P-521 ServerKeyExchange *)
Definition f12_view : client_view :=
  mkView [4865; 49195; 49199] [29; 23; 24] [29] [[104; 50]] [1; 2; 3] 0 [2] true 769 772 false 29 false [772; 771] 0.
Definition f12_wire : wire_view :=
  mkWire 771 [4865; 49195; 49199] [0] [29; 23; 24] [29] [[104; 50]] [1; 2; 3] 0 [2] true [772; 771].
Definition f12_flight : flight :=
  mkFlight None (mkHello 771 0 0 [9] 49199 0 0 0 false None []) [] None (Some 25) true.

Definition curve12_statement (e : env) : Prop :=
  forall v w fl st c, synced v w = true -> client_run_gen e v fl = Complete st ->
                      cs_vers st <> V13 -> f_skx fl = Some c -> In c (w_groups w).

Lemma curve12_fixed : curve12_statement env_fixed.
Proof.
  intros v w fl st c Hs Hr Hv Hc.
  exact (proj2 (wire_curve12 env_fixed v w fl st Hs Hr eq_refl Hv c Hc)).
Qed.

Definition version_statement (e : env) : Prop :=
  forall v specmin w fl st, versions_synced v specmin w = true ->
    client_run_gen e v fl = Complete st -> In (cs_vers st) (advertised specmin w).

Lemma version_fixed : version_statement env_fixed.
Proof.
  intros v specmin w fl st Hs Hr. destruct (completed_version _ _ _ _ Hr) as [H1 H2].
  eapply version_in_advertised_fixed; eauto.
Qed.

(* F-13: Firefox_102: TLSVersMin 1.0 / TLSVersMax 1.3 copied into Config, supported_versions {1.3,1.2} on the
   wire; a legacy server answers TLS 1.0 with an offered CBC suite *)
Definition f13_view : client_view :=
  mkView [4865; 49171; 47] [29; 23] [29] [] [1; 2; 3] 0 [] false 769 772 false 29 false [772; 771] 0.
Definition f13_wire : wire_view :=
  mkWire 771 [4865; 49171; 47] [0] [29; 23] [29] [] [1; 2; 3] 0 [] true [772; 771].
Definition f13_flight : flight :=
  mkFlight None (mkHello 769 0 0 [9] 49171 0 0 0 false None []) [] None (Some 29) true.

(* canary, wire-level reading: whenever the WIRE hello offers TLS 1.3 *)
Definition canary_statement (e : env) : Prop :=
  forall v specmin w fl st, versions_synced v specmin w = true -> offers13 w = true ->
    (h_tail (first_hello fl) = 1 \/ h_tail (first_hello fl) = 2) ->
    client_run_gen e v fl = Complete st -> cs_vers st = V13.

(* a custom spec with TLSVersMax 1.2 whose extension still lists 1.3: before the repair the sentinel
   was compared with Config.MaxVersion only and not honoured *)
Definition canary_view : client_view :=
  mkView [4865; 49199] [29; 23] [29] [] [1; 2; 3] 0 [] false 771 771 false 29 false [772; 771] 0.
Definition canary_wire : wire_view :=
  mkWire 771 [4865; 49199] [0] [29; 23] [29] [] [1; 2; 3] 0 [] true [772; 771].
Definition canary_flight : flight :=
  mkFlight None (mkHello 771 0 1 [9] 49199 0 0 0 false None []) [] None (Some 29) true.

Lemma canary_fixed : canary_statement env_fixed.
Proof.
  intros v specmin w fl st Hs Ho Ht Hr.
  eapply settled_canary; [eapply offered_max_of_wire; eauto | exact Ht | apply client_run_inv, Hr].
Qed.
