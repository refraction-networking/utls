(* One record: what halfConn.encrypt produces, a halfConn holding the matching read state decrypts
   to the same payload and content type, and the two states stay matched. *)
From UV Require Import Base.Common Model.Record Proofs.RecordP.
Open Scope N_scope.

(* the writer's cipher state [tx] and the reader's [rx] describe the same key stream *)
Definition cipher_match (tx rx : cipher) : Prop :=
  c_kind tx = c_kind rx /\ c_alg tx = c_alg rx /\ c_key tx = c_key rx /\ c_iv tx = c_iv rx /\
  c_pos tx = c_pos rx /\ c_bs tx = c_bs rx /\
  (c_kind tx = KCbc -> c_read tx = false /\ c_read rx = true /\ (c_bs tx = 8 \/ c_bs tx = 16)%nat).

(* which MAC state accompanies which cipher (what establishKeys / setTrafficSecret produce) *)
Definition half_wf (h : half) : Prop :=
  match h_cipher h with
  | None => False
  | Some c =>
    match c_kind c with
    | KStream | KCbc => (exists m, h_mac h = Some m) /\ h_vers h <> V13
    | KAeadPrefix => h_mac h = None /\ h_vers h <> V13
    | KAeadXor => h_mac h = None
    end
  end.

Definition synced (tx rx : half) : Prop :=
  h_vers tx = h_vers rx /\ h_mac tx = h_mac rx /\ h_seq tx = h_seq rx /\ h_secret tx = h_secret rx /\
  half_wf tx /\
  match h_cipher tx, h_cipher rx with Some a, Some b => cipher_match a b | _, _ => False end.

Definition outer_typ (v typ : N) : N := if v =? V13 then rtAppData else typ.
(* 17: the inner content type and the 16-byte tag. 560 = 256 + 48 + 256: explicit IV, MAC, padding, for any
   block size up to the 256 that a padding length byte allows; loose for the 8- and 16-byte blocks in use. *)
Definition body_slack (v : N) : N := if v =? V13 then 17 else 560.

Definition hdr5 (typ v1 v2 n : N) : bytes := [typ; v1; v2; (n / 256) mod 256; n mod 256].

Definition advance (h : half) (c : cipher) : half := set_seq (set_cipher h (Some c)) (h_seq h + 1).

Lemma inc_seq_ok h : h_seq h + 1 < 18446744073709551616 -> inc_seq h = Ok (set_seq h (h_seq h + 1)).
Proof. intros H. unfold inc_seq. destruct (h_seq h + 1 =? 18446744073709551616) eqn:E; [lia|reflexivity]. Qed.

Lemma mac_len_le a : (mac_len a <= 48)%nat.
Proof. unfold mac_len. repeat destruct (_ =? _); lia. Qed.

Lemma set_len_hdr t v1 v2 n body m :
  set_len (([t; v1; v2] ++ be16 n) ++ body) m = [t; v1; v2] ++ be16 m ++ body.
Proof. reflexivity. Qed.

Lemma len_nat (b : bytes) : N.to_nat (len b) = length b.
Proof. unfold len. lia. Qed.

Lemma be16_sub16 (n : nat) : be16 (N.of_nat (n + 16 - aead_overhead)) = be16 (N.of_nat n).
Proof. unfold aead_overhead. f_equal. lia. Qed.

Lemma seq8_nonempty s : exists x r, seq8 s = x :: r.
Proof.
  pose proof (seq8_length s) as H. destruct (seq8 s) as [|x r]; [discriminate|eauto].
Qed.

(* conn.go:555-559: the length field is patched once the body is known *)
Lemma set_len_body t v1 v2 n body :
  set_len (hdr5 t v1 v2 n ++ body) (len (hdr5 t v1 v2 n ++ body) - N.of_nat recordHeaderLen)
  = hdr5 t v1 v2 (len body) ++ body.
Proof.
  replace (len (hdr5 t v1 v2 n ++ body) - N.of_nat recordHeaderLen) with (len body)
    by (unfold len, hdr5, recordHeaderLen; cbn [length app]; lia).
  reflexivity.
Qed.

Lemma synced_ciphers tx rx :
  synced tx rx -> exists c c', h_cipher tx = Some c /\ h_cipher rx = Some c' /\ cipher_match c c'.
Proof.
  intros (_ & _ & _ & _ & _ & H).
  destruct (h_cipher tx) as [c|]; [|contradiction]. destruct (h_cipher rx) as [c'|]; [|contradiction]. eauto.
Qed.

Lemma synced_advance tx rx c c2 c2' :
  synced tx rx -> h_cipher tx = Some c -> c_kind c2 = c_kind c -> cipher_match c2 c2' ->
  synced (advance tx c2) (advance rx c2').
Proof.
  intros (Hv & Hm & Hq & Hsec & Hwf & _) Hc Hk Hcm. unfold half_wf in Hwf. rewrite Hc in Hwf.
  unfold synced, half_wf, advance. cbn [set_seq set_cipher h_vers h_mac h_seq h_secret h_cipher].
  rewrite Hk, Hq. auto 7.
Qed.

Lemma cipher_match_set_iv c c' iv : cipher_match c c' -> cipher_match (set_iv c iv) (set_iv c' iv).
Proof. unfold cipher_match, set_iv. cbn [c_kind c_alg c_key c_iv c_pos c_bs c_read]. tauto. Qed.

(* conn.go:536-541 and 391-396: the explicit IV, when there is one, replaces the chaining IV on both
   sides and is cut off the front of what the reader decrypts *)
Lemma cbc_explicit_iv c c' (ex : bytes) :
  cipher_match c c' ->
  exists c1', cipher_match (match ex with [] => c | _ => set_iv c ex end) c1' /\
    forall ct : bytes,
      (if (0 <? length ex)%nat then set_iv c' (firstn (length ex) (ex ++ ct)) else c') = c1' /\
      (if (0 <? length ex)%nat then skipn (length ex) (ex ++ ct) else ex ++ ct) = ct.
Proof.
  intros H. destruct ex as [|x ex]; [exists c'; auto|].
  exists (set_iv c' (x :: ex)). split; [apply cipher_match_set_iv; exact H|]. intros ct.
  change (0 <? length (x :: ex))%nat with true. cbv iota.
  rewrite firstn_app_exact, skipn_app_exact by reflexivity. auto.
Qed.

(* conn.go:416: before TLS 1.3 there is no inner content type *)
Lemma dec_inner13_old hc t pt : h_vers hc <> V13 -> dec_inner13 hc t pt = Ok (pt, t).
Proof. intros H. unfold dec_inner13. replace (h_vers hc =? V13) with false by lia. reflexivity. Qed.

(* conn.go:416-435: in TLS 1.3 the content type is the last byte of the plaintext *)
Lemma dec_inner13_new hc typ payload :
  h_vers hc = V13 -> typ <> 0 -> len payload <= maxPlaintext ->
  dec_inner13 hc rtAppData (payload ++ [typ]) = Ok (payload, typ).
Proof.
  intros Hv Htyp Hlen. unfold dec_inner13. rewrite Hv, strip13_ok by exact Htyp.
  replace (maxPlaintext + 1 <? len (payload ++ [typ])) with false; [reflexivity|].
  rewrite len_app. change (len [typ]) with 1. lia.
Qed.

(* conn.go:528-535 against extractPadding: data and MAC are padded up to the next block boundary with
   at least one byte, and the reader recognises exactly that padding *)
Lemma cbc_padded (x : bytes) (bs : nat) :
  (1 <= bs <= 256)%nat ->
  let pl := (bs - length x mod bs)%nat in
  let dst := x ++ repeat ((N.of_nat pl - 1) mod 256) pl in
  (1 <= pl <= bs)%nat /\ length dst = (length x + pl)%nat /\ (length dst mod bs = 0)%nat /\
  extract_padding dst = (pl, true).
Proof.
  intros Hbs. cbv zeta. pose proof (Nat.mod_upper_bound (length x) bs).
  rewrite app_length, repeat_length, pad_multiple, extract_padding_ok by lia. repeat split; lia.
Qed.

(* conn.go:380-389: the length checks of the CBC branch of decrypt, on an optional explicit IV followed
   by whole blocks that hold at least a MAC and one byte of padding *)
Lemma cbc_lengths (enl bs L macsz : nat) :
  (1 <= bs)%nat -> (enl = 0 \/ enl = bs)%nat -> (L mod bs = 0)%nat -> (macsz + 1 <= L)%nat ->
  negb ((enl + L) mod bs =? 0)%nat || (enl + L <? enl + round_up (macsz + 1) bs)%nat = false.
Proof.
  intros Hbs Henl Hmod Hmac.
  replace ((enl + L) mod bs)%nat with 0%nat.
  2:{ destruct Henl as [-> | ->]; [symmetry; exact Hmod|].
      rewrite <- Nat.add_mod_idemp_l, Nat.mod_same by lia. symmetry. exact Hmod. }
  apply Nat.ltb_ge, Nat.add_le_mono_l, round_up_le; [lia|exact Hmod|exact Hmac].
Qed.

Section RT.
Variable P : prims.
Hypothesis HP : prims_ok P.

Lemma seal_length a k n ad p : length (aead_seal P a k n ad p) = (length p + 16)%nat.
Proof.
  rewrite (aead_stream P HP), app_length, bxor_length, (aead_ks_len P HP), (aead_tag_len P HP).
  unfold aead_overhead. lia.
Qed.

(* encrypt and decrypt in terms of their stages; the result state is [advance], so what stays the same
   (version, MAC, secret) needs no statement *)
Lemma encrypt_eq hc c t v1 v2 n payload rnd ex t' n' body c1 :
  h_cipher hc = Some c -> h_seq hc + 1 < 18446744073709551616 ->
  enc_explicit hc c rnd = Ok ex ->
  enc_cipher P hc c (hdr5 t v1 v2 n ++ ex) ex payload = Ok (hdr5 t' v1 v2 n' ++ body, c1) ->
  encrypt P hc (hdr5 t v1 v2 n) payload rnd = Ok (hdr5 t' v1 v2 (len body) ++ body, advance hc c1).
Proof.
  intros Hc Hseq Hex Henc. unfold encrypt. rewrite Hc, Hex. cbn [bind]. rewrite Henc. cbn [bind fst snd].
  rewrite inc_seq_ok by exact Hseq. rewrite set_len_body. reflexivity.
Qed.

Lemma decrypt_eq hc c t v1 v2 n body pt pay pl good c1 pt1 t1 pt2 :
  h_cipher hc = Some c -> h_seq hc + 1 < 18446744073709551616 ->
  (h_vers hc =? V13) && (t =? rtCCS) = false ->
  dec_cipher P hc c (hdr5 t v1 v2 n ++ body) = Ok (pt, pay, pl, good, c1) ->
  dec_inner13 hc t pt = Ok (pt1, t1) ->
  dec_mac P hc (hdr5 t v1 v2 n ++ body) pt1 pay pl good = Ok pt2 ->
  decrypt P hc (hdr5 t v1 v2 n ++ body) = Ok (pt2, t1, advance hc c1).
Proof.
  intros Hc Hseq Hccs Hdc Hin Hmac. unfold decrypt.
  change (length (hdr5 t v1 v2 n ++ body) <? recordHeaderLen)%nat with false.
  change (nth 0 (hdr5 t v1 v2 n ++ body) 0) with t. cbv iota.
  rewrite Hccs, Hc, Hdc. cbn [bind]. rewrite Hin. cbn [bind fst snd]. rewrite Hmac. cbn [bind].
  rewrite inc_seq_ok by exact Hseq. reflexivity.
Qed.

Lemma dec_mac_none hc r pt pay pl good : h_mac hc = None -> dec_mac P hc r pt pay pl good = Ok pt.
Proof. intros H. unfold dec_mac. rewrite H. reflexivity. Qed.

(* conn.go:440-468: MAC-then-encrypt. The decrypted payload is data, MAC, padding; the MAC is taken over
   the header with the length of the data alone *)
Lemma dec_mac_ok hc m r pt (data pad : bytes) :
  h_mac hc = Some m ->
  dec_mac P hc r pt
    (data ++ tls10mac P m (h_seq hc) (firstn 3 r ++ be16 (len data)) data ++ pad) (length pad) true
  = Ok data.
Proof.
  intros Hm. unfold dec_mac. rewrite Hm.
  set (mac := tls10mac P m (h_seq hc) (firstn 3 r ++ be16 (len data)) data).
  assert (Lmac : length mac = m_size m) by apply (hmac_len P HP).
  rewrite !app_length, Lmac.
  replace (length data + (m_size m + length pad) <? m_size m)%nat with false by (symmetry; apply Nat.ltb_ge; lia).
  replace (length data + (m_size m + length pad) - m_size m - length pad)%nat with (length data) by lia.
  unfold slice. rewrite firstn_app_exact, skipn_app_exact by reflexivity.
  replace (length data + m_size m - length data)%nat with (length mac) by lia.
  rewrite firstn_app_exact by reflexivity. fold (len data). fold mac.
  replace (bytes_eqb mac mac) with true by (symmetry; apply bytes_eqb_eq; reflexivity).
  reflexivity.
Qed.

(* XORKeyStream over data then MAC (conn.go:516-517) is undone by one XORKeyStream over the whole payload *)
Lemma stream_rt a k pos (x y : bytes) :
  let d := bxor x (stream_ks P a k pos (length x)) ++ bxor y (stream_ks P a k (pos + len x) (length y)) in
  length d = (length x + length y)%nat /\ bxor d (stream_ks P a k pos (length d)) = x ++ y.
Proof.
  cbv zeta.
  assert (L : forall z p, length (bxor z (stream_ks P a k p (length z))) = length z)
    by (intros; rewrite bxor_length, (stream_len P HP); lia).
  rewrite app_length, !L. split; [reflexivity|].
  rewrite (stream_split P HP), bxor_app by (rewrite (stream_len P HP); apply L).
  rewrite !bxor_invol by (rewrite (stream_len P HP); reflexivity). reflexivity.
Qed.

(* conn.go:489-500 and cipher_suites.go:466, 487: whether the sequence number travels as explicit nonce
   (TLS 1.2 AES-GCM) or not (ChaCha20, TLS 1.3), it is what the nonce is made of. The writer tests the
   explicit part with a wildcard, the reader binds it: two different match terms. *)
Lemma aead_explicit hc c rnd :
  h_cipher hc = Some c -> c_kind c = KAeadPrefix \/ c_kind c = KAeadXor ->
  let ex := firstn (explicit_nonce_len hc) (seq8 (h_seq hc)) in
  enc_explicit hc c rnd = Ok ex /\ length ex = explicit_nonce_len hc /\
  match ex with [] => seq8 (h_seq hc) | _ => ex end = seq8 (h_seq hc) /\
  match ex with [] => seq8 (h_seq hc) | x :: e => x :: e end = seq8 (h_seq hc).
Proof.
  intros Hc Hk. cbv zeta. unfold enc_explicit, explicit_nonce_len, is_cbc. rewrite Hc.
  destruct Hk as [-> | ->]; [|auto].
  change (zeros (8 - 8)) with (@nil N). rewrite app_nil_r, firstn_all2 by (rewrite seq8_length; reflexivity).
  split; [reflexivity|]. split; [apply seq8_length|]. destruct (seq8 (h_seq hc)); auto.
Qed.

Lemma crypt_blocks_rt c c' data :
  cipher_match c c' -> c_kind c = KCbc -> (length data mod c_bs c = 0)%nat ->
  exists ct c2 c2',
    crypt_blocks P c data = Ok (ct, c2) /\ crypt_blocks P c' ct = Ok (data, c2') /\
    cipher_match c2 c2' /\ c_kind c2 = KCbc /\ length ct = length data.
Proof.
  intros (Kk & Ka & Kkey & Kiv & Kpos & Kbs & Kcbc) Hk Hmod.
  destruct (Kcbc Hk) as (Hr & Hr' & Hbs).
  unfold crypt_blocks. rewrite Hr, Hr', <- Kbs, <- Ka, <- Kkey, <- Kiv, Hmod. cbn [Nat.eqb negb].
  eexists _, _, _. split; [reflexivity|].
  rewrite (cbc_enc_len P HP), Hmod, (cbc_rt P HP). cbn [Nat.eqb negb]. split; [reflexivity|].
  split; [|split; [exact Hk|reflexivity]].
  unfold cipher_match. cbn [c_kind c_alg c_key c_iv c_pos c_bs c_read]. auto 10.
Qed.

Lemma explicit_nonce_len_cbc hc c :
  h_cipher hc = Some c -> c_kind c = KCbc ->
  explicit_nonce_len hc = if V11 <=? h_vers hc then c_bs c else 0%nat.
Proof. intros Hc Hk. unfold explicit_nonce_len. rewrite Hc, Hk. reflexivity. Qed.

(* conn.go:502-506: the explicit IV of a CBC record is read from the random source *)
Lemma cbc_explicit hc c rnd :
  h_cipher hc = Some c -> c_kind c = KCbc -> (explicit_nonce_len hc <= length rnd)%nat ->
  let ex := firstn (explicit_nonce_len hc) rnd in
  enc_explicit hc c rnd = Ok ex /\ length ex = explicit_nonce_len hc.
Proof.
  intros Hc Hk Hrnd. cbv zeta. rewrite firstn_length_le by exact Hrnd. split; [|reflexivity].
  unfold enc_explicit, is_cbc. rewrite Hk. cbn [negb andb].
  replace (length rnd <? explicit_nonce_len hc)%nat with false by (symmetry; apply Nat.ltb_ge; exact Hrnd).
  destruct (0 <? explicit_nonce_len hc)%nat eqn:E; [reflexivity|].
  apply Nat.ltb_ge in E. replace (explicit_nonce_len hc) with 0%nat by lia. reflexivity.
Qed.

Section Pair.
Variables (tx rx : half) (c c' : cipher) (typ v1 v2 : N) (payload rnd : bytes).
Hypothesis Hs : synced tx rx.
Hypothesis Hc : h_cipher tx = Some c.
Hypothesis Hc' : h_cipher rx = Some c'.
Hypothesis Hseq : h_seq tx + 1 < 18446744073709551616.

Definition round_trip : Prop :=
  exists body c2 c2',
    encrypt P tx (hdr5 typ v1 v2 (len payload)) payload rnd
      = Ok (hdr5 (outer_typ (h_vers tx) typ) v1 v2 (len body) ++ body, advance tx c2) /\
    decrypt P rx (hdr5 (outer_typ (h_vers tx) typ) v1 v2 (len body) ++ body) = Ok (payload, typ, advance rx c2') /\
    synced (advance tx c2) (advance rx c2') /\
    len payload <= len body <= len payload + body_slack (h_vers tx).

Lemma pair_match : cipher_match c c'.
Proof. destruct Hs as (_ & _ & _ & _ & _ & H). rewrite Hc, Hc' in H. exact H. Qed.

Lemma pair_rx :
  h_vers rx = h_vers tx /\ h_mac rx = h_mac tx /\ h_seq rx = h_seq tx /\
  explicit_nonce_len rx = explicit_nonce_len tx.
Proof.
  destruct Hs as (Hv & Hm & Hq & _). pose proof pair_match as (Kk & _ & _ & _ & _ & Kbs & _).
  unfold explicit_nonce_len. rewrite Hc, Hc', Hv, Hm, Hq, Kk, Kbs. auto.
Qed.

Lemma pair_wf :
  match c_kind c with
  | KStream | KCbc => (exists m, h_mac tx = Some m) /\ h_vers tx <> V13
  | KAeadPrefix => h_mac tx = None /\ h_vers tx <> V13
  | KAeadXor => h_mac tx = None
  end.
Proof. destruct Hs as (_ & _ & _ & _ & Hwf & _). unfold half_wf in Hwf. rewrite Hc in Hwf. exact Hwf. Qed.

Lemma pair_advance c2 c2' : c_kind c2 = c_kind c -> cipher_match c2 c2' -> synced (advance tx c2) (advance rx c2').
Proof. apply (synced_advance tx rx c c2 c2' Hs Hc). Qed.

Lemma rt_stream : c_kind c = KStream -> round_trip.
Proof.
  intros Hk. pose proof pair_wf as Hwf. rewrite Hk in Hwf. destruct Hwf as ((m & Hmac) & Hv13).
  destruct pair_rx as (Hv & Hm & Hq & _). pose proof pair_match as (Kk & Ka & Kkey & Kiv & Kpos & Kbs & _).
  (* [clear -] before [lia], here and below: lia reads the whole context, and inside the Section that
     would make [HP] and the Pair hypotheses part of what the lemma depends on *)
  unfold round_trip, outer_typ, body_slack. replace (h_vers tx =? V13) with false by (clear - Hv13; lia).
  set (mac := tls10mac P m (h_seq tx) (hdr5 typ v1 v2 (len payload)) payload).
  destruct (stream_rt (c_alg c) (c_key c) (c_pos c) payload mac) as (Lb & Hx).
  set (body := bxor payload _ ++ bxor mac _) in *.
  assert (Lmac : length mac = mac_len (m_alg m)) by apply (hmac_len P HP).
  pose proof (mac_len_le (m_alg m)).
  exists body, (snd (xor_key_stream P c (payload ++ mac))), (snd (xor_key_stream P c' body)).
  split; [|split; [|split]].
  - apply encrypt_eq with (c := c) (ex := []) (n' := len payload); [exact Hc|exact Hseq| |].
    + unfold enc_explicit, explicit_nonce_len. rewrite Hc, Hk. reflexivity.
    + unfold enc_cipher. rewrite Hk, Hmac. unfold xor_key_stream. cbn [c_alg c_key c_pos].
      rewrite len_app, N.add_assoc. reflexivity.
  - eapply decrypt_eq with (pt1 := []); [exact Hc'|rewrite Hq; exact Hseq| | |apply dec_inner13_old; rewrite Hv; exact Hv13|].
    + replace (h_vers rx =? V13) with false by (clear - Hv Hv13; lia). reflexivity.
    + unfold dec_cipher. rewrite <- Kk, Hk. reflexivity.
    + change (skipn recordHeaderLen (hdr5 typ v1 v2 (len body) ++ body)) with body.
      rewrite <- Ka, <- Kkey, <- Kpos, Hx, <- (app_nil_r mac). unfold mac. rewrite <- Hq.
      apply (dec_mac_ok rx m (hdr5 typ v1 v2 (len body) ++ body) [] payload []). rewrite Hm. exact Hmac.
  - apply pair_advance; [reflexivity|].
    unfold cipher_match, xor_key_stream. cbn [snd c_kind c_alg c_key c_iv c_pos c_bs c_read].
    assert (Hl : len (payload ++ mac) = len body) by (unfold len; rewrite Lb, app_length; reflexivity).
    rewrite Hl, Kpos. repeat split; auto; congruence.
  - unfold len. lia.
Qed.

Lemma aead_nonce_match s : aead_nonce c' s = aead_nonce c s.
Proof. pose proof pair_match as (Kk & _ & _ & Kiv & _). unfold aead_nonce. rewrite <- Kk, <- Kiv. reflexivity. Qed.

(* AEAD. TLS 1.2: additional data = sequence number and header with the plaintext length.
   TLS 1.3: inner content type, outer type application_data, the header itself as additional data *)
Lemma rt_aead :
  c_kind c = KAeadPrefix \/ c_kind c = KAeadXor -> typ <> 0 -> len payload <= maxPlaintext ->
  let v13 := h_vers tx =? V13 in
  let body := firstn (explicit_nonce_len tx) (seq8 (h_seq tx))
              ++ aead_seal P (c_alg c) (c_key c) (aead_nonce c (seq8 (h_seq tx)))
                   (if v13 then hdr5 rtAppData v1 v2 (len payload + 1 + N.of_nat aead_overhead)
                    else seq8 (h_seq tx) ++ hdr5 typ v1 v2 (len payload))
                   (if v13 then payload ++ [typ] else payload) in
  encrypt P tx (hdr5 typ v1 v2 (len payload)) payload rnd
    = Ok (hdr5 (outer_typ (h_vers tx) typ) v1 v2 (len body) ++ body, advance tx c) /\
  decrypt P rx (hdr5 (outer_typ (h_vers tx) typ) v1 v2 (len body) ++ body) = Ok (payload, typ, advance rx c') /\
  len payload <= len body <= len payload + body_slack (h_vers tx).
Proof.
  intros Hk Htyp Hlen. pose proof pair_wf as Hwf.
  destruct pair_rx as (Hv & Hm & Hq & Henl). pose proof pair_match as (Kk & Ka & Kkey & _).
  assert (Hmac : h_mac rx = None) by (rewrite Hm; destruct Hk as [Hk | Hk]; rewrite Hk in Hwf; tauto).
  destruct (aead_explicit tx c rnd Hc Hk) as (Hex & Lex & Hnonce & Hnonce').
  cbv zeta. unfold outer_typ, body_slack. destruct (N.eqb_spec (h_vers tx) V13) as [Hv13 | Hv13].
  - destruct Hk as [Hk | Hk]; [rewrite Hk in Hwf; tauto|].
    assert (Henl0 : explicit_nonce_len tx = 0%nat) by (unfold explicit_nonce_len; rewrite Hc, Hk; reflexivity).
    rewrite Henl0 in Hex, Hnonce, Henl |- *. cbn [firstn app] in Hex, Hnonce |- *.
    set (n13 := len payload + 1 + N.of_nat aead_overhead).
    set (ct := aead_seal P _ _ _ _ (payload ++ [typ])).
    assert (Ln : len ct = n13).
    { unfold ct, len, n13, aead_overhead. rewrite seal_length, app_length. unfold len. cbn [length]. lia. }
    split; [|split; [|unfold n13, aead_overhead in Ln; lia]].
    + apply encrypt_eq with (c := c) (ex := []) (n' := n13); [exact Hc|exact Hseq|exact Hex|].
      unfold enc_cipher. rewrite Hk, Hv13. reflexivity.
    + eapply decrypt_eq with (pt := payload ++ [typ]);
        [exact Hc'|rewrite Hq; exact Hseq|rewrite Hv, Hv13; reflexivity| | |apply dec_mac_none; exact Hmac].
      * unfold dec_cipher. rewrite Henl, <- Kk, Hk, Hv, Hv13, Ln, Hq.
        change (skipn recordHeaderLen (hdr5 rtAppData v1 v2 n13 ++ ct)) with ct.
        cbn [firstn skipn Nat.ltb Nat.leb]. rewrite aead_nonce_match, <- Ka, <- Kkey.
        change (firstn recordHeaderLen (hdr5 rtAppData v1 v2 n13 ++ ct)) with (hdr5 rtAppData v1 v2 n13).
        unfold ct. rewrite (aead_rt P HP). reflexivity.
      * apply dec_inner13_new; [rewrite Hv; exact Hv13|exact Htyp|exact Hlen].
  - set (ex := firstn (explicit_nonce_len tx) (seq8 (h_seq tx))) in *.
    set (ct := aead_seal P _ _ _ _ payload).
    assert (Hv' : (h_vers tx =? V13) = false) by (clear - Hv13; lia).
    split; [|split; [|unfold len, ct; rewrite app_length, seal_length; unfold ex; rewrite firstn_length, seq8_length; lia]].
    + apply encrypt_eq with (c := c) (ex := ex) (n' := len payload); [exact Hc|exact Hseq|exact Hex|].
      unfold enc_cipher. rewrite Hnonce, Hv', <- app_assoc. destruct Hk as [-> | ->]; reflexivity.
    + eapply decrypt_eq; [exact Hc'|rewrite Hq; exact Hseq|rewrite Hv, Hv'; reflexivity|
                          |apply dec_inner13_old; rewrite Hv; exact Hv13|apply dec_mac_none; exact Hmac].
      unfold dec_cipher. rewrite Henl, <- Lex, Hv, Hv', Hq.
      change (skipn recordHeaderLen (hdr5 typ v1 v2 (len (ex ++ ct)) ++ ex ++ ct)) with (ex ++ ct).
      rewrite app_length, firstn_app_exact, skipn_app_exact by reflexivity.
      replace (length ex + length ct <? length ex)%nat with false by (symmetry; apply Nat.ltb_ge, Nat.le_add_r).
      rewrite Hnonce', aead_nonce_match, <- Ka, <- Kkey.
      replace (N.of_nat (length ct - aead_overhead)) with (len payload)
        by (unfold ct; rewrite seal_length; unfold len, aead_overhead; lia).
      change (firstn 3 (hdr5 typ v1 v2 (len (ex ++ ct)) ++ ex ++ ct) ++ be16 (len payload))
        with (hdr5 typ v1 v2 (len payload)).
      unfold ct. rewrite (aead_rt P HP), <- Kk. destruct Hk as [-> | ->]; reflexivity.
Qed.

(* CBC + HMAC (TLS 1.0 implicit chained IV; TLS 1.1+ explicit random IV) *)
Lemma rt_cbc : c_kind c = KCbc -> (explicit_nonce_len tx <= length rnd)%nat -> round_trip.
Proof.
  intros Hk Hrnd. pose proof pair_wf as Hwf. rewrite Hk in Hwf. destruct Hwf as ((m & Hmac) & Hv13).
  destruct pair_rx as (Hv & Hm & Hq & Henl').
  pose proof pair_match as Hcm. pose proof Hcm as (Kk & _ & _ & _ & _ & Kbs & Kcbc). destruct (Kcbc Hk) as (_ & _ & Hbs).
  unfold round_trip, outer_typ, body_slack. replace (h_vers tx =? V13) with false by (clear - Hv13; lia).
  set (bs := c_bs c) in *.
  assert (Hbs1 : (1 <= bs <= 256)%nat) by lia. clear Hbs.
  assert (Hbs0 : (bs =? 0)%nat = false) by (apply Nat.eqb_neq; lia).
  destruct (cbc_explicit tx c rnd Hc Hk Hrnd) as (Hex & Lex).
  set (ex := firstn (explicit_nonce_len tx) rnd) in *.
  pose proof (explicit_nonce_len_cbc tx c Hc Hk) as Henl. fold bs in Henl.
  set (mac := tls10mac P m (h_seq tx) (hdr5 typ v1 v2 (len payload)) payload).
  assert (Lmac : length mac = mac_len (m_alg m)) by apply (hmac_len P HP).
  pose proof (mac_len_le (m_alg m)) as Hmle.
  destruct (cbc_padded (payload ++ mac) bs Hbs1) as (Hpl & Ldst & Hdmod & Hxp).
  rewrite <- app_assoc in Ldst, Hdmod, Hxp. rewrite (app_length payload mac) in Hpl, Ldst, Hdmod, Hxp.
  set (ptl := (length payload + length mac)%nat) in *.
  set (pl := (bs - ptl mod bs)%nat) in *.
  set (pad := repeat ((N.of_nat pl - 1) mod 256) pl) in *.
  set (dst := payload ++ mac ++ pad) in *.
  destruct (cbc_explicit_iv c c' ex Hcm) as (c1' & Hcm1 & Hiv).
  set (c1 := match ex with [] => c | _ => set_iv c ex end) in *.
  assert (Hk1 : c_kind c1 = KCbc) by (unfold c1; destruct ex; exact Hk).
  assert (Hbs1' : c_bs c1 = bs) by (unfold c1; destruct ex; reflexivity).
  destruct (crypt_blocks_rt c1 c1' dst Hcm1 Hk1) as (ct & c2 & c2' & Henc & Hdec & Hcm2 & Hk2 & Lct);
    [rewrite Hbs1'; exact Hdmod|].
  exists (ex ++ ct), c2, c2'.
  split; [|split; [|split]].
  - apply encrypt_eq with (c := c) (ex := ex) (n' := len payload); [exact Hc|exact Hseq|exact Hex|].
    unfold enc_cipher. rewrite Hk, Hmac. fold bs. rewrite Hbs0.
    change (firstn recordHeaderLen (hdr5 typ v1 v2 (len payload) ++ ex)) with (hdr5 typ v1 v2 (len payload)).
    fold mac ptl pl pad dst c1. rewrite Henc. reflexivity.
  - rewrite <- Hm in Hmac.
    eapply decrypt_eq with (pt1 := []); [exact Hc'|rewrite Hq; exact Hseq| | |apply dec_inner13_old; rewrite Hv; exact Hv13|].
    + replace (h_vers rx =? V13) with false by (clear - Hv Hv13; lia). reflexivity.
    + unfold dec_cipher. rewrite Henl', <- Kk, Hk, Hmac, <- Kbs. fold bs. rewrite Hbs0.
      change (skipn recordHeaderLen (hdr5 typ v1 v2 (len (ex ++ ct)) ++ ex ++ ct)) with (ex ++ ct).
      rewrite app_length, Lex, Lct, (cbc_lengths _ bs _ (m_size m)); [|apply Hbs1| |exact Hdmod|].
      2:{ rewrite Henl. destruct (V11 <=? h_vers tx); auto. }
      2:{ rewrite Ldst. unfold ptl, m_size. clear - Hpl Lmac. lia. }
      rewrite <- Lex.
      destruct (Hiv ct) as (-> & ->). rewrite Hdec. cbn [bind fst snd].
      rewrite Hxp. reflexivity.
    + replace pl with (length pad) by apply repeat_length. unfold dst, mac. rewrite <- Hq.
      apply (dec_mac_ok rx m (hdr5 typ v1 v2 (len (ex ++ ct)) ++ ex ++ ct) [] payload pad). exact Hmac.
  - apply pair_advance; [congruence|exact Hcm2].
  - unfold len. rewrite app_length, Lex, Lct, Ldst, Henl. unfold ptl. clear - Hpl Hbs1 Lmac Hmle. destruct (V11 <=? h_vers tx); lia.
Qed.

End Pair.

Theorem encrypt_decrypt (tx rx : half) (typ v1 v2 : N) (payload rnd : bytes) :
  synced tx rx ->
  typ <> 0 ->
  len payload <= maxPlaintext ->
  h_seq tx + 1 < 18446744073709551616 ->
  (explicit_nonce_len tx <= length rnd)%nat ->
  round_trip tx rx typ v1 v2 payload rnd.
Proof.
  intros Hs Htyp Hlen Hseq Hrnd.
  destruct (synced_ciphers tx rx Hs) as (c & c' & Hc & Hc' & _).
  assert (Haead : c_kind c = KAeadPrefix \/ c_kind c = KAeadXor -> round_trip tx rx typ v1 v2 payload rnd).
  { intros Hk. destruct (rt_aead tx rx c c' typ v1 v2 payload rnd Hs Hc Hc' Hseq Hk Htyp Hlen) as (He & Hd & Hb).
    eexists _, c, c'. split; [exact He|]. split; [exact Hd|]. split; [|exact Hb].
    apply (pair_advance tx rx c Hs Hc); [reflexivity|apply (pair_match tx rx c c' Hs Hc Hc')]. }
  destruct (c_kind c) eqn:Hk; auto.
  - exact (rt_stream tx rx c c' typ v1 v2 payload rnd Hs Hc Hc' Hseq Hk).
  - exact (rt_cbc tx rx c c' typ v1 v2 payload rnd Hs Hc Hc' Hseq Hk Hrnd).
Qed.

Lemma encrypt_aead_form tx rx c typ v1 v2 payload rnd :
  synced tx rx -> h_cipher tx = Some c -> c_kind c = KAeadPrefix \/ c_kind c = KAeadXor ->
  typ <> 0 -> len payload <= maxPlaintext -> h_seq tx + 1 < 18446744073709551616 ->
  exists t' L ad tx',
    encrypt P tx (hdr5 typ v1 v2 (len payload)) payload rnd
      = Ok (hdr5 t' v1 v2 L
              ++ firstn (explicit_nonce_len tx) (seq8 (h_seq tx))
              ++ aead_seal P (c_alg c) (c_key c) (aead_nonce c (seq8 (h_seq tx))) ad
                   (if h_vers tx =? V13 then payload ++ [typ] else payload), tx').
Proof.
  intros Hs Hc Hk Htyp Hlen Hseq. destruct (synced_ciphers tx rx Hs) as (c0 & c' & _ & Hc' & _).
  destruct (rt_aead tx rx c c' typ v1 v2 payload rnd Hs Hc Hc' Hseq Hk Htyp Hlen) as (He & _).
  rewrite He. eexists _, _, _, _. reflexivity.
Qed.

End RT.
