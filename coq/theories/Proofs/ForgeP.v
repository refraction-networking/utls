(* Proofs about Model/Forge.v: the two connections forged from the same secrets hold matching
   write/read states in both directions (forge_dir), hence exchange data (forge_interop, via
   Proofs/RecordStream.v), and a suite outside the table yields nil. *)
From UV Require Import Base.Common Model.Record Model.Forge Gen.Suites Proofs.RecordP Proofs.RecordRT Proofs.RecordStream.
Open Scope N_scope.

(* what every row of the generated tables satisfies (checked by computation in Props/C27.v) *)
Definition row_okb (r : suite_row) : bool :=
  ((s_kind r =? 1) && (0 <? s_macSize r)%nat && (s_macSize r <=? 48)%nat) ||
  (((s_kind r =? 2) || (s_kind r =? 3)) && ((s_bs r =? 8)%nat || (s_bs r =? 16)%nat)) ||
  ((s_kind r =? 4) && (s_ivLen r =? 4)%nat) ||
  ((s_kind r =? 5) && (s_ivLen r =? 12)%nat).

Definition v12_ok (v : N) : Prop := v = V10 \/ v = V11 \/ v = V12.

Lemma suite_by_id_none tbl id : (forall r, In r tbl -> s_id r <> id) -> suite_by_id tbl id = None.
Proof.
  intros H. unfold suite_by_id. induction tbl as [|r t IH]; [reflexivity|].
  cbn [find]. destruct (s_id r =? id) eqn:E.
  - exfalso. apply (H r); [left; reflexivity|lia].
  - apply IH. intros r' Hr'. apply H. right. exact Hr'.
Qed.

Lemma suite_by_id_some tbl id : In id (map s_id tbl) -> exists r, suite_by_id tbl id = Some r /\ In r tbl /\ s_id r = id.
Proof.
  unfold suite_by_id. induction tbl as [|r t IH]; cbn [map In find]; [tauto|].
  intros [H|H].
  - exists r. rewrite H, N.eqb_refl. auto.
  - destruct (s_id r =? id) eqn:E.
    + exists r. split; [reflexivity|]. split; [left; reflexivity|lia].
    + destruct (IH H) as (r' & A & B & C). exists r'. auto.
Qed.

(* two cipher states built from the same key material, and the halves made of them with the sequence
   number 1 that the skipped Finished leaves behind *)
Lemma cipher_match_mk k a key iv r r' pos bs :
  (k = KCbc -> r = false /\ r' = true /\ (bs = 8 \/ bs = 16)%nat) ->
  cipher_match (mkCipher k a key iv r pos bs) (mkCipher k a key iv r' pos bs).
Proof. unfold cipher_match. cbn [c_kind c_alg c_key c_iv c_pos c_bs c_read]. auto 10. Qed.

Lemma synced_fresh v c c' m :
  v <> V13 -> cipher_match c c' ->
  match c_kind c with KStream | KCbc => m <> None | _ => m = None end ->
  synced (mkHalf v (Some c) m 1 None None []) (mkHalf v (Some c') m 1 None None []).
Proof.
  intros Hv Hcm Hm. unfold synced, half_wf. cbn [h_vers h_mac h_seq h_secret h_cipher].
  do 4 (split; [reflexivity|]). split; [|exact Hcm].
  destruct (c_kind c); try (destruct m; [split; eauto|congruence]); auto.
Qed.

Section Forge.
Variable P : prims.
Hypothesis HP : prims_ok P.

Theorem forge_unsupported tbl version suite ms cr sr is_client :
  (forall r, In r tbl -> s_id r <> suite) -> forge P tbl version suite ms cr sr is_client = Ok None.
Proof. intros H. unfold forge. rewrite (suite_by_id_none tbl suite H). reflexivity. Qed.

Lemma iv_lengths version cs ms cr sr :
  let k := keys_from_master_secret P version cs ms cr sr in
  length (k_civ k) = s_ivLen cs /\ length (k_siv k) = s_ivLen cs.
Proof.
  cbn zeta. unfold keys_from_master_secret. cbn [k_civ k_siv].
  split; apply firstn_length_le; rewrite !skipn_length, (prf_len P HP); lia.
Qed.

Theorem forge_dir tbl version suite ms cr sr cs :
  v12_ok version -> suite_by_id tbl suite = Some cs -> row_okb cs = true ->
  exists c s,
    forge P tbl version suite ms cr sr true = Ok (Some c) /\
    forge P tbl version suite ms cr sr false = Ok (Some s) /\
    synced (cn_out c) (cn_in s) /\ synced (cn_out s) (cn_in c) /\
    wconn_ok c /\ wconn_ok s /\ cn_vers c = version /\ cn_vers s = version /\
    h_seq (cn_out c) = 1 /\ h_seq (cn_out s) = 1 /\ h_seq (cn_in c) = 1 /\ h_seq (cn_in s) = 1.
Proof.
  intros Hv Hs Hrow. unfold forge. rewrite Hs.
  pose proof (iv_lengths version cs ms cr sr) as [Lc Ls]. cbn zeta in Lc, Ls.
  set (k := keys_from_master_secret P version cs ms cr sr) in *.
  assert (Hvp : version_has_prf version = true) by (destruct Hv as [ -> | [ -> | -> ] ]; reflexivity).
  rewrite Hvp. cbn [negb].
  assert (Hv13 : version <> V13) by (destruct Hv as [ -> | [ -> | -> ] ]; discriminate).
  assert (Hvok : vers_ok version) by (unfold vers_ok; destruct Hv as [ -> | [ -> | -> ] ]; auto).
  unfold build_ciphers, is_aead_row, row_okb in *.
  assert (Hfin : forall ci mi co mo,
    finish_forge version suite (prepare_cipher_spec half0 version (Some ci) mi) (prepare_cipher_spec half0 version (Some co) mo)
    = Ok (Some (forged_conn version suite (mkHalf version (Some ci) mi 1 None None [])
                                          (mkHalf version (Some co) mo 1 None None [])))).
  { intros. unfold finish_forge, change_cipher_spec, prepare_cipher_spec. cbn [h_next_cipher h_vers h_next_mac h_secret].
    replace (version =? V13) with false by lia. reflexivity. }
  assert (Hkind : (s_kind cs = 4 /\ s_ivLen cs = 4%nat) \/ (s_kind cs = 5 /\ s_ivLen cs = 12%nat) \/
                 (s_kind cs <> 4 /\ s_kind cs <> 5 /\ (s_kind cs = 1 \/ (s_bs cs = 8 \/ s_bs cs = 16)%nat))).
  { clear - Hrow. lia. }
  unfold mk_aead, mk_cipher. rewrite Lc, Ls.
  (* five constructions (two AEAD forms, RC4, two CBC rows), one argument: both sides exist, and each direction
     is a fresh matched pair *)
  destruct Hkind as [(E & Hiv) | [(E & Hiv) | (E4 & E5 & Hbs)]];
    [rewrite E, Hiv | rewrite E, Hiv |
     replace (s_kind cs =? 4) with false by lia; replace (s_kind cs =? 5) with false by lia;
     destruct (s_kind cs =? 1) eqn:E1; [|assert (s_bs cs = 8 \/ s_bs cs = 16)%nat by lia; destruct (s_kind cs =? 2)]].
  all: cbn [N.eqb Pos.eqb Nat.eqb orb bind negb]; rewrite !Hfin.
  all: eexists; eexists; split; [reflexivity|]; split; [reflexivity|].
  all: unfold wconn_ok, forged_conn; cbn [cn_out cn_in cn_vers h_vers h_seq].
  all: do 2 (split; [apply synced_fresh; try apply cipher_match_mk; cbn [c_kind]; auto; discriminate|]).
  all: repeat split; auto.
Qed.

Theorem forge_interop tbl version suite ms cr sr cs :
  v12_ok version -> suite_by_id tbl suite = Some cs -> row_okb cs = true ->
  exists c s,
    forge P tbl version suite ms cr sr true = Ok (Some c) /\
    forge P tbl version suite ms cr sr false = Ok (Some s) /\
    (forall (w r : conn) (rnd : N -> bytes) (b : bytes),
        (w = c /\ r = s) \/ (w = s /\ r = c) ->
        rnd_ok rnd -> len b < 9223372036854775808 ->
        exists recs w' rx_end,
          conn_write P w b rnd = Ok (concat (map snd recs), len b, w') /\
          rchain P version rtAppData (cn_in r) recs rx_end /\
          concat (map fst recs) = b /\
          synced (cn_out w') rx_end /\ wconn_ok w').
Proof.
  intros Hv Hs Hrow.
  destruct (forge_dir tbl version suite ms cr sr cs Hv Hs Hrow)
    as (c & s & Hc & Hss & Hcs & Hsc & Hwc & Hws & Hvc & Hvs & Hq1 & Hq2 & _).
  exists c, s. split; [exact Hc|]. split; [exact Hss|].
  intros w r rnd b [[-> ->]|[-> ->]] Hrnd Hlen.
  - destruct (conn_write_ok P HP c b rnd (cn_in s) Hwc Hcs Hrnd ltac:(rewrite Hq1; lia))
      as (recs & w' & rx_end & A & B & C & D & E & _).
    exists recs, w', rx_end. rewrite <- Hvc. auto.
  - destruct (conn_write_ok P HP s b rnd (cn_in c) Hws Hsc Hrnd ltac:(rewrite Hq2; lia))
      as (recs & w' & rx_end & A & B & C & D & E & _).
    exists recs, w', rx_end. rewrite <- Hvs. auto.
Qed.

End Forge.
