(* Model/GoCH.v: what the getters of [project] read from the extensions marshalMsg emits. *)
From UV Require Import Base.Common Model.GoCH.
Open Scope N_scope.

(* the field values compared by the property (everything but original and the extension-id list) *)
Definition ch_fields (m : clientHelloMsg) :=
  (ch_vers m, ch_random m, ch_sessionId m, ch_cipherSuites m, ch_compressionMethods m, ch_serverName m,
   ch_ocspStapling m, ch_supportedCurves m, ch_supportedPoints m, ch_ticketSupported m, ch_sessionTicket m,
   ch_supportedSignatureAlgorithms m, ch_supportedSignatureAlgorithmsCert m, ch_secureRenegotiationSupported m,
   ch_secureRenegotiation m, ch_extendedMasterSecret m, ch_alpnProtocols m, ch_scts m, ch_supportedVersions m, ch_cookie m,
   ch_keyShares m, ch_earlyData m, ch_pskModes m, ch_pskIdentities m, ch_pskBinders m,
   ch_quicTransportParameters m, ch_encryptedClientHello m, ch_nextProtoNeg m).

(* the shape unmarshal leaves the "absent" fields in *)
Definition canon (m : clientHelloMsg) : Prop :=
  (ch_ticketSupported m = false -> ch_sessionTicket m = []) /\
  (ch_secureRenegotiationSupported m = false -> ch_secureRenegotiation m = []) /\
  (existsb (N.eqb scsv) (ch_cipherSuites m) = true -> ch_secureRenegotiationSupported m = true) /\
  (elems (ch_pskIdentities m) = [] -> ch_pskBinders m = []) /\
  ch_keyShares m <> Some [] /\ ch_pskIdentities m <> Some [] /\ ch_nextProtoNeg m = false.

(* Searching the emitted extensions is searching the slots, a slot counting only if its presence test holds.
   The test is consulted after [f], so that on [slots m] every slot but the one [f] selects reduces away
   whatever its test is. *)
Lemma find_map_emitted {B} (f : ext -> option B) sl :
  find_map f (map snd (filter fst sl)) =
  find_map (fun e : bool * ext => match f (snd e) with Some b => if fst e then Some b else None | None => None end) sl.
Proof.
  unfold find_map. induction sl as [|[c x] sl IH]; [reflexivity|].
  destruct c; cbn [filter map fst snd fold_right]; rewrite <- IH; destruct (f x); reflexivity.
Qed.

(* leaves of [g (present m)] only the slot that g selects *)
Ltac getter g := unfold g, present; rewrite find_map_emitted; cbn [slots find_map fold_right fst snd].

Section Getters.
  Variable m : clientHelloMsg.

  Lemma g_sni_present : g_sni (present m) = ch_serverName m. Proof. getter g_sni. now destruct (ch_serverName m). Qed.
  Lemma g_points_present : g_points (present m) = ch_supportedPoints m. Proof. getter g_points. now destruct (ch_supportedPoints m). Qed.
  Lemma g_ech_present : g_ech (present m) = ch_encryptedClientHello m. Proof. getter g_ech. now destruct (ch_encryptedClientHello m). Qed.
  Lemma g_curves_present : g_curves (present m) = ch_supportedCurves m. Proof. getter g_curves. now destruct (ch_supportedCurves m). Qed.
  Lemma g_sigalgs_present : g_sigalgs (present m) = ch_supportedSignatureAlgorithms m.
  Proof. getter g_sigalgs. now destruct (ch_supportedSignatureAlgorithms m). Qed.
  Lemma g_sigalgscert_present : g_sigalgscert (present m) = ch_supportedSignatureAlgorithmsCert m.
  Proof. getter g_sigalgscert. now destruct (ch_supportedSignatureAlgorithmsCert m). Qed.
  Lemma g_alpn_present : g_alpn (present m) = ch_alpnProtocols m. Proof. getter g_alpn. now destruct (ch_alpnProtocols m). Qed.
  Lemma g_versions_present : g_versions (present m) = ch_supportedVersions m. Proof. getter g_versions. now destruct (ch_supportedVersions m). Qed.
  Lemma g_cookie_present : g_cookie (present m) = ch_cookie m. Proof. getter g_cookie. now destruct (ch_cookie m). Qed.
  Lemma g_pskmodes_present : g_pskmodes (present m) = ch_pskModes m. Proof. getter g_pskmodes. now destruct (ch_pskModes m). Qed.
  Lemma g_shares_present : g_shares (present m) = elems (ch_keyShares m). Proof. getter g_shares. now destruct (elems (ch_keyShares m)). Qed.

  Lemma g_status_present : g_status (present m) = ch_ocspStapling m. Proof. getter g_status. now destruct (ch_ocspStapling m). Qed.
  Lemma g_ems_present : g_ems (present m) = ch_extendedMasterSecret m. Proof. getter g_ems. now destruct (ch_extendedMasterSecret m). Qed.
  Lemma g_sct_present : g_sct (present m) = ch_scts m. Proof. getter g_sct. now destruct (ch_scts m). Qed.
  Lemma g_early_present : g_early (present m) = ch_earlyData m. Proof. getter g_early. now destruct (ch_earlyData m). Qed.
  Lemma g_quic_present : g_quic (present m) = ch_quicTransportParameters m.
  Proof. getter g_quic. now destruct (ch_quicTransportParameters m). Qed.

  Lemma g_ticket_present : g_ticket (present m) = if ch_ticketSupported m then Some (ch_sessionTicket m) else None.
  Proof. getter g_ticket. now destruct (ch_ticketSupported m). Qed.
  Lemma g_reneg_present : g_reneg (present m) = if ch_secureRenegotiationSupported m then Some (ch_secureRenegotiation m) else None.
  Proof. getter g_reneg. now destruct (ch_secureRenegotiationSupported m). Qed.
  Lemma g_psk_present : (elems (ch_pskIdentities m) = [] -> ch_pskBinders m = []) ->
    g_psk (present m) = (elems (ch_pskIdentities m), ch_pskBinders m).
  Proof. intros H. getter g_psk. destruct (elems (ch_pskIdentities m)); [now rewrite H|reflexivity]. Qed.
End Getters.

Lemma project_original data vers random sid suites comp l : ch_original (project data vers random sid suites comp l) = Some data.
Proof. reflexivity. Qed.
Lemma project_extensions data vers random sid suites comp l :
  ch_extensions (project data vers random sid suites comp l) = map ext_id l.
Proof. reflexivity. Qed.

Lemma slice_of_elems {A} (s : slice A) : s <> Some [] -> slice_of (elems s) = s.
Proof. destruct s as [[|x l]|]; [congruence|reflexivity|reflexivity]. Qed.

Lemma emitted_test {A} (c : bool) (v : A) : match (if c then Some v else None) with Some _ => true | None => false end = c.
Proof. now destruct c. Qed.
Lemma emitted_value {A} (c : bool) (v d : A) : (c = false -> v = d) ->
  match (if c then Some v else None) with Some x => x | None => d end = v.
Proof. destruct c; [reflexivity|]. intros H. now rewrite H. Qed.
Lemma orb_implied a b : (a = true -> b = true) -> a || b = b.
Proof. destruct a, b; intros H; try reflexivity. discriminate (H eq_refl). Qed.

Lemma project_present m data : canon m ->
  ch_fields (project data (ch_vers m) (ch_random m) (ch_sessionId m) (ch_cipherSuites m) (ch_compressionMethods m) (present m))
  = ch_fields m.
Proof.
  intros (C1 & C2 & C3 & C4 & C5 & C6 & C7).
  unfold ch_fields, project.
  cbn [ch_vers ch_random ch_sessionId ch_cipherSuites ch_compressionMethods ch_serverName ch_ocspStapling ch_supportedCurves
       ch_supportedPoints ch_ticketSupported ch_sessionTicket ch_supportedSignatureAlgorithms ch_supportedSignatureAlgorithmsCert
       ch_secureRenegotiationSupported ch_secureRenegotiation ch_extendedMasterSecret ch_alpnProtocols ch_scts
       ch_supportedVersions ch_cookie ch_keyShares ch_earlyData ch_pskModes ch_pskIdentities ch_pskBinders
       ch_quicTransportParameters ch_encryptedClientHello ch_nextProtoNeg].
  rewrite g_sni_present, g_points_present, g_ech_present, g_curves_present, g_sigalgs_present, g_sigalgscert_present,
    g_alpn_present, g_versions_present, g_cookie_present, g_pskmodes_present, g_shares_present, g_status_present,
    g_ems_present, g_sct_present, g_early_present, g_quic_present, g_ticket_present, g_reneg_present, (g_psk_present _ C4).
  cbn [fst snd].
  rewrite (slice_of_elems _ C5), (slice_of_elems _ C6), C7, !emitted_test, (emitted_value _ _ _ C1), (emitted_value _ _ _ C2),
    (orb_implied _ _ C3).
  reflexivity.
Qed.
