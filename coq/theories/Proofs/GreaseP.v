(* Proofs about Model/Grease.v. The 16 reserved values are handled by arithmetic; what is
   evaluated ranges over the low byte of a seed word (256 values) or over the 16 values. *)
From UV Require Import Base.Common Model.Grease.

Lemma is_grease_arith v : is_grease v = (v / 256 =? v mod 256) && (v mod 16 =? 10).
Proof.
  unfold is_grease. rewrite N.shiftr_div_pow2.
  change 255 with (N.ones 8). change 15 with (N.ones 4). rewrite !N.land_ones. reflexivity.
Qed.

(* equal bytes: v = 257 * lo with lo < 256; low nibble 10: lo = 16 * w + 10; and 257 * 16 = 4112.
   No bound on v is needed: equal bytes already force v < 2^16. *)
Lemma is_grease_iff v : is_grease v = true <-> exists w, w < 16 /\ v = grease_val w.
Proof.
  rewrite is_grease_arith. unfold grease_val. split.
  - intros H. exists (v / 4112). lia.
  - intros (w & Hw & ->). lia.
Qed.

Lemma grease_word_low s : grease_word s = grease_word (N.land s 255).
Proof.
  unfold grease_word, u16.
  change 65536 with (2 ^ 16).
  rewrite <- !N.land_ones.
  rewrite <- !N.land_assoc.
  change (N.land (N.ones 16) 240) with 240.
  change (N.land 255 (N.land (N.ones 16) 240)) with 240.
  change (N.land 255 240) with 240.
  reflexivity.
Qed.

Lemma land255_lt s : N.land s 255 < 256.
Proof.
  change 255 with (N.ones 8). rewrite N.land_ones. apply N.mod_lt. discriminate.
Qed.

(* every value is 0xwAwA, w the high nibble of the low seed byte *)
Definition nib (s : N) : N := N.shiftr (N.land s 255) 4.

Lemma nib_lt s : nib s < 16.
Proof.
  unfold nib. pose proof (land255_lt s) as H.
  rewrite N.shiftr_div_pow2. change (2 ^ 4) with 16. lia.
Qed.

Lemma grease_word_val s : grease_word s = grease_val (nib s).
Proof.
  rewrite grease_word_low. unfold nib. generalize (N.land s 255), (land255_lt s). intros b Hb.
  assert (H : forallb (fun b => grease_word b =? grease_val (N.shiftr b 4)) (nrange 256) = true)
    by (vm_compute; reflexivity).
  apply N.eqb_eq. exact (sweep_lift _ 256 H b Hb).
Qed.

Lemma boring_grease_form sd idx v : boring_grease sd idx = Ok v ->
  is_grease v = true /\ exists w, w < 16 /\ v = grease_val w.
Proof.
  unfold boring_grease. destruct (nth_error sd idx) as [s|]; [|discriminate].
  intros [= <-]. rewrite is_grease_iff.
  enough (exists w, w < 16 /\ grease_word s = grease_val w) by auto.
  exists (nib s). split; [apply nib_lt | apply grease_word_val].
Qed.

Lemma boring_is_grease sd idx v : boring_grease sd idx = Ok v -> is_grease v = true.
Proof. intros H. apply (boring_grease_form _ _ _ H). Qed.

Lemma boring_grease_panics sd idx : (length sd <= idx)%nat -> boring_grease sd idx = Panic P_INDEX.
Proof.
  intros H. unfold boring_grease. apply nth_error_None in H. rewrite H. reflexivity.
Qed.

Lemma land_lxor_distr_l a b c : N.land (N.lxor a b) c = N.lxor (N.land a c) (N.land b c).
Proof.
  apply N.bits_inj. intros n. rewrite N.land_spec, !N.lxor_spec, !N.land_spec.
  destruct (N.testbit a n), (N.testbit b n), (N.testbit c n); reflexivity.
Qed.

(* the ^= 0x1010 de-duplication flips bit 0 of the nibble that selects the value *)
Lemma xor_flips s : grease_word (N.lxor s 4112) <> grease_word s.
Proof.
  rewrite !grease_word_val. unfold nib. rewrite land_lxor_distr_l, N.shiftr_lxor.
  change (N.shiftr (N.land 4112 255) 4) with 1. fold (nib s). unfold grease_val. intros E.
  assert (E1 : N.lxor (nib s) 1 = nib s) by lia.
  apply (f_equal (fun x => N.testbit x 0)) in E1. rewrite N.lxor_spec in E1.
  destruct (N.testbit (nib s) 0); discriminate.
Qed.

Lemma seed_words_length n gb : (length gb = 2 * n)%nat -> length (seed_words n gb) = n.
Proof.
  revert gb; induction n as [|n IH]; intros gb H; [reflexivity|].
  destruct gb as [|b0 [|b1 r]]; cbn in H; try lia. cbn [seed_words length]. f_equal. apply IH. lia.
Qed.

Lemma grease_seed_shape gb sd : grease_seed gb = Ok sd ->
  exists c g e1 e2 v, sd = [c; g; e1; e2; v] /\ grease_word e1 <> grease_word e2.
Proof.
  unfold grease_seed. destruct (Nat.eqb_spec (length gb) (2 * ssl_grease_last_index)) as [Hl|]; [|discriminate].
  pose proof (seed_words_length _ _ Hl) as Hn.
  set (ws := seed_words ssl_grease_last_index gb) in *. clearbody ws.
  intros [= <-].
  destruct ws as [|c [|g [|e1 [|e2 [|v [|x r]]]]]]; cbn in Hn; try discriminate.
  unfold dedup_ext. destruct (N.eqb_spec (grease_word e1) (grease_word e2)) as [E|NE].
  - exists c, g, e1, (N.lxor e2 4112), v. split; [reflexivity|]. rewrite E. intros C. exact (xor_flips _ (eq_sym C)).
  - exists c, g, e1, e2, v. split; [reflexivity | exact NE].
Qed.

Lemma slots_defined gb sd idx : grease_seed gb = Ok sd -> (idx < ssl_grease_last_index)%nat ->
  exists v, boring_grease sd idx = Ok v.
Proof.
  intros H Hi. destruct (grease_seed_shape _ _ H) as (c & g & e1 & e2 & v & -> & _).
  unfold ssl_grease_last_index in Hi.
  destruct idx as [|[|[|[|[|k]]]]]; try lia; eexists; reflexivity.
Qed.

Definition regreased (g : res N) (a b : N) : Prop :=
  if is_grease a then g = Ok b else b = a.

Lemma map_regrease sd idx l l' : map_res (regrease sd idx) l = Ok l' ->
  Forall2 (regreased (boring_grease sd idx)) l l'.
Proof.
  revert l'; induction l as [|a l IH]; intros l' H; cbn in H.
  - injection H as <-. constructor.
  - apply bind_ok_inv in H as (b & Hb & H). apply bind_ok_inv in H as (r & Hr & [= <-]).
    constructor; [|apply IH, Hr]. unfold regreased, regrease in *. destruct (is_grease a); congruence.
Qed.

Lemma map_regrease_ok sd idx l : (idx < length sd)%nat -> exists l', map_res (regrease sd idx) l = Ok l'.
Proof.
  intros Hi. induction l as [|a l (l' & IH)]; [eexists; reflexivity|].
  cbn. unfold regrease at 1. unfold boring_grease.
  destruct (nth_error sd idx) as [s|] eqn:E; [|apply nth_error_None in E; lia].
  destruct (is_grease a); cbn; rewrite IH; cbn; eexists; reflexivity.
Qed.

Lemma regreased_out g l l' : Forall2 (regreased g) l l' ->
  forall b, In b l' -> is_grease b = true -> g = Ok b.
Proof.
  induction 1 as [|a b l l' Hab _ IH]; intros c Hin Gc; [destruct Hin|].
  destruct Hin as [<-|Hin]; [|apply IH; assumption].
  unfold regreased in Hab. destruct (is_grease a) eqn:Ga; [exact Hab | congruence].
Qed.

Lemma regreased_reserved g l l' : Forall2 (regreased g) l l' ->
  (forall v, g = Ok v -> is_grease v = true) ->
  Forall2 (fun a b => if is_grease a then is_grease b = true else b = a) l l'.
Proof.
  intros H Hg. induction H as [|a b l l' Hab _ IH]; constructor; [|exact IH].
  unfold regreased in Hab. destruct (is_grease a); [apply Hg; exact Hab | exact Hab].
Qed.

(* one round of the loop over uconn.Extensions: the new extension and the new grease_extensions_seen *)
Definition ext_step (sd : list N) (seen : nat) (e : ext) : res (ext * nat) :=
  match e with
  | XGrease v b =>
      match seen with
      | O => do x <- boring_grease sd ssl_grease_extension1; Ok (XGrease x b, 1%nat)
      | S O => do x <- boring_grease sd ssl_grease_extension2; Ok (XGrease x [0], 2%nat)
      | _ => Err E_TOO_MANY_GREASE
      end
  | XCurves cs => do cs' <- map_res (regrease sd ssl_grease_group) cs; Ok (XCurves cs', seen)
  | XKeyShare gs => do gs' <- map_res (regrease sd ssl_grease_group) gs; Ok (XKeyShare gs', seen)
  | XVersions vs => do vs' <- map_res (regrease sd ssl_grease_version) vs; Ok (XVersions vs', seen)
  | _ => Ok (e, seen)
  end.

Lemma apply_exts_cons sd seen e es :
  apply_exts sd seen (e :: es) =
  do p <- ext_step sd seen e; do r <- apply_exts sd (snd p) es; Ok (fst p :: r).
Proof.
  destruct e as [v b|cs|gs|vs|ss|id]; cbn; [destruct seen as [|[|k]]; cbn|..]; try reflexivity.
  1,2: destruct (boring_grease sd _); reflexivity.
  all: destruct (map_res _ _); reflexivity.
Qed.

Lemma apply_exts_cons_inv sd seen e es es' : apply_exts sd seen (e :: es) = Ok es' ->
  exists e' seen' r, ext_step sd seen e = Ok (e', seen') /\ apply_exts sd seen' es = Ok r /\ es' = e' :: r.
Proof.
  rewrite apply_exts_cons. intros H.
  apply bind_ok_inv in H as ((e', seen') & Hs & H). apply bind_ok_inv in H as (r & Hr & [= <-]). eauto 6.
Qed.

(* per-extension relation between input and output of ApplyPreset *)
Definition ext_rel (sd : list N) (a b : ext) : Prop :=
  match a, b with
  | XGrease _ _, XGrease v _ => is_grease v = true
  | XCurves l, XCurves l' => Forall2 (regreased (boring_grease sd ssl_grease_group)) l l'
  | XKeyShare l, XKeyShare l' => Forall2 (regreased (boring_grease sd ssl_grease_group)) l l'
  | XVersions l, XVersions l' => Forall2 (regreased (boring_grease sd ssl_grease_version)) l l'
  | XSigAlgs l, XSigAlgs l' => l' = l
  | XOther i, XOther i' => i' = i
  | _, _ => False
  end.

Lemma ext_step_rel sd seen e e' seen' : ext_step sd seen e = Ok (e', seen') -> ext_rel sd e e'.
Proof.
  destruct e as [v b|cs|gs|vs|ss|id]; cbn; [destruct seen as [|[|k]]; [| |discriminate]|..]; intros H.
  6,7: injection H as <- _; reflexivity.
  all: apply bind_ok_inv in H as (x & Hx & [= <- _]); cbn; eauto using boring_is_grease, map_regrease.
Qed.

Lemma apply_exts_rel sd es : forall seen es', apply_exts sd seen es = Ok es' -> Forall2 (ext_rel sd) es es'.
Proof.
  induction es as [|e es IH]; intros seen es' H.
  - injection H as <-. constructor.
  - apply apply_exts_cons_inv in H as (e' & seen' & r & Hs & Hr & ->).
    constructor; [eapply ext_step_rel, Hs | eapply IH, Hr].
Qed.

Fixpoint count_grease (es : list ext) : nat :=
  match es with [] => 0 | XGrease _ _ :: r => S (count_grease r) | _ :: r => count_grease r end.

(* the GREASE extensions take the two extension slot values in order, starting at slot [seen] *)
Lemma apply_exts_values sd es : forall seen es', apply_exts sd seen es = Ok es' ->
  forall v1 v2, boring_grease sd ssl_grease_extension1 = Ok v1 ->
                boring_grease sd ssl_grease_extension2 = Ok v2 ->
  grease_ext_values es' = firstn (count_grease es) (skipn seen [v1; v2]).
Proof.
  induction es as [|e es IH]; intros seen es' H v1 v2 H1 H2.
  - injection H as <-. reflexivity.
  - apply apply_exts_cons_inv in H as (e' & seen' & r & Hs & Hr & ->).
    specialize (IH _ _ Hr _ _ H1 H2).
    destruct e as [v b|cs|gs|vs|ss|id]; cbn in Hs; [destruct seen as [|[|k]]; [| |discriminate]|..].
    6,7: injection Hs as <- <-; exact IH.
    3-5: apply bind_ok_inv in Hs as (x & _ & [= <- <-]); exact IH.
    + rewrite H1 in Hs. injection Hs as <- <-. cbn. rewrite IH. reflexivity.
    + rewrite H2 in Hs. injection Hs as <- <-. cbn. rewrite IH. reflexivity.
Qed.

(* ApplyPreset fails (only) on a third GREASE extension *)
Lemma apply_exts_ok sd es : length sd = 5%nat -> forall seen, (seen + count_grease es <= 2)%nat ->
  exists es', apply_exts sd seen es = Ok es'.
Proof.
  intros Hl. induction es as [|e es IH]; intros seen Hc; [eexists; reflexivity|].
  rewrite apply_exts_cons.
  assert (Hs : exists e' seen', ext_step sd seen e = Ok (e', seen') /\ (seen' + count_grease es <= 2)%nat).
  { destruct sd as [|c [|g [|e1 [|e2 [|vv [|x r]]]]]]; try discriminate.
    destruct e as [v b|cs|gs|vs|ss|id]; cbn [count_grease] in Hc; cbn [ext_step].
    1: destruct seen as [|[|k]]; [| |lia]; cbn; eexists _, _; (split; [reflexivity | lia]).
    4,5: eexists _, _; split; [reflexivity | exact Hc].
    all: edestruct map_regrease_ok as (l' & ->); [|cbn; eexists _, _; split; [reflexivity | exact Hc]]; cbv; lia. }
  destruct Hs as (e' & seen' & -> & Hc'). destruct (IH _ Hc') as (r & Hr).
  cbn. rewrite Hr. cbn. eexists; reflexivity.
Qed.

Lemma apply_preset_inv gb suites exts suites' exts' :
  apply_preset_grease gb suites exts = Ok (suites', exts') ->
  exists sd, grease_seed gb = Ok sd /\
             map_res (regrease sd ssl_grease_cipher) suites = Ok suites' /\
             apply_exts sd 0 exts = Ok exts'.
Proof.
  unfold apply_preset_grease. intros H.
  apply bind_ok_inv in H as (sd & Hs & H). apply bind_ok_inv in H as (s' & Hc & H).
  apply bind_ok_inv in H as (e' & He & [= <- <-]). eauto.
Qed.

(* GREASE groups in supported_groups and key_share are one and the same value *)
Definition groups_of (e : ext) : list N :=
  match e with XCurves l => l | XKeyShare l => l | _ => [] end.

Lemma ext_rel_groups sd es es' : Forall2 (ext_rel sd) es es' ->
  forall e c, In e es' -> In c (groups_of e) -> is_grease c = true -> boring_grease sd ssl_grease_group = Ok c.
Proof.
  induction 1 as [|a b l l' Hab _ IH]; intros e c Hin Hc Gc; [destruct Hin|].
  destruct Hin as [<-|Hin]; [|eauto].
  destruct a, b; cbn in Hab, Hc; try contradiction; exact (regreased_out _ _ _ Hab c Hc Gc).
Qed.

(* every position that held a GREASE value holds a reserved value afterwards,
   every other value is untouched; extension kinds and order are preserved *)
Definition reserved_rel (a b : N) : Prop := if is_grease a then is_grease b = true else b = a.

Definition ext_reserved (a b : ext) : Prop :=
  match a, b with
  | XGrease _ _, XGrease v _ => is_grease v = true
  | XCurves l, XCurves l' => Forall2 reserved_rel l l'
  | XKeyShare l, XKeyShare l' => Forall2 reserved_rel l l'
  | XVersions l, XVersions l' => Forall2 reserved_rel l l'
  | XSigAlgs l, XSigAlgs l' => l' = l
  | XOther i, XOther i' => i' = i
  | _, _ => False
  end.

Lemma ext_rel_reserved sd es es' : Forall2 (ext_rel sd) es es' -> Forall2 ext_reserved es es'.
Proof.
  induction 1 as [|a b l l' Hab _ IH]; constructor; [|exact IH].
  destruct a, b; cbn in *; try exact Hab; exact (regreased_reserved _ _ _ Hab (boring_is_grease sd _)).
Qed.

(* ten seed bytes that make slot idx produce 0xwAwA *)
Definition reach_witness (idx : nat) (w : N) : bytes :=
  let b := 16 * w in
  let o := 16 * ((w + 1) mod 16) in
  match idx with
  | 2%nat => [0;0; 0;0; b;0; o;0; 0;0]
  | 3%nat => [0;0; 0;0; o;0; b;0; 0;0]
  | _ => [b;0; b;0; 0;0; 16;0; b;0]
  end.

Definition reach_ok (idx : nat) (w : N) : bool :=
  let gb := reach_witness idx w in
  (length gb =? 10)%nat && bytes_okb gb &&
  match slot gb idx with Ok v => v =? grease_val w | _ => false end.

Lemma reachable idx w : (idx < ssl_grease_last_index)%nat -> w < 16 ->
  exists gb, length gb = 10%nat /\ bytes_ok gb /\ slot gb idx = Ok (grease_val w).
Proof.
  intros Hi Hw.
  assert (H : forallb (fun idx => forallb (reach_ok idx) (nrange 16)) (seq 0 ssl_grease_last_index) = true)
    by (vm_compute; reflexivity).
  rewrite forallb_forall in H. specialize (H idx ltac:(apply in_seq; lia)).
  pose proof (sweep_lift _ 16 H w Hw) as H1. unfold reach_ok in H1.
  rewrite !andb_true_iff, Nat.eqb_eq, bytes_okb_spec in H1. destruct H1 as ((Hl & Hb) & Hv).
  exists (reach_witness idx w). split; [exact Hl | split; [exact Hb|]].
  destruct (slot _ idx) as [v| |]; try discriminate. apply N.eqb_eq in Hv. rewrite Hv. reflexivity.
Qed.

(* a uniform low seed byte gives a uniform GREASE value: 16 of the 256 bytes map to each value *)
Lemma uniform w : w < 16 ->
  length (filter (fun b => grease_word b =? grease_val w) (nrange 256)) = 16%nat.
Proof.
  intros Hw. rewrite (filter_ext _ (fun b => nib b =? w)).
  2: { intros b. rewrite grease_word_val. unfold grease_val. lia. }
  (* the byte list is built once: N.of_nat on unary numerals is what costs in the sweep *)
  assert (H : let bs := nrange 256 in
              forallb (fun w => Nat.eqb (length (filter (fun b => nib b =? w) bs)) 16) (nrange 16) = true)
    by (vm_compute; reflexivity).
  apply Nat.eqb_eq. exact (sweep_lift _ 16 H w Hw).
Qed.

Lemma grease_max_multiplier : GREASE_MAX_MULTIPLIER = 148764065110560899.
Proof. reflexivity. Qed.

Lemma grease_id_plain k : k < GREASE_MAX_MULTIPLIER -> grease_id (Some k) = 27 + k * 31.
Proof.
  rewrite grease_max_multiplier. intros Hk. unfold grease_id, u64.
  rewrite (N.mod_small k) by lia.
  rewrite (N.mod_small (k * 31)) by lia.
  rewrite N.mod_small by lia. reflexivity.
Qed.

Lemma unfixed_witness : is_grease_version (grease_version_unfixed (Some 1)) = false.
Proof. vm_compute. reflexivity. Qed.
