(* Model/PresetOk.v: for every spec satisfying the static predicate, every Config in the class and
   every randomness, what ApplyPreset leaves is inside the precondition of C02 (wf_specb), typed (typed_ext) and its
   totals fit the length fields (spec_fitsb). *)
From UV Require Import Base.Common Model.Wire Model.Varint Model.Ext Model.ExtSpec Model.Strict.
From UV Require Import Proofs.WireP Proofs.ExtP Proofs.StrictP.
From UV Require Import Model.Padding Model.Marshal Model.ChMarshal Proofs.MarshalP Proofs.ChMarshalP Model.WriteToUConn.
From UV Require Model.Grease Proofs.GreaseP.
From UV Require Import Model.Preset Model.PresetOk.
From UV Require Import Proofs.PresetP.

Lemma grease_val_facts_sweep :
  forallb (fun w => let v := Grease.grease_val w in (v <? 65536) && Ext.is_grease v) (nrange 16) = true.
Proof. vm_compute. reflexivity. Qed.

Lemma boring_facts sd idx v : Grease.boring_grease sd idx = Ok v ->
  v < 65536 /\ Ext.is_grease v = true /\ Grease.is_grease v = true.
Proof.
  intros H. destruct (GreaseP.boring_grease_form sd idx v H) as (Hg & w & Hw & ->).
  pose proof (sweep_lift _ 16 grease_val_facts_sweep w Hw) as Hs. cbv beta zeta in Hs.
  apply andb_true_iff in Hs. destruct Hs as [H1 H2]. repeat split; [lia | exact H2 | exact Hg].
Qed.

(* a GREASE value is none of the extension types the strict parser or writeToUConn know *)
Lemma grease_body_ok x b : Ext.is_grease x = true -> body_okb x b = true.
Proof.
  intros Hg. unfold body_okb. repeat (rewrite (is_grease_closed x _ Hg) by reflexivity). reflexivity.
Qed.

Lemma grease_typed x b : Ext.is_grease x = true -> typed_ext (EGREASE x b) = true.
Proof.
  intros Hg. cbn [typed_ext tracked_ids existsb].
  repeat (rewrite (is_grease_closed x _ Hg) by reflexivity). reflexivity.
Qed.

Lemma regrease_list sd idx l l' : Grease.map_res (Grease.regrease sd idx) l = Ok l' ->
  blen l' = blen l /\ nonempty l' = nonempty l
  /\ (all_lt 65536 l = true -> all_lt 65536 l' = true).
Proof.
  revert l'. induction l as [|a l IH]; intros l' H; cbn [Grease.map_res] in H.
  - inversion H. auto.
  - destruct (Grease.regrease sd idx a) as [y|c0|c0] eqn:Ey; cbn [bind] in H; try discriminate.
    destruct (Grease.map_res (Grease.regrease sd idx) l) as [r|c0|c0] eqn:Er; cbn [bind] in H; try discriminate.
    inversion H; subst l'. destruct (IH r eq_refl) as (Hl & _ & Hb). unfold blen in *. cbn [length].
    split; [lia|]. split; [reflexivity|].
    unfold all_lt in *. cbn [forallb]. intros Ha. apply andb_true_iff in Ha. destruct Ha as [Ha1 Ha2]. rewrite (Hb Ha2), andb_true_r.
    unfold Grease.regrease in Ey. destruct (Grease.is_grease a).
    + destruct (boring_facts _ _ _ Ey) as [Hy _]. lia.
    + inversion Ey; subst y. exact Ha1.
Qed.

Lemma key_size_ge g n : key_size g = Some n -> 32 <= n.
Proof.
  unfold key_size. intros H.
  repeat match type of H with (if ?b then _ else _) = _ => destruct b end; inversion H; lia.
Qed.

Lemma preset_share_ok sd keys k k' keys' : preset_share sd keys k = Ok (k', keys') -> share_ok k = true ->
  (fst k' <? 65536) = true /\ nonempty (snd k') = true /\ blen (snd k') = share_len k.
Proof.
  destruct k as [g d]. unfold share_ok, share_len. cbn [preset_share fst snd]. intros H Hok.
  apply andb_true_iff in Hok. destruct Hok as [Hg Hd]. destruct (Grease.is_grease g); cbn [orb] in *.
  - destruct (Grease.boring_grease sd _) as [g'| |] eqn:Eb; try discriminate. inversion H.
    destruct (boring_facts _ _ _ Eb) as [Hb _]. cbn [fst snd]. repeat split; [lia|exact Hd].
  - destruct (1 <? blen d); [inversion H; auto|].
    destruct (key_size g) as [n|] eqn:Ek; [|discriminate]. destruct keys as [|k keys]; [discriminate|].
    destruct (blen k =? n) eqn:En; [|discriminate]. inversion H. apply N.eqb_eq in En. cbn [fst snd].
    pose proof (key_size_ge _ _ Ek). repeat split; [exact Hg|apply nonempty_blen; lia|exact En].
Qed.

Lemma preset_shares_ok sd : forall ks keys ks' keys', preset_shares sd keys ks = Ok (ks', keys') ->
  forallb share_ok ks = true ->
  forallb (fun k => fst k <? 65536) ks' = true /\ forallb (fun k => nonempty (snd k)) ks' = true
  /\ key_shares_len ks' = sum_map (fun k => 4 + share_len k) ks.
Proof.
  induction ks as [|k ks IH]; intros keys ks' keys' H Hok; [inversion H; repeat split; reflexivity|].
  destruct (preset_shares_inv _ _ _ _ _ _ H) as (k' & keys1 & r' & -> & Hk & Hr).
  cbn [forallb] in Hok. apply andb_true_iff in Hok. destruct Hok as [Hk1 Hks].
  destruct (preset_share_ok _ _ _ _ _ Hk Hk1) as (A1 & A2 & A3). destruct (IH _ _ _ Hr Hks) as (I1 & I2 & I3).
  unfold key_shares_len in *. cbn [forallb sum_map]. rewrite A1, A3, I1, I3.
  repeat split. apply andb_true_iff. split; [exact A2|exact I2].
Qed.

(* lays open wf_ext / rfc_ok / typed_ext and the projections of a constructor application *)
Ltac open_facts :=
  unfold wf_ext, rfc_ok;
  cbn [state_ok fields_ok ext_len rfc_ok ext_absent typed_ext pad_other ext_id is_psk_ext is_ticket negb andb orb].

Lemma grease_ext_good x b : Ext.is_grease x = true -> x < 65536 -> blen b < 65000 ->
  wf_ext (EGREASE x b) && rfc_ok (EGREASE x b) && typed_ext (EGREASE x b) && negb (pad_other (EGREASE x b)) = true.
Proof.
  intros Hg Hx Hb. pose proof (grease_typed x b Hg) as Ht. cbn [typed_ext] in Ht.
  open_facts. rewrite (grease_body_ok x b Hg), Ht. lia.
Qed.

Lemma max_list_ge l d x : In x l -> x <= max_list l d.
Proof. induction l as [|y l IH]; [intros []|]. cbn [max_list fold_right In]. fold (max_list l d). intros [->|H]; [lia|]. specialize (IH H). lia. Qed.
Lemma max_list_ge_d l d : d <= max_list l d.
Proof. induction l as [|y l IH]; cbn [max_list fold_right]; [lia|]. fold (max_list l d). lia. Qed.

Lemma ech_init_ok su ci en pl d e :
  ech_init su ci en pl d = Ok e ->
  forallb (fun x => (fst x <? 65536) && ech_aead_ok (snd x)) su = true -> blen en < 30000 -> forallb (fun l => l <? 30000) pl = true ->
  wf_ext e = true /\ rfc_ok e = true /\ typed_ext e = true /\ pad_other e = false /\ ext_id e = ID_ECH
  /\ is_psk_ext e = false /\ is_ticket e = false
  /\ ext_len e <= 14 + (if empty en then 32 else blen en) + (max_list pl 128 + 16).
Proof.
  intros H Hsu Hen Hpl.
  destruct (ech_init_inv _ _ _ _ _ _ H) as (kdf & aead & cfgid & plen & -> & Isu & _ & Ipl & Ea & Epl & Een).
  assert (Hkdf : kdf < 65536).
  { destruct su; [inversion Isu; reflexivity|]. rewrite forallb_forall in Hsu. specialize (Hsu _ Isu). cbn [fst snd] in Hsu.
    (* here and below lia gets only what it needs: it translates every hypothesis of the context *)
    clear - Hsu. lia. }
  assert (Haead : aead < 65536) by (unfold ech_aead_ok in Ea; clear - Ea; lia).
  assert (Hplen : plen <= max_list pl 128 /\ plen < 30000).
  { destruct pl; [subst plen; split; [apply N.le_refl|reflexivity]|]. split; [apply max_list_ge; exact Ipl|].
    rewrite forallb_forall in Hpl. specialize (Hpl _ Ipl). clear - Hpl. lia. }
  assert (Henc : blen (if empty en then ed_enc d else en) = if empty en then 32 else blen en).
  { destruct (empty en); [apply Een|]; reflexivity. }
  assert (Henc2 : (if empty en then 32 else blen en) < 30000) by (destruct (empty en); [reflexivity|exact Hen]).
  (* the boolean hypotheses make lia slow *)
  clear H Hsu Hpl Isu Ipl Ea Een.
  open_facts. rewrite Henc, Epl.
  assert (Hne : nonempty (ed_payload d) = true) by (apply nonempty_blen; lia).
  rewrite Hne. repeat split; lia.
Qed.

Definition elem_good (e : ext) : bool := wf_ext e && rfc_ok e && typed_ext e && negb (pad_other e).

Lemma elem_good_all es : forallb elem_good es = true ->
  forallb (fun e => wf_ext e && rfc_ok e) es = true /\ forallb typed_ext es = true /\ existsb pad_other es = false.
Proof.
  induction es as [|e es IH]; [auto|]. cbn [forallb existsb]. unfold elem_good at 1.
  rewrite !andb_true_iff, negb_true_iff. intros [[[[A B] C] D] H]. destruct (IH H) as (I1 & I2 & I3).
  rewrite A, B, C, D, I1, I2, I3. auto.
Qed.

(* extension types on the wire: the GREASE entries carry the two per-connection GREASE types *)
Definition gid (x1 x2 : N) (seen : nat) (s : sext) : N :=
  if is_sgrease s then match seen with O => x1 | _ => x2 end else sid s.
Fixpoint gids (x1 x2 : N) (seen : nat) (ss : list sext) : list N :=
  match ss with
  | [] => []
  | s :: r => gid x1 x2 seen s :: gids x1 x2 (seen_after seen s) r
  end.

Definition efacts (snimax : N) (s : sext) (hd : N) (e' : ext) : Prop :=
  elem_good e' = true /\ ext_len e' <= max_len snimax s /\ ext_id e' = hd
  /\ is_psk_ext e' = is_spsk s /\ is_ticket e' = is_sticket s.

Definition lfacts (snimax : N) (ss : list sext) (ids : list N) (es : list ext) : Prop :=
  forallb elem_good es = true /\ sum_map ext_len es <= sum_map (max_len snimax) ss
  /\ map ext_id es = ids /\ map is_psk_ext es = map is_spsk ss /\ map is_ticket es = map is_sticket ss.

Lemma lfacts_cons snimax s ss hd ids e' es : efacts snimax s hd e' -> lfacts snimax ss ids es -> lfacts snimax (s :: ss) (hd :: ids) (e' :: es).
Proof.
  intros (A1 & A2 & A3 & A4 & A5) (B1 & B2 & B3 & B4 & B5). unfold lfacts. cbn [forallb sum_map map].
  rewrite A1, B1, A3, B3, A4, B4, A5, B5. repeat split. apply N.add_le_mono; assumption.
Qed.

Lemma wf_ext_parts e : state_ok e = true -> fields_ok e = true -> ext_len e <= 65539 -> wf_ext e = true.
Proof. intros A B C. unfold wf_ext. rewrite A, B. cbn [andb]. lia. Qed.

Lemma plain_static snimax omit e : plain e = true ->
  sext_ok snimax omit (SExt e) = wf_ext e && rfc_ok e && typed_ext e /\ max_len snimax (SExt e) = ext_len e
  /\ is_sgrease (SExt e) = false /\ pad_other e = false /\ is_sticket (SExt e) = is_ticket e.
Proof. destruct e; try discriminate; repeat split. Qed.

Section Loop.
  Variables (sd : list N) (c : cfg) (snimax : N) (omit : bool) (x1 x2 : N).
  Hypothesis Hx1 : Grease.boring_grease sd Grease.ssl_grease_extension1 = Ok x1.
  Hypothesis Hx2 : Grease.boring_grease sd Grease.ssl_grease_extension2 = Ok x2.
  Hypothesis Hsni : blen (c_sni c) <= snimax.
  Hypothesis Homit : c_omit_psk c = omit.

  Lemma preset_step_ok seen keys echs s e st : preset_step sd c seen keys echs s e st ->
    sext_ok snimax omit s = true -> efacts snimax s (gid x1 x2 seen s) e.
  Proof.
    (* by kind of entry (PresetP.preset_step): sext_ok of the spec's value makes the value that is left good and at most
       max_len long; type, pre_shared_key and session_ticket are read off the constructor *)
    intros H. unfold efacts, elem_good, gid.
    destruct H as [e Hp|host|v b x Hlt Hx|cs cs' Ec|ks ks' keys' Ek|vs vs' Ec|l w pol|se cl o ids bs|o ids bs|su ci en pl d echs' e _ Ee];
      [|cbn [sext_ok is_sgrease sid max_len is_spsk is_sticket]..]; intros Hs.
    - destruct (plain_static snimax omit e Hp) as (Hok & -> & -> & -> & ->).
      rewrite Hok in Hs. rewrite Hs. repeat split. apply N.le_refl.
    - assert (Hh : blen (if empty host then c_sni c else host) <= if empty host then snimax else blen host)
        by (destruct (empty host); [exact Hsni|apply N.le_refl]).
      open_facts. rewrite orb_true_r. destruct (blen (if empty host then c_sni c else host) =? 0); repeat split; lia.
    - destruct seen as [|[|seen]]; [rewrite Hx1 in Hx|rewrite Hx2 in Hx|exfalso; clear - Hlt; lia]; inversion Hx; subst x.
      + destruct (boring_facts _ _ _ Hx1) as (B1 & B2 & _). rewrite (grease_ext_good x1 b B2 B1) by lia.
        repeat split. apply N.add_le_mono_l, N.le_max_l.
      + destruct (boring_facts _ _ _ Hx2) as (B1 & B2 & _). rewrite (grease_ext_good x2 [0] B2 B1) by (cbn; lia).
        repeat split. apply N.add_le_mono_l, N.le_max_r.
    - (* premise and conclusion, laid open, differ in the list under [all_lt] only *)
      destruct (regrease_list _ _ _ _ Ec) as (Hl & Hn & Hb). revert Hs. open_facts. rewrite Hl, Hn. intros Hs.
      rewrite !andb_true_iff in Hs. destruct Hs as [[[Hf Hlen] Hrf] _]. rewrite (Hb Hf), Hlen, Hrf. repeat split. apply N.le_refl.
    - apply andb_true_iff in Hs. destruct Hs as [Hsh Hlen].
      destruct (preset_shares_ok _ _ _ _ _ Ek Hsh) as (K1 & K2 & K3).
      open_facts. rewrite K1, K2, K3. change (4 + 2) with 6. rewrite Hlen. repeat split. apply N.le_refl.
    - destruct (regrease_list _ _ _ _ Ec) as (Hl & Hn & Hb). revert Hs. open_facts. rewrite Hl, Hn. intros Hs.
      rewrite !andb_true_iff in Hs. destruct Hs as [[[[Hf Hf2] Hlen] Hrf] _]. rewrite (Hb Hf), Hf2, Hlen, Hrf. repeat split. apply N.le_refl.
    - apply andb_true_iff in Hs. destruct Hs as [Hw Hp].
      apply negb_true_iff in Hw. subst w. rewrite Hp. open_facts. repeat split; try reflexivity; lia.
    - rewrite Homit, Hs. repeat split. cbn [ext_len]. lia.
    - rewrite Homit, Hs. repeat split. cbn [ext_len]. lia.
    - rewrite !andb_true_iff in Hs. destruct Hs as [[Hsu Hen] Hpl].
      destruct (ech_init_ok _ _ _ _ _ _ Ee Hsu (proj1 (N.ltb_lt _ _) Hen) Hpl) as (E1 & E2 & E3 & E4 & E5 & E6 & E7 & E8).
      rewrite E1, E2, E3, E4. repeat split; assumption.
  Qed.

  Lemma preset_exts_ok : forall ss seen keys echs es, preset_exts sd c seen keys echs ss = Ok es ->
    forallb (sext_ok snimax omit) ss = true -> lfacts snimax ss (gids x1 x2 seen ss) es.
  Proof.
    induction ss as [|s r IH]; intros seen keys echs es H Hok.
    - inversion H. unfold lfacts. cbn. repeat split. lia.
    - destruct (preset_exts_inv _ _ _ _ _ _ _ _ H) as (e & seen' & keys' & echs' & r' & -> & He & Hr).
      cbn [forallb] in Hok. apply andb_true_iff in Hok. destruct Hok as [Hs Hok].
      cbn [gids]. rewrite <- (preset_step_seen _ _ _ _ _ _ _ _ _ _ He).
      exact (lfacts_cons _ _ _ _ _ _ _ (preset_step_ok _ _ _ _ _ _ He Hs) (IH _ _ _ _ Hr Hok)).
  Qed.
End Loop.

(* with the seed ApplyPreset draws, the two GREASE extension types are distinct GREASE values *)
Lemma preset_exts_ok_seeded gb sd c snimax omit keys echs ss es :
  Grease.grease_seed gb = Ok sd -> cfg_in_class c snimax omit ->
  preset_exts sd c 0 keys echs ss = Ok es -> forallb (sext_ok snimax omit) ss = true ->
  exists x1 x2, Grease.is_grease x1 = true /\ Grease.is_grease x2 = true /\ x1 <> x2
                /\ lfacts snimax ss (gids x1 x2 0 ss) es.
Proof.
  intros Eg [Hsni Homit] Ee Hok. destruct (GreaseP.grease_seed_shape _ _ Eg) as (c0 & g0 & e1 & e2 & v0 & -> & Hne).
  assert (Hx1 : Grease.boring_grease [c0; g0; e1; e2; v0] Grease.ssl_grease_extension1 = Ok (Grease.grease_word e1)) by reflexivity.
  assert (Hx2 : Grease.boring_grease [c0; g0; e1; e2; v0] Grease.ssl_grease_extension2 = Ok (Grease.grease_word e2)) by reflexivity.
  exists (Grease.grease_word e1), (Grease.grease_word e2).
  split; [apply (boring_facts _ _ _ Hx1)|]. split; [apply (boring_facts _ _ _ Hx2)|]. split; [exact Hne|].
  exact (preset_exts_ok _ c snimax omit _ _ Hx1 Hx2 Hsni Homit _ _ _ _ _ Ee Hok).
Qed.

Definition nong (ss : list sext) : list sext := filter (fun s => negb (is_sgrease s)) ss.

Lemma gids_no_grease x1 x2 : forall ss seen, ngrease ss = O -> gids x1 x2 seen ss = map sid (nong ss).
Proof.
  induction ss as [|s r IH]; intros seen H; [reflexivity|]. unfold ngrease, nong in *. cbn [filter gids] in *.
  unfold gid, seen_after. destruct (is_sgrease s); cbn [length negb map] in *; [discriminate|]. rewrite (IH seen H). reflexivity.
Qed.

Lemma gids_in x1 x2 : forall ss seen y, In y (gids x1 x2 seen ss) ->
  In y (map sid (nong ss)) \/ (seen = O /\ y = x1) \/ y = x2.
Proof.
  induction ss as [|s r IH]; intros seen y H; [destruct H|]. unfold nong in *. cbn [gids filter] in *.
  unfold gid, seen_after in H. destruct (is_sgrease s); cbn [negb map In] in *.
  - destruct H as [<-|H]; [destruct seen; tauto|]. apply IH in H. destruct H as [H|[[H _]|H]]; [tauto|discriminate|tauto].
  - destruct H as [<-|H]; [tauto|]. apply IH in H. tauto.
Qed.

Lemma gids_nodup x1 x2 : Grease.is_grease x1 = true -> Grease.is_grease x2 = true -> x1 <> x2 ->
  forall ss seen, NoDup (map sid (nong ss)) -> (forall s, In s (nong ss) -> Grease.is_grease (sid s) = false) ->
  (seen + ngrease ss <= 2)%nat -> NoDup (gids x1 x2 seen ss).
Proof.
  intros G1 G2 Hne. induction ss as [|s r IH]; intros seen Hnd Hng Hc; [constructor|].
  unfold nong, ngrease in *. cbn [gids filter] in *. unfold gid, seen_after.
  destruct (is_sgrease s) eqn:Es; cbn [negb map length] in *.
  - assert (Hng' : forall y, In y (map sid (filter (fun s => negb (is_sgrease s)) r)) -> Grease.is_grease y = false).
    { intros y Hy. apply in_map_iff in Hy. destruct Hy as (t & <- & Ht). apply Hng. exact Ht. }
    constructor; [|apply IH; [exact Hnd | exact Hng | lia]].
    destruct seen as [|[|seen]]; [| |lia].
    + intros Hin. apply gids_in in Hin. destruct Hin as [Hin|[[Hin _]|Hin]]; [apply Hng' in Hin; congruence|discriminate|congruence].
    + assert (H0 : ngrease r = O) by (unfold ngrease; lia). rewrite (gids_no_grease x1 x2 r 2 H0). unfold nong.
      intros Hin. apply Hng' in Hin. congruence.
  - inversion Hnd as [|? ? Hn Hnd']; subst. constructor; [|apply IH; [exact Hnd' | intros t Ht; apply Hng; right; exact Ht | lia]].
    intros Hin. apply gids_in in Hin. pose proof (Hng s (or_introl eq_refl)) as Hs.
    destruct Hin as [Hin|[[_ Hin]|Hin]]; [exact (Hn Hin) | congruence | congruence].
Qed.

Lemma psk_lastb_ext l : forall l', map (fun a => a =? ID_PSK) l = map (fun a => a =? ID_PSK) l' -> psk_lastb l = psk_lastb l'.
Proof.
  induction l as [|x r IH]; intros [|x' r'] H; try discriminate; [reflexivity|].
  cbn [map] in H. inversion H as [[Hx Hr]]. cbn [psk_lastb]. destruct r, r'; try discriminate; [reflexivity|].
  unfold ID_PSK in Hx. rewrite Hx. f_equal. apply IH. exact Hr.
Qed.

Lemma typed_psk_id e : typed_ext e = true -> (ext_id e =? ID_PSK) = is_psk_ext e.
Proof.
  destruct e; cbn [typed_ext ext_id is_psk_ext]; intros H; try reflexivity.
  - cbn [tracked_ids existsb] in H. apply negb_true_iff in H. rewrite !orb_false_iff in H. tauto.
  - cbn [tracked_ids existsb] in H. apply negb_true_iff in H. rewrite !orb_false_iff in H. tauto.
  - destruct old; reflexivity.
Qed.

Lemma psk_positions (f : ext -> N) es ss : map is_psk_ext es = map is_spsk ss ->
  (forall e, In e es -> (f e =? ID_PSK) = is_psk_ext e) -> psk_lastb (map f es) = psk_lastb (map pid ss).
Proof.
  intros L Hf. apply psk_lastb_ext. rewrite !map_map. transitivity (map is_psk_ext es).
  - apply map_ext_in. exact Hf.
  - rewrite L. apply map_ext. intros s. unfold pid. destruct (is_spsk s); reflexivity.
Qed.

Definition pad_own (e : ext) : N := if is_padding e then ext_len e else 0.

Lemma nonpad_split padto es : nonpad_len (map (ChMarshal.to_aext padto) es) + sum_map pad_own es = sum_map ext_len es.
Proof.
  induction es as [|e es IH]; [reflexivity|]. cbn [map nonpad_len fold_right sum_map]. fold (nonpad_len (map (ChMarshal.to_aext padto) es)).
  unfold pad_own at 1. destruct (is_padding e) eqn:Hp.
  - destruct e; try discriminate. cbn [ChMarshal.to_aext a_is_pad]. lia.
  - rewrite (to_aext_nonpad padto e Hp). cbn [a_is_pad a_len]. lia.
Qed.

Lemma pad_update_bound pol st u : (forall n, pol <> PolAlways n) -> pad_len (pad_update pol st u) <= 516 + pad_len st.
Proof.
  intros Hp. destruct pol; cbn [pad_update]; [lia| |exfalso; eapply Hp; reflexivity].
  unfold boring_padding_style. destruct ((255 <? u) && (u <? 512)) eqn:E; unfold pad_len; cbn [p_will p_len]; [|lia].
  destruct (5 <=? 512 - u); lia.
Qed.

Lemma fits_bound h es : wf_specb h es = true -> existsb pad_other es = false ->
  len (h_suites h) * 2 <= 65535 -> len (h_comp h) <= 255 -> sum_map ext_len es + 516 <= 65535 -> spec_fitsb 0%Z h es = true.
Proof.
  intros Hwf Hpo Hsu Hcomp Hsum. destruct (prepare_of_wf 0%Z h es Hwf) as (p & Hp). unfold spec_fitsb. rewrite Hp.
  destruct (wf_spec_parts h es Hwf) as (_ & _ & Hsid & _ & _ & Hcne & _ & _ & _).
  unfold marshal_prepare in Hp. destruct (find_padding (map (ChMarshal.to_aext 0%Z) es) None) as [pe|c0|c0] eqn:Ef; cbn [bind] in Hp; try discriminate.
  inversion Hp; subst p. unfold fits. cbn [pr_extensions_len].
  pose proof (nonpad_split 0%Z es) as Hsplit.
  assert (Hext : match pe with
                 | Some (pol, st) => nonpad_len (map (ChMarshal.to_aext 0%Z) es) + pad_len (pad_update pol st (unpadded_len h (map (ChMarshal.to_aext 0%Z) es)))
                 | None => nonpad_len (map (ChMarshal.to_aext 0%Z) es) end <= 65535).
  { destruct pe as [[pol st]|]; [|lia].
    pose proof (find_padding_none _ _ Ef) as (pre & post & Heq & _ & _).
    assert (Hin : In (APad pol st) (map (ChMarshal.to_aext 0%Z) es)) by (rewrite Heq; apply in_or_app; right; left; reflexivity).
    apply in_map_iff in Hin. destruct Hin as (e & He & Hine). destruct e; try discriminate. cbn [ChMarshal.to_aext] in He. inversion He; subst pol st.
    assert (Hno : pad_other (EPadding padlen willpad policy) = false).
    { rewrite <- not_true_iff_false. intros Ht. rewrite <- not_true_iff_false in Hpo. apply Hpo. apply existsb_exists. eexists; split; [exact Hine|exact Ht]. }
    assert (Hpol : forall n, (match policy with PadNone => PolNone | PadBoring => PolBoring | PadOther => PolAlways 0%Z end) <> PolAlways n).
    { destruct policy; try discriminate. }
    pose proof (pad_update_bound _ {| p_len := padlen; p_will := willpad |} (unpadded_len h (map (ChMarshal.to_aext 0%Z) es)) Hpol) as Hb.
    pose proof (sum_map_ge pad_own es _ Hine) as Hown. unfold pad_own in Hown at 1. cbn [is_padding ext_len] in Hown.
    unfold pad_len in Hb at 2. cbn [p_will p_len] in Hb. clear - Hb Hown Hsplit Hsum. lia. }
  clear - Hext Hsu Hcomp Hsid Hcne. rewrite !andb_true_iff. repeat split; lia.
Qed.

(* what ApplyPreset leaves for a preset_ok spec is inside the precondition of C02, typed, and fits *)
Theorem preset_ok_output sp c fr snimax omit h es :
  preset_ok sp snimax omit = true -> cfg_in_class c snimax omit -> apply_preset sp c fr = Ok (h, es) ->
  wf_specb h es = true /\ spec_fitsb 0%Z h es = true /\ forallb typed_ext es = true /\ existsb pad_other es = false.
Proof.
  intros Hok Hc H.
  destruct (apply_preset_inv _ _ _ _ _ H) as (mn & mx & v & sd & su & Ev & Eh & Er & Ei & Eg & Es & Ee & _ & ->).
  unfold preset_ok in Hok. rewrite !andb_true_iff in Hok.
  destruct Hok as [[[[[[[[[Hsne Hs16] Hslen] Hexts] Hngr] Hnd] Hnog] Hpsk] Htk] Hsum].
  destruct (preset_exts_ok_seeded _ _ _ _ _ _ _ _ _ Eg Hc Ee Hexts) as (x1 & x2 & G1 & G2 & Hne & L1 & L2 & L3 & L4 & L5).
  destruct (regrease_list _ _ _ _ Es) as (Hsl & Hsn & Hsb).
  destruct (elem_good_all _ L1) as (Hwr & Hty & Hpo).
  assert (Hwf : wf_specb {| h_vers := v; h_random := f_random fr; h_sid := f_sid fr; h_suites := su; h_comp := [0] |} es = true).
  { unfold wf_specb, hdr_wfb. cbn [h_vers h_random h_sid h_suites h_comp nonempty].
    rewrite !andb_true_iff. repeat split.
    - unfold hello_vers in Eh. destruct (mx <? mn); [discriminate|]. inversion Eh. unfold VersionTLS12. destruct (771 <? mx) eqn:E; clear - E; lia.
    - apply N.eqb_eq. exact Er.
    - unfold len. fold (blen (f_sid fr)). clear - Ei. lia.
    - rewrite Hsn. exact Hsne.
    - exact (Hsb Hs16).
    - exact Hwr.
    - rewrite L3. apply nodupb_spec. apply (gids_nodup _ _ G1 G2 Hne).
      + apply nodupb_spec. exact Hnd.
      + intros s Hs. unfold nong in Hs. apply filter_In in Hs. destruct Hs as [Hs Hng]. rewrite forallb_forall in Hnog. specialize (Hnog s Hs).
        destruct (is_sgrease s); [discriminate|]. cbn [orb] in Hnog. apply negb_true_iff in Hnog. exact Hnog.
      + unfold ngrease. clear - Hngr. lia.
    - rewrite (psk_positions ext_id _ _ L4); [exact Hpsk|]. intros e He. apply typed_psk_id. exact (proj1 (forallb_forall _ _) Hty e He). }
  split; [exact Hwf|]. split; [|split; [exact Hty | exact Hpo]].
  apply fits_bound; [exact Hwf | exact Hpo | | | ].
  - cbn [h_suites]. unfold len. fold (blen su). rewrite Hsl. clear - Hslen. lia.
  - cbn [h_comp]. unfold len. cbn. clear. lia.
  - clear - L2 Hsum. lia.
Qed.

(* ... hence the hello can be marshalled and is a valid ClientHello *)
Theorem preset_ok_builds sp c fr snimax omit h es :
  preset_ok sp snimax omit = true -> cfg_in_class c snimax omit -> apply_preset sp c fr = Ok (h, es) ->
  exists raw, build sp c fr = Ok raw /\ marshal_hello bbs512 0%Z h es = Ok raw /\ valid_ch raw.
Proof.
  intros Hok Hc Ha. destruct (preset_ok_output sp c fr snimax omit h es Hok Hc Ha) as (Hwf & Hfit & _ & Hpo).
  destruct (encodes_when_fits bbs512 0%Z h es Hwf Hfit) as (raw & Hm & Hv). exists raw. split; [|split; [exact Hm|exact Hv]].
  unfold build. rewrite Ha. cbn [bind fst snd]. rewrite Hpo.
  unfold marshal_hello in Hm. unfold spec_fitsb in Hfit.
  destruct (marshal_prepare h (map (ChMarshal.to_aext 0%Z) es)) as [p| |]; try discriminate. cbn [bind] in Hm. rewrite Hfit in Hm. cbn [negb] in Hm.
  rewrite <- Hm, (map_to_aext_same 0%Z es Hpo). reflexivity.
Qed.
