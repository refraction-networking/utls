(* C15 — ECH hides the real server name and is honoured end to end.

   State: the model describes the code WITH fixes/C15-ech-hrr-keyshare.diff (F-15) and
   fixes/C14-ech-rejected-public-name.diff (F-14, owned by C14). On the unfixed code C15_ech_hrr fails
   (Proofs/EchOuterP.hrr_prefix_refuted keeps the witness; the runner replays it against the real code in every run).

   Partial: HPKE (seal), the per-extension body parsers of clientHelloMsg.unmarshal (body_ok), hostnameInSNI,
   GetPaddingLen and x509 verification are universally quantified function arguments; the TLS 1.3 key schedule
   and the accept-confirmation computation are not modelled (they are the boolean v_confirmation_ok). *)
From UV Require Import Base.Common Model.Ech Proofs.EchP Proofs.EchOuterP Proofs.EchExtractP.

(* ech_roundtrip — for ALL extension lists: if the compressed list is an in-order subsequence of the outer
   extension types (and the outer carries the inner's bodies for them), the server's decodeInnerClientHello rebuilds
   an inner hello equal to the client's on every field (session id taken from the outer) with the extensions
   server_name, the uncompressed ones in order, the compressed ones with the inner's own bodies, pre_shared_key. *)
Theorem C15_ech_roundtrip :
  forall body_ok inner maxname oe outer_orig outer_sid raw enc,
  encode_inner inner maxname oe = Ok enc ->
  extract_raw_extensions outer_orig = Ok raw ->
  subseq (comp_list oe inner) (map eid raw) ->
  ~ In EXT_ECH (comp_list oe inner) ->
  (forall x it, In x raw -> In it (ch_items inner) -> compresses true (is_some oe) (it_kind it) = true ->
                eid x = eid (it_ext it) -> ebody x = ebody (it_ext it)) ->
  Forall (fun e => eid e < 65536) (expected_exts oe inner) ->
  no_outer_id (sni_exts inner ++ inl_exts (is_some oe) inner) -> no_outer_id (opt_list (ch_psk inner)) ->
  let r := expected_recon oe outer_sid inner in
  recon_fits r = true ->
  unmarshal_ok body_ok r = true ->
  find_ext EXT_ECH (r_exts r) = Some (mkExt EXT_ECH [1]) ->
  (exists sv, find_ext EXT_SUPPORTED_VERSIONS (r_exts r) = Some sv /\ parse_sv (ebody sv) = Some [VERSION_TLS13]) ->
  decode_inner body_ok outer_orig outer_sid enc = Ok r.
Proof. exact roundtrip. Qed.
Print Assumptions C15_ech_roundtrip.

(* ech_order — the list the code writes (extensionsList filtered by the compressed ids) satisfies that premise
   for the outer hello that is actually marshalled (first ECH slot replaced by the real extension). *)
Theorem C15_ech_order :
  forall hostname_in_sni padf inner h exts new exts1 pad_on,
  replace_first_ech exts new = Some exts1 -> eid new = EXT_ECH ->
  Forall uext_ok exts ->
  (forall t, In t (comp_ids true true (ch_items inner)) -> t <> 0 /\ t <> EXT_PADDING) ->
  subseq (comp_list (Some (extensions_list hostname_in_sni pad_on exts)) inner)
         (map eid (wire_exts hostname_in_sni padf h exts1)).
Proof.
  intros hostname_in_sni padf inner h exts new exts1 pad_on Hrep Hnew Hok Hids.
  rewrite wire_exts_eq. unfold comp_list. cbn [is_some reorder_ids].
  assert (Hm : forall t, t = 0 \/ t = EXT_PADDING -> mem t (comp_ids true true (ch_items inner)) = false).
  { intros t Ht. apply not_true_is_false. rewrite mem_In. intros Hy. destruct (Hids t Hy). destruct Ht; contradiction. }
  apply list_ids_subseq with (new := new);
    [apply Hm; left; reflexivity | apply Hm; right; reflexivity | exact Hnew | exact Hok |].
  apply replace_first_ech_replaced. exact Hrep.
Qed.
Print Assumptions C15_ech_order.

(* ech_outer_sni — with an ECH config every SNIExtension of the applied spec carries the config's public name
   (through hostnameInSNI), whatever Config.ServerName is. *)
Theorem C15_ech_outer_sni :
  forall hostname pn sn spec n,
  In (USni n) (map (apply_preset_sni (Some pn) sn) spec) ->
  n = pn /\ usni_exts hostname n = (if len (hostname pn) =? 0 then [] else [sni_ext (hostname pn)]).
Proof.
  intros hostname pn sn spec n. rewrite in_map_iff. intros (e & He & _).
  apply apply_preset_sni_public in He. subst n. split; reflexivity.
Qed.
Print Assumptions C15_ech_outer_sni.

Theorem C15_ech_outer_sni_independent :
  forall pn sn1 sn2 spec,
  map (apply_preset_sni (Some pn) sn1) spec = map (apply_preset_sni (Some pn) sn2) spec.
Proof. intros pn sn1 sn2 spec. apply map_ext. intros e. destruct e; reflexivity. Qed.
Print Assumptions C15_ech_outer_sni_independent.

(* ech_noninterference — two inner hellos (two secret names) whose padded encodings have the same length give
   outer hellos that are byte-identical outside the HPKE ciphertext; the AAD is identical too. *)
Theorem C15_ech_noninterference :
  forall hostname_in_sni padf seal,
  (forall s a p, len (seal s a p) = len p + 16) ->
  forall h exts pad_on inner1 inner2 cfg enc useKey seq o1 o2,
  compute_outer hostname_in_sni padf seal h exts pad_on inner1 cfg enc useKey seq = Ok o1 ->
  compute_outer hostname_in_sni padf seal h exts pad_on inner2 cfg enc useKey seq = Ok o2 ->
  len (o_encoded o1) = len (o_encoded o2) ->
  exists F G ct1 ct2, o_raw o1 = F ++ ct1 ++ G /\ o_raw o2 = F ++ ct2 ++ G /\ len ct1 = len ct2 /\
                      ct1 = seal seq (o_aad o1) (o_encoded o1) /\ ct2 = seal seq (o_aad o2) (o_encoded o2) /\
                      o_aad o1 = o_aad o2.
Proof.
  intros hostname_in_sni padf seal seal_len h exts pad_on inner1 inner2 cfg enc useKey seq o1 o2 H1 H2 Hl.
  destruct (compute_outer_frame _ _ _ seal_len _ _ _ _ _ _ _ _ _ H1) as (pre & old & post & Hex & Hn1 & _ & Ha1 & Hr1).
  destruct (compute_outer_frame _ _ _ seal_len _ _ _ _ _ _ _ _ _ H2) as (pre' & old' & post' & Hex' & Hn2 & _ & Ha2 & Hr2).
  assert (pre' = pre /\ post' = post) as [-> ->].
  { rewrite Hex in Hex'. eapply ech_split_unique; eauto. }
  cbv zeta in Ha1, Hr1, Ha2, Hr2. rewrite <- Hl in Ha2, Hr2.
  do 4 eexists. split; [exact Hr1|]. split; [exact Hr2|]. split; [rewrite !seal_len; lia|].
  split; [reflexivity|]. split; [reflexivity|]. congruence.
Qed.
Print Assumptions C15_ech_noninterference.

(* the outer hello is a frame around the ciphertext and the AAD is the same frame around zeros (what the server
   recomputes in decryptECHPayload) *)
Theorem C15_ech_outer_frame :
  forall hostname_in_sni padf seal,
  (forall s a p, len (seal s a p) = len p + 16) ->
  forall h exts pad_on inner cfg enc useKey seq o,
  compute_outer hostname_in_sni padf seal h exts pad_on inner cfg enc useKey seq = Ok o ->
  exists pre old post,
    exts = pre ++ UEch old :: post /\ no_ech_slot pre /\
    let encap := if useKey then enc else [] in
    let n := len (o_encoded o) + 16 in
    let F := frame_pre hostname_in_sni padf h pre post (c_id cfg) (c_kdf cfg) (c_aead cfg) encap n in
    let G := frame_post hostname_in_sni padf h pre post (c_id cfg) (c_kdf cfg) (c_aead cfg) encap n in
    encode_inner inner (c_maxname cfg) (Some (extensions_list hostname_in_sni pad_on exts)) = Ok (o_encoded o) /\
    o_aad o = skipn 4 (F ++ zeros (N.to_nat n) ++ G) /\
    o_raw o = F ++ seal seq (o_aad o) (o_encoded o) ++ G.
Proof. exact compute_outer_frame. Qed.
Print Assumptions C15_ech_outer_frame.

(* the server's extractRawExtensions of the marshalled outer hello yields exactly those wire extensions, so
   C15_ech_order discharges the subsequence premise of C15_ech_roundtrip for the hello the client really sends *)
Theorem C15_ech_outer_parses :
  forall hostname_in_sni padf h exts out,
  marshal_outer hostname_in_sni padf h exts = Ok out ->
  len (uh_random h) = 32 -> len (uh_sid h) < 256 -> 2 * N.of_nat (length (uh_suites h)) < 65536 ->
  len (uh_comp h) < 256 -> exts <> [] ->
  Forall (uext_fits hostname_in_sni padf (unpadded_len hostname_in_sni h exts)) exts ->
  len (exts_bytes hostname_in_sni padf h exts) < 65536 ->
  extract_raw_extensions out = Ok (wire_exts hostname_in_sni padf h exts).
Proof. exact extract_marshal_outer. Qed.
Print Assumptions C15_ech_outer_parses.

(* ech_hrr — after a HelloRetryRequest that accepted ECH and selected `group`, the inner hello and every
   KeyShareExtension of the outer hello carry exactly the one fresh share for that group. *)
Theorem C15_ech_hrr :
  forall group pub st st',
  hrr_update group pub st = Ok st' ->
  hs_outer_ks st' = [(group, pub)] /\
  find_ext EXT_KEY_SHARE (map it_ext (ch_items (hs_inner st'))) = Some (ks_ext [(group, pub)]) /\
  In (UKeyShare [(group, pub)]) (hs_exts st') /\
  (forall ks, In (UKeyShare ks) (hs_exts st') -> ks = [(group, pub)]).
Proof. exact hrr_one_share. Qed.
Print Assumptions C15_ech_hrr.

(* ech_reject — a rejecting server whose certificate is valid for the public (outer) name makes the client
   return ECHRejectionError carrying the retry configs of EncryptedExtensions; a rejected handshake never completes. *)
Theorem C15_ech_reject :
  forall x509 v,
  v_confirmation_ok v = false -> v_rejection_verify v = None ->
  x509 (v_outer_server_name v) = true -> v_server_flight_ok v = true ->
  client_finish x509 v = HsECHRejection (retry_of v).
Proof.
  intros x509 v Hc Hr Hx Hf. unfold client_finish, retry_of. rewrite Hc, Hr, Hx, Hf. cbn [negb andb]. reflexivity.
Qed.
Print Assumptions C15_ech_reject.

Theorem C15_ech_reject_never_completes :
  forall x509 v, v_confirmation_ok v = false -> forall a n, client_finish x509 v <> HsComplete a n.
Proof.
  intros x509 v Hc a n. unfold client_finish. rewrite Hc. cbn [negb andb].
  destruct (v_rejection_verify v) as [b|]; [destruct b | destruct (x509 (v_outer_server_name v))]; cbn [negb];
    try discriminate; destruct (v_server_flight_ok v); discriminate.
Qed.
Print Assumptions C15_ech_reject_never_completes.

Theorem C15_ech_accept :
  forall x509 v,
  v_confirmation_ok v = true -> v_ee_retry_configs v = None ->
  x509 (v_config_server_name v) = true -> v_server_flight_ok v = true ->
  client_finish x509 v = HsComplete true (v_config_server_name v).
Proof. intros x509 v Hc Hr Hx Hf. unfold client_finish. rewrite Hc, Hr, Hx, Hf. reflexivity. Qed.
Print Assumptions C15_ech_accept.

(* server side, over a HISTORY of connections against one Config: every connection is answered from the configured
   key list — a client holding the config of ANY configured key is accepted, every time, and a rejected client
   receives exactly the SendAsRetry configs, in configuration order, every time. *)
Theorem C15_ech_server_history :
  forall keys cfgs, server_history keys cfgs = map (server_answer keys) cfgs.
Proof.
  intros keys cfgs. induction cfgs as [|c r IH]; cbn [server_history server_step map]; [reflexivity|].
  rewrite IH. reflexivity.
Qed.
Print Assumptions C15_ech_server_history.

Theorem C15_ech_server_accepts_configured :
  forall keys k, In k keys -> server_accepts keys (fst k) = true.
Proof.
  intros keys k H. unfold server_accepts. apply existsb_exists. exists k. split; [exact H|]. apply bytes_eqb_eq. reflexivity.
Qed.
Print Assumptions C15_ech_server_accepts_configured.

Theorem C15_ech_retry_list :
  forall keys,
  retry_list keys = match filter snd keys with [] => None | _ => Some (p16lp (flat_map fst (filter snd keys))) end.
Proof. intros keys. unfold retry_list. destruct (filter snd keys); reflexivity. Qed.
Print Assumptions C15_ech_retry_list.

(* an inner hello with server_name, ECH, supported_groups, sig_algs, supported_versions, key_share; an outer hello that
   carries key_share BEFORE supported_groups (so the reordering matters) *)
Definition ex_inner : chello :=
  mkHello 771 (zeros 32) (zeros 32) [4865; 4866] [0] [115; 46; 101; 120]
    [mkItem (mkExt 23 []) KOuterOnly;
     mkItem (mkExt EXT_ECH [1]) KAlways;
     mkItem (mkExt 10 [0; 4; 0; 29; 0; 24]) KComp;
     mkItem (mkExt 13 [0; 2; 4; 3]) KComp;
     mkItem (mkExt 43 [2; 3; 4]) KCompNoReorder;
     mkItem (ks_ext [(29, [9; 9])]) KComp] None.
Definition ex_uexts : list uext :=
  [UExt (mkExt 2570 []); USni [112; 46; 101; 120]; UKeyShare [(29, [9; 9])]; UEch (mkExt EXT_ECH [0; 0; 1; 0; 1; 5; 0; 0; 0; 0]);
   UExt (mkExt 13 [0; 2; 4; 3]); UExt (mkExt 10 [0; 4; 0; 29; 0; 24]); UExt (mkExt 43 [2; 3; 4]); UPad].
Definition ex_h : uhello := mkUHello 771 (zeros 32) (zeros 32) [4865; 4866] [0].
Definition ex_seal (s : N) (a p : bytes) : bytes := p ++ zeros 16.
Definition ex_cfg : echcfg := mkCfg 7 1 1 32 [112; 46; 101; 120].

Example C15_ex_compressed_list :
  comp_list (Some (extensions_list (fun n => n) false ex_uexts)) ex_inner = [51; 13; 10].
Proof. vm_compute. reflexivity. Qed.

(* the whole client build followed by the server's decode succeeds on the example and returns the inner hello
   with the compressed extensions re-expanded in OUTER order *)
Example C15_ex_end_to_end :
  match compute_outer (fun n => n) (fun _ => (0, false)) ex_seal ex_h ex_uexts false ex_inner ex_cfg [5; 5] true 0 with
  | Ok o =>
      match decode_inner (fun _ _ => true) (o_raw o) (uh_sid ex_h) (o_encoded o) with
      | Ok r => list_eqb N.eqb (map eid (r_exts r)) [0; EXT_ECH; 43; 51; 13; 10] &&
                bytes_eqb (r_sid r) (ch_sid ex_inner) &&
                (* ech.go:226-231: (length + unappended name padding 32-4) is the multiple of 32, not the length *)
                ((len (o_encoded o) + 28) mod 32 =? 0)
      | _ => false
      end
  | _ => false
  end = true.
Proof. vm_compute. reflexivity. Qed.

Example C15_ex_hrr :
  exists st', hrr_update 24 [7] f15_witness = Ok st' /\ In (UKeyShare [(24, [7])]) (hs_exts st').
Proof. eexists. split; [reflexivity|]. cbn. auto. Qed.

Example C15_ex_reject :
  client_finish (fun n => bytes_eqb n [112]) (mkView [115] [112] false (Some [0; 0]) None true) = HsECHRejection [0; 0].
Proof. reflexivity. Qed.

(* keys [old (not retry); current (retry)], clients: stale, old, current, stale, old *)
Example C15_ex_server_history :
  server_history [([1], false); ([2], true)] [[9]; [1]; [2]; [9]; [1]] =
  [(false, Some [0; 1; 2]); (true, None); (true, None); (false, Some [0; 1; 2]); (true, None)].
Proof. reflexivity. Qed.

(* a pre-filled SNIExtension is overwritten by the public name *)
Example C15_ex_prefilled_sni :
  apply_preset_sni (Some [112]) [115] (USni [115]) = USni [112] /\ apply_preset_sni None [115] (USni []) = USni [115].
Proof. split; reflexivity. Qed.
