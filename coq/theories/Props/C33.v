(* C33 — hostile server input never crashes or hangs a uTLS client.
   PARTIAL by design: what is proved is the uTLS-specific code a server can drive on a client — the message-type switch with its
   two extra types, encryptedExtensionsMsg.unmarshal (+ utlsUnmarshal), utlsCompressedCertificateMsg.unmarshal, utlsReadServerParameters,
   utlsReadServerCertificate / decompressCert up to the decompressor, the HelloRetryRequest cookie insertion — with every Go
   index / slice expression an explicit possible Panic, and the size of every buffer those paths allocate.  The upstream unmarshalers
   [std], the handlers between read points [next] and the decompressors are Section variables; the record layer, timeouts and the
   decompressors' own allocations are NOT modelled: they are exercised by the mutation runs of harness/cmd/c33 on every check.
   [capped = true] is the code in /repo (declared length capped, fix of F-33 delivered with C21). *)
From UV Require Import Base.Common Model.RobustSrv Model.Robust Proofs.RobustSrvP Proofs.RobustP.
Open Scope N_scope.

(* the parsers reachable on a client return true or false on ALL byte strings: no panic, and the extension loop ends *)
Theorem C33_ee_unmarshal_no_panic : forall data, exists r, ee_unmarshal data = Ok r.
Proof.
  intros data. unfold ee_unmarshal. destruct (cb_skip_total 4 data) as ([s|] & ->); cbn [bind]; [|eauto].
  destruct (cb_lp_total 2 s) as ([[exts rest]|] & -> & _); cbn [bind]; [|eauto].
  destruct (negb (is_empty rest)); [eauto|]. apply ee_loop_total. lia.
Qed.
Print Assumptions C33_ee_unmarshal_no_panic.
Theorem C33_compressed_cert_unmarshal_no_panic : forall data, exists r, cc_unmarshal data = Ok r.
Proof. exact cc_unmarshal_total. Qed.
Print Assumptions C33_compressed_cert_unmarshal_no_panic.
(* readServerParameters + utlsReadServerParameters on any EncryptedExtensions bytes: a state or an alert *)
Theorem C33_read_server_parameters_no_panic : forall fixed c data p, client_read_ee fixed c data <> Panic p.
Proof.
  intros fixed c data p. unfold client_read_ee. destruct (C33_ee_unmarshal_no_panic data) as ([m|] & ->); cbn [bind]; [|discriminate].
  unfold read_server_parameters, utls_read_server_parameters.
  destruct (negb _); [discriminate|].
  destruct (negb (ee_cp m =? 0)); cbn [bind].
  - destruct (cl_vers c <? V13); [discriminate|]. destruct (is_empty (ee_alpn m)); [discriminate|].
    destruct (lookup _ _); cbn [bind]; destruct (ee_quic m); try discriminate; destruct (ee_early m); discriminate.
  - destruct (ee_quic m); try discriminate; destruct (ee_early m); discriminate.
Qed.
Print Assumptions C33_read_server_parameters_no_panic.
(* readHandshake on a client, whatever the buffer holds and whatever the standard unmarshalers answer *)
Theorem C33_client_read_handshake_no_panic : forall std haveVers vers hand, exists o, client_read_handshake std haveVers vers hand = Ok o.
Proof. intros. apply read_handshake_total. Qed.
Print Assumptions C33_client_read_handshake_no_panic.

(* one message at any read point: for byte-valued input the step is NeedMore, an alert, an
   accepted message whose buffers are at most maxHandshakeCertificateMsg + 4 bytes each (on the capped code), or decompressCert's error *)
Theorem C33_client_step_no_panic : forall std capped advertised exts_is_cc open_ok rp haveVers vers hand, bytes_ok hand ->
  (exists s, client_step std capped advertised exts_is_cc open_ok rp haveVers vers hand = Ok s /\ step_bound capped s) \/
  (exists a, client_step std capped advertised exts_is_cc open_ok rp haveVers vers hand = Err a).
Proof.
  intros std capped advertised exts_is_cc open_ok rp hv vers hand Hb. unfold client_step.
  destruct (read_handshake_spec (client_std std) true hv vers hand) as (o & Eo & Ho).
  unfold client_read_handshake. rewrite Eo. cbn [bind].
  destruct o as [| a | t data]; [left; eexists; split; [reflexivity|exact I]..|].
  destruct Ho as (_ & k & _ & _ & Hk & Hlen).
  assert (Hd : bytes_ok data) by (subst data; apply Forall_firstn; exact Hb).
  destruct (negb (cdispatch rp _ t)); [left; eexists; split; [reflexivity|exact I]|].
  destruct (gotype_eqb t T_utlsCompressedCertificate); [|left; eexists; split; [reflexivity|intros _; exact Hlen]].
  destruct (cc_unmarshal_total data) as (m & Em). rewrite Em. cbn [bind].
  assert (Hm : forall c, m = Some c -> cc_uncompressedLength c < 16777216).
  { intros c ->. exact (cc_unmarshal_ulen data c Hd Em). }
  destruct (utls_read_server_certificate_spec capped exts_is_cc advertised
              (match m with Some c => open_ok (cc_algorithm c) (cc_data c) | None => false end) m Hm)
    as [(a & E)|[E|(c & Hc & E & Hcap)]]; rewrite E; cbn [bind].
  - right. eauto.
  - left. eexists. split; [reflexivity|]. cbn [step_bound]. intros _. lia.
  - left. eexists. split; [reflexivity|]. cbn [step_bound]. intros Hcp. specialize (Hcap Hcp). lia.
Qed.
Print Assumptions C33_client_step_no_panic.

(* a whole server flight: the driver is a structurally recursive consumer
   of the finite message list; it never panics, and on the capped code no buffer exceeds maxHandshakeCertificateMsg + 4 *)
Theorem C33_client_run_no_panic_alloc_bounded : forall std capped advertised exts_is_cc open_ok next msgs rp haveVers vers m0,
  Forall bytes_ok msgs ->
  (exists alerts m, run std capped advertised exts_is_cc open_ok next rp haveVers vers msgs m0 = Ok (alerts, m) /\
      (capped = true -> m <= N.max m0 (maxHandshakeCertificateMsg + 4))) \/
  (exists a, run std capped advertised exts_is_cc open_ok next rp haveVers vers msgs m0 = Err a).
Proof.
  intros std capped advertised exts_is_cc open_ok next. induction msgs as [|hand rest IH]; intros rp hv vers m0 Hall; cbn [run].
  - left. exists [], m0. split; [reflexivity|]. intros _. lia.
  - inversion Hall as [|? ? Hh Hrest]; subst.
    destruct (C33_client_step_no_panic std capped advertised exts_is_cc open_ok rp hv vers hand Hh) as [(s & -> & Hs)|(a & ->)];
      cbn [bind]; [|right; eauto].
    destruct s as [| a | t k].
    + left. exists [], m0. split; [reflexivity|]. intros _. lia.
    + left. exists [a], m0. split; [reflexivity|]. intros _. lia.
    + cbn [step_bound] in Hs. destruct (next rp t hand) as [rp'|].
      * destruct (IH rp' true vers (N.max m0 k) Hrest) as [(al & m & -> & Hm)|(a & ->)]; [|right; eauto].
        left. exists al, m. split; [reflexivity|]. intros Hc. specialize (Hm Hc). specialize (Hs Hc). lia.
      * left. eexists [], _. split; [reflexivity|]. intros Hc. specialize (Hs Hc). lia.
Qed.
Print Assumptions C33_client_run_no_panic_alloc_bounded.

(* decompressCert: refused, or exactly declared + 4 bytes, and then declared <= maxHandshakeCertificateMsg when capped *)
Theorem C33_decompress_alloc : forall capped adv alg ulen open_ok, ulen < 16777216 ->
  decompress_alloc capped adv alg ulen open_ok = Err a_bad_certificate \/
  (decompress_alloc capped adv alg ulen open_ok = Ok (ulen + 4) /\ (capped = true -> ulen <= maxHandshakeCertificateMsg)).
Proof. exact decompress_alloc_spec. Qed.
Print Assumptions C33_decompress_alloc.

(* F-33: the full statement for the code as found (no cap) is false *)
Definition C33_alloc_bounded_v0_full : Prop := forall std advertised exts_is_cc open_ok rp haveVers vers hand t k,
  bytes_ok hand -> client_step std false advertised exts_is_cc open_ok rp haveVers vers hand = Ok (CAccept t k) ->
  k <= maxHandshakeCertificateMsg + 4.
Theorem C33_alloc_bounded_v0_refuted : ~ C33_alloc_bounded_v0_full.
Proof.
  intros H. destruct f33_witness as [E _].
  specialize (H _ _ _ _ _ _ _ f33_msg _ _ ltac:(repeat constructor) E). vm_compute in H. apply H. reflexivity.
Qed.
Print Assumptions C33_alloc_bounded_v0_refuted.

(* the HelloRetryRequest cookie insertion: for EVERY extension list and every random draw the slice surgery is in bounds;
   the only error is the empty list *)
Theorem C33_hrr_cookie_no_panic : forall exts r,
  (exists l, insert_cookie exts r = Ok l /\ (length l = length exts \/ length l = S (length exts)) /\ In XCookie l) \/
  (insert_cookie exts r = Err E_HRR_COOKIE_INDEX /\ exts = []).
Proof. exact insert_cookie_no_panic. Qed.
Print Assumptions C33_hrr_cookie_no_panic.
Theorem C33_hrr_section_no_panic : forall is_golang psk exts cookie_len r p, hrr_utls_section is_golang psk exts cookie_len r <> Panic p.
Proof.
  intros g psk exts clen r p. unfold hrr_utls_section. destruct g; [discriminate|]. destruct (0 <? psk)%nat; [discriminate|].
  destruct (negb _); [discriminate|]. destruct (0 <? clen)%nat; [|discriminate].
  destruct (insert_cookie_no_panic exts r) as [(l & -> & _)|[-> _]]; discriminate.
Qed.
Print Assumptions C33_hrr_section_no_panic.

(* whatever a compressed stream inflates to, decompressCert asks the decompressor for at most declared + 1 bytes
   (io.ReadFull into the pre-sized buffer, then the one-byte probe): a decompression bomb is never materialised *)
Theorem C33_decompress_pulled_bound : forall adv alg ulen open_ok, ulen < 16777216 ->
  decompress_pulled_max true adv alg ulen open_ok <= maxHandshakeCertificateMsg + 1.
Proof.
  intros adv alg ulen open_ok H. unfold decompress_pulled_max.
  destruct (decompress_alloc_spec true adv alg ulen open_ok H) as [-> | [-> Hc]]; [unfold maxHandshakeCertificateMsg; lia|].
  specialize (Hc eq_refl). cbn [decompress_read_buffers fold_right]. lia.
Qed.
Print Assumptions C33_decompress_pulled_bound.

(* establishHandshakeKeys: for every group and every server share length the slice expressions are in bounds *)
Theorem C33_key_share_slices_no_panic : forall group data p, establish_share_slices group data <> Panic p.
Proof.
  intros group data p. unfold establish_share_slices, hybrid_share_len.
  destruct (N.eqb_spec group X25519MLKEM768) as [->|_]; [change (X25519MLKEM768 =? X25519Kyber768Draft00) with false|
    destruct (group =? X25519Kyber768Draft00); [|discriminate]]; cbn [bind].
  - destruct (Nat.eqb_spec (length data) 1120) as [L|]; cbn [negb bind]; [|discriminate].
    destruct (slice_ok data 1088) as [-> ->]; [lia|]. discriminate.
  - destruct (Nat.eqb_spec (length data) 1120) as [L|]; cbn [negb bind]; [|discriminate].
    destruct (slice_ok data 32) as [-> ->]; [lia|]. discriminate.
Qed.
Print Assumptions C33_key_share_slices_no_panic.

(* Read holds the input lock while it handles HelloRequests; handleRenegotiation takes only handshakeMutex: however many
   HelloRequests arrive, the goroutine never waits for a lock it holds itself *)
Theorem C33_read_no_self_deadlock : forall n, lock_run [] (ops_read n) = Ok [].
Proof. intros n. unfold ops_read. cbn [app lock_run existsb]. rewrite lock_run_reneg. reflexivity. Qed.
Print Assumptions C33_read_no_self_deadlock.
(* the same for any mix of HelloRequests, KeyUpdate(update_requested) whose reply can or cannot be written, and unexpected messages
   answered with an alert: the reply path holds c.out only while writing and never sends an alert under it *)
Theorem C33_read_events_no_self_deadlock : forall evs, lock_run [] (ops_read_events evs) = Ok [].
Proof. intros evs. unfold ops_read_events. cbn [app lock_run existsb]. rewrite lock_run_events. reflexivity. Qed.
Print Assumptions C33_read_events_no_self_deadlock.
Example C33_ex_alert_under_out_lock_deadlocks : lock_run [] ([Acq L_in; Acq L_out] ++ ops_send_alert ++ [Rel L_out; Rel L_in]) = Err E_SELF_DEADLOCK.
Proof. vm_compute. reflexivity. Qed.
(* ... whereas delegating to Handshake() from inside Read would *)
Example C33_ex_reneg_via_handshake_deadlocks : lock_run [] ([Acq L_in] ++ ops_handshake_context ++ [Rel L_in]) = Err E_SELF_DEADLOCK.
Proof. vm_compute. reflexivity. Qed.
Example C33_ex_kyber_short_share : establish_share_slices X25519Kyber768Draft00 [1; 2; 3] = Err a_illegal_parameter.
Proof. vm_compute. reflexivity. Qed.

(* an empty certificate_list is refused with decode_error before certs[0] is touched, whether the Certificate message came off the
   wire or out of a (perfectly well-formed) CompressedCertificate *)
Theorem C33_cert_checks_no_panic : forall from_compressed ncerts p, cert_checks from_compressed ncerts <> Panic p.
Proof. intros fc n p. unfold cert_checks. destruct n as [|n]; cbn; discriminate. Qed.
Print Assumptions C33_cert_checks_no_panic.
Theorem C33_empty_certificate_list_refused : forall from_compressed, cert_checks from_compressed 0 = Err a_decode_error.
Proof. reflexivity. Qed.
Print Assumptions C33_empty_certificate_list_refused.

(* the two uTLS message types are accepted only where they belong *)
Theorem C33_ee_only_at_ee : forall rp cc, cdispatch rp cc T_encryptedExtensions = true -> rp = CRP_EncryptedExtensions.
Proof. intros rp cc. destruct rp, cc; cbn; intros H; try discriminate; reflexivity. Qed.
Print Assumptions C33_ee_only_at_ee.
Theorem C33_ccert_only_at_cert : forall rp cc, cdispatch rp cc T_utlsCompressedCertificate = true ->
  cc = true /\ (rp = CRP_CertificateOrRequest13 \/ rp = CRP_Certificate13).
Proof. intros rp cc. destruct rp, cc; cbn; intros H; try discriminate; auto. Qed.
Print Assumptions C33_ccert_only_at_cert.

Example C33_ex_f33_capped :
  client_step (fun _ _ => true) true [2] [true] (fun _ _ => true) CRP_CertificateOrRequest13 true 772 f33_msg = Err a_bad_certificate.
Proof. vm_compute. reflexivity. Qed.
Example C33_ex_ccert_accepted :
  client_step (fun _ _ => true) true [2] [false; true] (fun _ _ => true) CRP_CertificateOrRequest13 true 772 [25; 0; 0; 9; 0; 2; 0; 1; 0; 0; 0; 1; 6]
  = Ok (CAccept T_utlsCompressedCertificate 260).
Proof. vm_compute. reflexivity. Qed.
Example C33_ex_ccert_not_offered :
  client_step (fun _ _ => true) true [] [false] (fun _ _ => true) CRP_CertificateOrRequest13 true 772 [25; 0; 0; 9; 0; 2; 0; 1; 0; 0; 0; 1; 6]
  = Ok (CAlert alert_unexpected_message).
Proof. vm_compute. reflexivity. Qed.
Example C33_ex_ee_garbage : client_step (fun _ _ => true) true [] [] (fun _ _ => true) CRP_EncryptedExtensions true 772 [8; 0; 0; 3; 0; 5; 1]
  = Ok (CAlert alert_unexpected_message).
Proof. vm_compute. reflexivity. Qed.
Example C33_ex_cookie_short_lists :
  insert_cookie [XKeyShare] 7 = Ok [XCookie; XKeyShare] /\ insert_cookie [XKeyShare; XOther] 7 = Ok [XCookie; XKeyShare; XOther] /\
  insert_cookie [XKeyShare; XOther; XOther; XOther; XOther] 8 = Ok [XKeyShare; XOther; XCookie; XOther; XOther; XOther].
Proof. repeat split; vm_compute; reflexivity. Qed.
Example C33_ex_run : run (fun _ _ => true) true [2] [true] (fun _ _ => true)
    (fun rp _ _ => match rp with CRP_EncryptedExtensions => Some CRP_CertificateOrRequest13 | _ => None end)
    CRP_EncryptedExtensions true 772 [[8; 0; 0; 2; 0; 0]; f33_msg] 0 = Err a_bad_certificate.
Proof. vm_compute. reflexivity. Qed.
