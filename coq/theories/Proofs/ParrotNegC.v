(* C10 and C18 over a ClientHelloSpec, with NO premise on a model's output: when ApplyPreset's output is inside C02's
   precondition, view = wire (ComposeP); the consulted lists are the spec's with the GREASE slots filled (ParrotNegP) and
   the retained keys have the static shape (ParrotNegS), so the three static conditions on the spec give c10_cond. *)
From UV Require Import Base.Common Model.Wire Model.Ext Model.ExtSpec Model.Strict.
From UV Require Import Model.Marshal Model.ChMarshal Model.WriteToUConn Proofs.ComposeP.
From UV Require Model.Grease Model.Negotiate Model.KeyShare Model.Complete Model.ParrotSpec Model.Shuffle Gen.Parrots.
From UV Require Proofs.NegotiateP Proofs.CompleteP Proofs.KeyShareP Proofs.ComposeW.
From UV Require Import Model.Preset Model.PresetOk Model.ParrotNeg Proofs.PresetOkP Proofs.PresetOkS Proofs.PresetOkC.
From UV Require Import Proofs.ParrotNegP Proofs.ParrotNegS.

(* no session in play: the pre_shared_key extension of the spec serialises nothing *)
Definition psk_quiet1 (s : sext) : bool :=
  match s with
  | SExt (EUtlsPreSharedKey se cl _ ids bs) => ext_absent (EUtlsPreSharedKey se cl true ids bs)
  | SExt (EFakePreSharedKey _ ids bs) => ext_absent (EFakePreSharedKey true ids bs)
  | _ => true
  end.
Definition psk_quiet (sp : spec) : bool := forallb psk_quiet1 (sp_exts sp).

Theorem parrots_psk_quiet : forallb (fun p => psk_quiet (p_spec p)) Parrots.all = true.
Proof. vm_compute. reflexivity. Qed.

Lemma erel_psk_absent sd c s e : erel sd c s e -> psk_quiet1 s = true -> is_psk_ext e = true -> ext_absent e = true.
Proof.
  intros H Hq Hp. destruct s as [e0|su ci en pl].
  - destruct e0; cbn [erel] in H; try (subst e; discriminate).
    + destruct H as (cs' & _ & ->). discriminate.
    + destruct H as (x & b & ->). discriminate.
    + destruct H as (k1 & k2 & k3 & _ & ->). discriminate.
    + destruct H as (vs' & _ & ->). discriminate.
    + subst e. cbn [psk_quiet1 ext_absent] in *. exact Hq.
    + subst e. cbn [psk_quiet1 ext_absent] in *. exact Hq.
  - cbn [erel] in H. destruct H as (d & Hd). destruct (ech_init_form _ _ _ _ _ _ Hd) as (a & b & c' & x & y & ->). discriminate.
Qed.

Lemma psk_sent_quiet sd c ss es : Forall2 (erel sd c) ss es -> forallb psk_quiet1 ss = true -> psk_sent es = 0.
Proof.
  intros H Hq. unfold psk_sent. destruct (find is_psk_ext es) as [e|] eqn:Ef; [|reflexivity].
  apply find_some in Ef. destruct Ef as [Hin Hp].
  assert (Ha : ext_absent e = true).
  { clear - H Hq Hin Hp. induction H as [|s e' ss es Hse _ IH]; [destruct Hin|]. cbn [forallb] in Hq. apply andb_true_iff in Hq. destruct Hq as [Q1 Q2].
    destruct Hin as [->|Hin]; [exact (erel_psk_absent _ _ _ _ Hse Q1 Hp) | exact (IH Q2 Hin)]. }
  destruct e; try discriminate; rewrite Ha; reflexivity.
Qed.

(* a compliant server asks, in a HelloRetryRequest, only for a listed group without share: never a hybrid one when every listed
   hybrid group comes with its share *)
Lemma compliant_no_hybrid_hrr e m w fl :
  Complete.compliant e m w fl = true -> hybrids_shared (Negotiate.w_groups w) (Negotiate.w_shares w) = true ->
  Complete.hrr_to_hybrid fl = false.
Proof.
  intros Hc Hh. unfold Complete.hrr_to_hybrid. destruct (Negotiate.f_hrr fl) as [h|] eqn:Eh; [|reflexivity].
  unfold Complete.compliant in Hc. rewrite Eh in Hc. cbv iota beta in Hc. destruct (Negotiate.h_sv h =? 0).
  - unfold Complete.compliant12 in Hc. rewrite Eh in Hc. cbn [Complete.is_none andb] in Hc. discriminate.
  - pose proof (CompleteP.c_hrr _ _ (CompleteP.compliant13_inv _ _ Hc)) as Hr. rewrite Eh in Hr.
    destruct Hr as (_ & _ & _ & _ & [(_ & Hg & Hns & _)|(Hz & _)]); [|rewrite Hz; reflexivity].
    destruct (Negotiate.hybrid (Negotiate.h_selgroup h)) eqn:Ey; [|reflexivity].
    unfold hybrids_shared in Hh. rewrite forallb_forall in Hh. apply NegotiateP.memN_In in Hg. specialize (Hh _ Hg).
    rewrite Ey, Hns in Hh. discriminate.
Qed.

(* C10 for ANY spec satisfying the three static conditions whose ApplyPreset output is inside C02's precondition,
   no session offered: c10_cond holds, so (CompleteP.c10_holds_if) the client completes on every compliant flight *)
Section Spec.
  Variables (sp : spec) (c : cfg) (fr : fresh) (h : hello_hdr) (es : list ext).
  Hypothesis Hn : neg_static sp = true.
  Hypothesis Hhy : hybrid_static sp = true.
  Hypothesis Hq : psk_quiet sp = true.
  Hypothesis Ha : apply_preset sp c fr = Ok (h, es).
  Hypothesis Hwf : wf_specb h es = true.
  Hypothesis Hty : forallb typed_ext es = true.
  Variables (mn mx : N) (env : wenv) (bbs : N -> N) (padto : Z) (raw : bytes) (s' : uconn_state).
  Hypothesis Hv : set_tls_vers sp = Ok (mn, mx).
  Hypothesis Hcache : we_cache_session env = false.
  Hypothesis Hm : marshal_hello bbs padto h es = Ok raw.
  Hypothesis Hcfg : apply_config env (marshal_hello bbs padto h es) (ComposeW.preset_state h mn mx) es = Ok s'.

  (* the keys ApplyPreset retains for this share list (any crypto instance: ParrotNegS.retained_shape) *)
  Let ks := static_shape (lastS s_shares (sp_exts sp) []).
  Let v := view_of (finish false es s') es (KeyShare.sh_ecdhe ks) (KeyShare.sh_mlkem ks) 0.

  Lemma spec_c10_cond : exists w, wire_of raw = Some w /\
    forall fl, Complete.compliant Negotiate.env_fixed mn w fl = true ->
               Complete.c10_cond true Negotiate.env_fixed v ks mn w fl = true.
  Proof.
    destruct (apply_preset_inv _ _ _ _ _ Ha) as (_ & _ & sd & _ & _ & _ & _ & Hcomp & _ & _ & _ & _ & Hrel).
    assert (Hpsk : psk_agree (finish false es s') es = true).
    { apply (ComposeW.psk_agree_no_session env _ _ es s' Hcfg Hcache); [reflexivity|]. exact (psk_sent_quiet _ _ _ _ Hrel Hq). }
    assert (Hc0 : Negotiate.memN 0 (h_comp (us_hdr (ComposeW.preset_state h mn mx))) = true) by (cbn [ComposeW.preset_state us_hdr]; rewrite Hcomp; reflexivity).
    destruct (compose_synced env bbs padto (ComposeW.preset_state h mn mx) es raw s' false (KeyShare.sh_ecdhe ks) (KeyShare.sh_mlkem ks) 0
                Hwf Hty Hm Hcfg Hc0 Hpsk) as (w & Hw & Hsyn).
    destruct (compose_versions env bbs padto (ComposeW.preset_state h mn mx) es raw s' false (KeyShare.sh_ecdhe ks) (KeyShare.sh_mlkem ks) 0
                Hwf Hty Hm Hcfg) as (w2 & Hw2 & Hleg & Hver).
    rewrite Hw in Hw2. inversion Hw2; subst w2. clear Hw2.
    fold v in Hsyn, Hver.
    destruct (view_fields _ c fr h es Ha mn mx env _ s' ks Hv Hcfg Hcache) as
      (gg & gv & Ig & Iv & Fcurves & Fshares & Fsv & Fvmin & Fvmax & Fech & Fmlkem & Fpsk & _ & Fleg & Fhas & Fsvmap).
    fold v in Fcurves, Fshares, Fsv, Fvmin, Fvmax, Fech, Fmlkem, Fpsk, Fsvmap.
    exists w. split; [exact Hw|]. intros fl Hcomp'.
    destruct (NegotiateP.synced_inv _ _ Hsyn) as (_ & S2 & S3 & _ & _ & _ & S7 & _).
    (* spec_rest: the real view and wire agree with abs_view / abs_wire on what it reads *)
    assert (Hrest : spec_rest true Negotiate.env_fixed v ks mn w = true).
    { assert (Hsw : spec_rest true Negotiate.env_fixed (abs_view sp mn mx gg gv ks) ks mn (abs_wire sp mn mx gg gv) = true).
      { unfold neg_static in Hn. rewrite Hv in Hn. rewrite !andb_true_iff in Hn. destruct Hn as [_ Hs]. fold ks in Hs.
        rewrite forallb_forall in Hs. specialize (Hs gg Ig). rewrite forallb_forall in Hs. exact (Hs gv Iv). }
      rewrite (spec_rest_ext true Negotiate.env_fixed ks mn v (abs_view sp mn mx gg gv ks) w (abs_wire sp mn mx gg gv)); [exact Hsw|..];
        unfold abs_view, abs_wire;
        cbn [Negotiate.cv_shares Negotiate.cv_vmin Negotiate.cv_vmax Negotiate.cv_ech Negotiate.cv_sv Negotiate.cv_mlkem
             Negotiate.w_has_sv Negotiate.w_sv Negotiate.w_legacy]; try assumption.
      - rewrite Fhas in Hver. destruct (opt_versions sp); [apply Hver|apply Hver].
      - intros Hhas. destruct (opt_versions sp) as [vs|] eqn:Eo; [|discriminate]. rewrite Fhas in Hver. destruct Hver as [Hh Hs].
        specialize (Hs 0). unfold Negotiate.versions_synced in Hs. rewrite Hh in Hs.
        apply andb_true_iff in Hs. destruct Hs as [Hs _]. apply NegotiateP.list_eqN_eq in Hs. rewrite <- Hs. apply Fsvmap. reflexivity.
      - rewrite Hleg. cbn [ComposeW.preset_state us_hdr]. exact Fleg. }
    (* compress_certificate: advertised on the wire only with the extension *)
    assert (Hcc : implb (negb (Complete.is_nil (Negotiate.w_ccalgs w))) (Negotiate.cv_ccext v) = true).
    { rewrite <- S7. unfold v, view_of, finish. cbn [Negotiate.cv_ccalgs Negotiate.cv_ccext].
      destruct (existsb is_ccert_ext es) eqn:Ex; [destruct (Complete.is_nil _); reflexivity|].
      destruct (apply_config_fields _ _ _ _ _ Hcfg) as ((_ & _ & _ & _ & _ & _ & _ & A4) & _). rewrite A4.
      rewrite (last_of_none get_ccalgs es); [reflexivity|]. intros e He. destruct (get_ccalgs e) eqn:Eg; [|reflexivity].
      exfalso. rewrite <- not_true_iff_false in Ex. apply Ex. apply existsb_exists. exists e. split; [exact He|]. destruct e; try discriminate. reflexivity. }
    unfold Complete.c10_cond, Complete.spec_ok. unfold spec_rest in Hrest. rewrite !andb_true_iff in Hrest.
    destruct Hrest as [[[[[R1 R2] R3] R4] R5] R6]. rewrite Hsyn, R1, R2, R3, R4, Hcc, R5, R6. cbn [andb].
    unfold Complete.psk_with_hrr. rewrite Fpsk. cbn [N.ltb N.compare andb negb].
    rewrite (compliant_no_hybrid_hrr _ _ _ _ Hcomp'); [reflexivity|].
    rewrite <- S2, <- S3, Fcurves, Fshares. unfold hybrid_static in Hhy. rewrite forallb_forall in Hhy. exact (Hhy gg Ig).
  Qed.

End Spec.

(* the retained keys of the shipped parrots (Props/C18.v, C18_parrots): every crypto instance satisfying the laws, every stream and cursor *)
Theorem parrot_keys : forall p, In p Parrots.all ->
  forall (priv dkey : Type) (rnd : N -> N) (ecdh_gen : N -> N -> priv * N) (pub : N -> priv -> bytes)
         (dh : N -> priv -> bytes -> option bytes) (kem_new : bytes -> dkey) (kem_ek : dkey -> bytes)
         (kem_decap : dkey -> bytes -> option bytes) (kem_encap : bytes -> bytes -> bytes * bytes),
  KeyShareP.laws ecdh_gen pub dh kem_ek kem_decap kem_encap ->
  forall quic gv p0 a,
  KeyShare.apply_preset priv dkey rnd ecdh_gen pub kem_new kem_ek true quic gv (kshares_of (p_spec p)) p0 = Ok a ->
  KeyShare.shape_of (KeyShare.a_keys a) = static_shape (lastS s_shares (sp_exts (p_spec p)) [])
  /\ forall i k k', nth_error (kshares_of (p_spec p)) i = Some k -> nth_error (KeyShare.a_shares a) i = Some k' ->
       KeyShare.generated k = true ->
       KeyShare.ks_group k' = KeyShare.ks_group k
       /\ KeyShare.lenN (KeyShare.ks_data k') = KeyShare.share_size (KeyShare.ks_group k')
       /\ forall b r sdata ssec,
            KeyShare.server_flight priv pub dh kem_encap (KeyShare.ks_group k') (KeyShare.ks_data k') b r = Some (sdata, ssec) ->
            KeyShare.client_secret priv dkey dh kem_decap true true (KeyShare.a_keys a) (KeyShare.ks_group k') sdata = Ok ssec.
Proof.
  intros p Hin priv dkey rnd ecdh_gen pub dh kem_new kem_ek kem_decap kem_encap L quic gv p0 a Ha.
  split.
  - rewrite (retained_shape _ _ _ _ _ _ _ _ _ _ _ _ Ha). rewrite pair_of_kshares. reflexivity.
  - intros i k k' N1 N2 Gen.
    pose proof parrots_keyshares_ok as T. rewrite forallb_forall in T. specialize (T p Hin). unfold keyshares_ok in T.
    destruct (KeyShareP.keys_retained_fixed priv dkey rnd ecdh_gen pub dh kem_new kem_ek kem_decap kem_encap L quic gv _ p0 a T Ha i k k' N1 N2 Gen) as [Hg Hs].
    split; [exact Hg|]. split; [|exact Hs].
    pose proof (KeyShareP.share_sizes priv dkey rnd ecdh_gen pub dh kem_new kem_ek kem_decap kem_encap L true quic gv _ p0 a Ha) as SZ.
    pose proof (KeyShareP.Forall2_nth_error _ _ _ SZ _ _ _ N1 N2) as Hsz. unfold KeyShareP.size_rel in Hsz.
    unfold KeyShare.generated in Gen. apply andb_true_iff in Gen. destruct Gen as [G1 G2]. apply negb_true_iff in G1, G2.
    rewrite G1, G2 in Hsz. destruct Hsz as (Z1 & Z2 & _). rewrite Hg. exact Z2.
Qed.

(* a shipped parrot through the whole chain: Firefox_120 (shares X25519, P-256), server selects the SECOND share *)
Definition ff_ech : ech_draw :=
  {| ed_cfg_idx := 0; ed_cfg_byte := 7; ed_suite_idx := 1; ed_enc := repeat 9 32; ed_plen_idx := 0; ed_payload := repeat 5 239 |}.
Definition ff_fresh : fresh :=
  {| f_random := repeat 1 32; f_grease := [16; 0; 32; 0; 48; 0; 48; 0; 64; 0]; f_sid := repeat 2 32;
     f_keys := [repeat 3 32; repeat 4 65]; f_ech := [ff_ech] |}.
Definition ff_flight (g : N) : Negotiate.flight :=
  Negotiate.mkFlight None (Negotiate.mkHello 771 772 0 (repeat 2 32) 4865 0 g 0 false None []) [104; 50] None None true.

Definition ex_firefox120 (g : N) : bool :=
  let sp := p_spec Parrots.p_Firefox_120 in
  match apply_preset sp ComposeW.ex_cfg ff_fresh, set_tls_vers sp with
  | Ok (h, es), Ok (mn, mx) =>
    match marshal_hello (fun _ => 512) 0%Z h es with
    | Ok raw =>
      match apply_config (mkEnvW false) (Ok raw) (ComposeW.preset_state h mn mx) es, wire_of raw with
      | Ok s', Some w =>
        let ks := static_shape (lastS s_shares (sp_exts sp) []) in
        let v := view_of (finish false es s') es (KeyShare.sh_ecdhe ks) (KeyShare.sh_mlkem ks) 0 in
        Complete.compliant Negotiate.env_fixed mn w (ff_flight g)
        && Complete.c10_cond true Negotiate.env_fixed v ks mn w (ff_flight g)
        && match Complete.client_run10 true Negotiate.env_fixed v ks (ff_flight g) with
           | Negotiate.Complete st => (Negotiate.cs_vers st =? 772) && (Negotiate.cs_group st =? g) && (Negotiate.cs_suite st =? 4865)
           | _ => false
           end
      | _, _ => false
      end
    | _ => false
    end
  | _, _ => false
  end.

Lemma ex_firefox120_ok : ex_firefox120 23 = true /\ ex_firefox120 29 = true
  /\ static_shape (lastS s_shares (sp_exts (p_spec Parrots.p_Firefox_120)) []) = KeyShare.mkShape 29 [23] false 0.
Proof. vm_compute. repeat split; reflexivity. Qed.
