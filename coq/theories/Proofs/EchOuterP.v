(* C15, the outer hello of Model/Ech.v. Two ideas: what extensionsList reports is a subsequence of the ids on the wire
   (list_ids_subseq: the order premise of EchP.roundtrip holds), and compute_outer's output is a frame around the ECH
   payload that depends on the inner hello only through the LENGTH of its padded encoding (compute_outer_frame). *)
From UV Require Import Base.Common Model.Ech Proofs.EchP.

Lemma reorder_subseq oe ids : subseq (reorder_ids true (Some oe) ids) oe.
Proof. cbn [reorder_ids]. apply subseq_filter. Qed.

Section OuterProofs.
  Variable hostname_in_sni : bytes -> bytes.
  Variable padf : N -> N * bool.

  Definition wire_one (U : N) (e : uext) : list ext :=
    match e with
    | UExt x => [x] | UEch x => [x] | USni n => usni_exts hostname_in_sni n
    | UKeyShare ks => [ks_ext ks] | UPad => pad_exts padf U
    end.

  Lemma wire_exts_eq h exts : wire_exts hostname_in_sni padf h exts = flat_map (wire_one (unpadded_len hostname_in_sni h exts)) exts.
  Proof. reflexivity. Qed.

  Definition uext_ok (e : uext) : Prop :=
    match e with
    | UExt x => eid x < 65536
    | UEch x => eid x = EXT_ECH
    | _ => True
    end.

  Lemma rd_u16_gext x : eid x < 65536 -> rd_u16 (gext_wire x) = Some (eid x, be16 (u16 (len (ebody x))) ++ ebody x).
  Proof. intros H. unfold gext_wire. apply rd_u16_be16. exact H. Qed.

  (* one spec extension: what extensionsList reports for it, filtered by a predicate that rejects 0 and 21,
     is a subsequence of the ids it puts on the wire *)
  Lemma list_id_one (P : N -> bool) pad_on U e e1 :
    P 0 = false -> P EXT_PADDING = false -> uext_ok e ->
    (e1 = e \/ exists old new, e = UEch old /\ e1 = UExt new /\ eid new = EXT_ECH) ->
    subseq (filter P [ext_list_id hostname_in_sni pad_on e]) (map eid (wire_one U e1)).
  Proof.
    intros P0 P21 Hok Hrel.
    assert (Hz : forall l, subseq (filter P [0]) l) by (intros l; cbn [filter]; rewrite P0; apply ss_nil).
    assert (Hg : forall x, eid x < 65536 ->
              subseq (filter P [let w := gext_wire x in
                                if (len w =? 0) || (2000 <? len w) then 0
                                else match rd_u16 w with Some (id, _) => id | None => 0 end]) [eid x]).
    { intros x Hx. cbv zeta. destruct ((len (gext_wire x) =? 0) || (2000 <? len (gext_wire x))); [apply Hz|].
      rewrite rd_u16_gext by exact Hx. apply subseq_filter. }
    destruct Hrel as [-> | (old & new & -> & -> & Hnew)].
    - destruct e as [x | n | x | | ks]; cbn [uext_ok] in Hok; cbn [wire_one map].
      + apply Hg. exact Hok.
      + (* server_name: id 0 either way *)
        unfold ext_list_id, uext_wire, usni_wire. destruct (len (hostname_in_sni n) =? 0).
        * cbn [len length N.of_nat N.eqb orb]. apply Hz.
        * match goal with |- context [if ?c then 0 else _] => destruct c end; [apply Hz|].
          rewrite rd_u16_be16 by (unfold EXT_SNI; lia). apply Hz.
      + apply Hg. rewrite Hok. unfold EXT_ECH. lia.
      + unfold ext_list_id. destruct pad_on; [cbn [filter]; rewrite P21; apply ss_nil | apply Hz].
      + apply (Hg (ks_ext ks)). cbn [eid ks_ext]. unfold EXT_KEY_SHARE. lia.
    - cbn [uext_ok] in Hok. cbn [wire_one map]. rewrite Hnew.
      unfold ext_list_id, uext_wire.
      destruct ((len (gext_wire old) =? 0) || (2000 <? len (gext_wire old))); [apply Hz|].
      rewrite rd_u16_gext by (rewrite Hok; unfold EXT_ECH; lia). rewrite Hok. apply subseq_filter.
  Qed.

  Inductive replaced (new : ext) : list uext -> list uext -> Prop :=
  | rp_here old r : replaced new (UEch old :: r) (UExt new :: r)
  | rp_later x r r' : (forall old, x <> UEch old) -> replaced new r r' -> replaced new (x :: r) (x :: r').

  Lemma replace_first_ech_replaced exts new exts1 :
    replace_first_ech exts new = Some exts1 -> replaced new exts exts1.
  Proof.
    revert exts1. induction exts as [|x r IH]; intros exts1 H; [discriminate|].
    destruct x as [y | n | old | | ks]; cbn [replace_first_ech] in H;
      try (destruct (replace_first_ech r new) as [r'|] eqn:E; [|discriminate]; injection H as <-;
           apply rp_later; [intros old0; discriminate | apply IH; reflexivity]).
    injection H as <-. apply rp_here.
  Qed.

  Definition no_ech_slot (l : list uext) : Prop := forall x, In x l -> forall y, x <> UEch y.

  (* the slot that is replaced is the FIRST ECH slot *)
  Lemma replaced_split_first new exts exts1 : replaced new exts exts1 ->
    exists pre old post, exts = pre ++ UEch old :: post /\ exts1 = pre ++ UExt new :: post /\ no_ech_slot pre.
  Proof.
    induction 1 as [old r | x r r' Hx Hrep (pre & old & post & -> & -> & Hn)].
    - exists [], old, r. repeat split. intros z [].
    - exists (x :: pre), old, post. repeat split. intros z [<- | Hz]; [exact Hx | apply Hn; exact Hz].
  Qed.

  Lemma replaced_split new exts exts1 : replaced new exts exts1 ->
    exists pre old post, exts = pre ++ UEch old :: post /\ exts1 = pre ++ UExt new :: post.
  Proof. intros H. destruct (replaced_split_first _ _ _ H) as (pre & old & post & E1 & E2 & _). eauto. Qed.

  Lemma replace_first_ech_at pre old post e : no_ech_slot pre ->
    replace_first_ech (pre ++ UEch old :: post) e = Some (pre ++ UExt e :: post).
  Proof.
    induction pre as [|x pre IH]; intros Hn; [reflexivity|]. cbn [app replace_first_ech].
    rewrite IH by (intros z Hz; apply Hn; right; exact Hz).
    destruct x; try reflexivity. exfalso. exact (Hn _ (or_introl eq_refl) _ eq_refl).
  Qed.

  Lemma filter_app_single {A} (P : A -> bool) x l : filter P (x :: l) = filter P [x] ++ filter P l.
  Proof. cbn [filter]. destruct (P x); reflexivity. Qed.

  Lemma list_ids_same (P : N -> bool) pad_on U l :
    P 0 = false -> P EXT_PADDING = false -> Forall uext_ok l ->
    subseq (filter P (extensions_list hostname_in_sni pad_on l)) (map eid (flat_map (wire_one U) l)).
  Proof.
    intros P0 P21. induction 1 as [|e l He Hl IH]; [apply ss_nil|].
    cbn [extensions_list map flat_map]. rewrite filter_app_single, map_app.
    apply subseq_app; [apply list_id_one; auto | exact IH].
  Qed.

  Lemma list_ids_subseq (P : N -> bool) pad_on U new exts exts1 :
    P 0 = false -> P EXT_PADDING = false -> eid new = EXT_ECH ->
    Forall uext_ok exts -> replaced new exts exts1 ->
    subseq (filter P (extensions_list hostname_in_sni pad_on exts)) (map eid (flat_map (wire_one U) exts1)).
  Proof.
    intros P0 P21 Hnew Hok Hrep. destruct (replaced_split _ _ _ Hrep) as (pre & old & post & -> & ->).
    apply Forall_app in Hok. destruct Hok as [Hpre Hpost]. inversion Hpost as [|? ? Ho Hpost']; subst.
    unfold extensions_list. rewrite map_app, filter_app, flat_map_app, map_app. cbn [map flat_map].
    rewrite filter_app_single, map_app.
    apply subseq_app; [apply list_ids_same; auto|]. apply subseq_app; [|apply list_ids_same; auto].
    apply list_id_one; auto. right. eauto.
  Qed.

  Definition ech_prefix (cid kdf aead : N) (enc : bytes) (n : N) : bytes :=
    be16 EXT_ECH ++ be16 (u16 (1 + 2 + 2 + 1 + (2 + len enc) + (2 + n))) ++
    [0] ++ be16 kdf ++ be16 aead ++ [cid] ++ p16lp enc ++ be16 n.

  Lemma len_gen_outer_ech cid kdf aead enc p :
    len (gen_outer_ech cid kdf aead enc p) = 1 + 2 + 2 + 1 + (2 + len enc) + (2 + len p).
  Proof. unfold gen_outer_ech, p16lp. rewrite !len_app, !len_be16, !len_cons, len_nil. lia. Qed.

  Lemma gext_wire_ech cid kdf aead enc p :
    gext_wire (mkExt EXT_ECH (gen_outer_ech cid kdf aead enc p)) = ech_prefix cid kdf aead enc (len p) ++ p.
  Proof.
    unfold gext_wire, ech_prefix. cbn [eid ebody]. rewrite len_gen_outer_ech.
    unfold gen_outer_ech, p16lp. rewrite <- !app_assoc. reflexivity.
  Qed.

  Definition ebytes_with (U : N) (l : list uext) : bytes :=
    flat_map (fun e => if is_pad e then pad_wire padf U else uext_wire hostname_in_sni e) l.

  Definition ech_uext cid kdf aead enc p := UExt (mkExt EXT_ECH (gen_outer_ech cid kdf aead enc p)).

  Lemma sum_len_app a b : sum_len hostname_in_sni (a ++ b) = sum_len hostname_in_sni a + sum_len hostname_in_sni b.
  Proof. unfold sum_len. induction a as [|x a IH]; cbn [app fold_right]; [lia|]. rewrite IH. lia. Qed.

  (* everything marshal_outer computes from the list, as a function of the payload LENGTH only *)
  Definition frame_sum pre post cid kdf aead enc (n : N) : N :=
    sum_len hostname_in_sni pre + (len (ech_prefix cid kdf aead enc n) + n) + sum_len hostname_in_sni post.
  Definition frame_U h pre post cid kdf aead enc n : N :=
    header_length h + 4 + frame_sum pre post cid kdf aead enc n + 2.
  Definition frame_pre h pre post cid kdf aead enc n : bytes :=
    let U := frame_U h pre post cid kdf aead enc n in
    let el := len (ebytes_with U pre) + (len (ech_prefix cid kdf aead enc n) + n) + len (ebytes_with U post) in
    [1] ++ be24 (header_length h + (2 + el)) ++ be16 (uh_vers h) ++ uh_random h ++ [u8 (len (uh_sid h))] ++ uh_sid h ++
    be16 (u16 (2 * N.of_nat (length (uh_suites h)))) ++ suites_bytes (uh_suites h) ++
    [u8 (len (uh_comp h))] ++ uh_comp h ++ be16 (u16 el) ++ ebytes_with U pre ++ ech_prefix cid kdf aead enc n.
  Definition frame_post h pre post cid kdf aead enc n : bytes :=
    ebytes_with (frame_U h pre post cid kdf aead enc n) post.
  Lemma marshal_outer_frame h pre post cid kdf aead enc p out :
    marshal_outer hostname_in_sni padf h (pre ++ ech_uext cid kdf aead enc p :: post) = Ok out ->
    out = frame_pre h pre post cid kdf aead enc (len p) ++ p ++ frame_post h pre post cid kdf aead enc (len p).
  Proof.
    unfold marshal_outer. destruct (1 <? count_pad _)%nat; [discriminate|].
    assert (Hlen : (0 <? length (pre ++ ech_uext cid kdf aead enc p :: post))%nat = true).
    { rewrite app_length. cbn [length]. apply Nat.ltb_lt. lia. }
    rewrite Hlen.
    assert (HU : unpadded_len hostname_in_sni h (pre ++ ech_uext cid kdf aead enc p :: post) =
                 frame_U h pre post cid kdf aead enc (len p)).
    { unfold unpadded_len, frame_U, frame_sum. rewrite sum_len_app. unfold sum_len at 2. cbn [fold_right].
      fold (sum_len hostname_in_sni post). unfold uext_len, ech_uext, uext_wire. rewrite gext_wire_ech, len_app. lia. }
    assert (HE : exts_bytes hostname_in_sni padf h (pre ++ ech_uext cid kdf aead enc p :: post) =
                 ebytes_with (frame_U h pre post cid kdf aead enc (len p)) pre ++
                 (ech_prefix cid kdf aead enc (len p) ++ p) ++
                 ebytes_with (frame_U h pre post cid kdf aead enc (len p)) post).
    { unfold exts_bytes. rewrite HU. unfold ebytes_with. rewrite flat_map_app. cbn [flat_map is_pad ech_uext uext_wire].
      rewrite gext_wire_ech. reflexivity. }
    rewrite HE. cbv zeta. destruct (_ =? _); [|discriminate]. intros E. apply ok_inj in E. subst out.
    unfold frame_pre, frame_post. cbv zeta. rewrite !len_app, <- !app_assoc.
    set (U := frame_U h pre post cid kdf aead enc (len p)).
    set (a := len (ebytes_with U pre)). set (b := len (ech_prefix cid kdf aead enc (len p))).
    set (c := len (ebytes_with U post)).
    replace (a + (b + len p + c)) with (a + (b + len p) + c) by lia. reflexivity.
  Qed.

  Lemma ech_split_unique a : forall b a' b' (o o' : ext), no_ech_slot a -> no_ech_slot a' ->
    a ++ UEch o :: b = a' ++ UEch o' :: b' -> a' = a /\ b' = b.
  Proof.
    induction a as [|x a IH]; intros b [|y a'] b' o o' Ha Ha' E; cbn [app] in E.
    - injection E as _ ->. auto.
    - injection E as <- _. exfalso. apply (Ha' (UEch o)) with (y := o); [left|]; reflexivity.
    - injection E as -> _. exfalso. apply (Ha (UEch o')) with (y := o'); [left|]; reflexivity.
    - injection E as -> E. destruct (IH b a' b' o o') as [-> ->]; auto.
      + intros z Hz. apply Ha. right. exact Hz.
      + intros z Hz. apply Ha'. right. exact Hz.
  Qed.

  Variable seal : N -> bytes -> bytes -> bytes.
  Hypothesis seal_len : forall s a p, len (seal s a p) = len p + 16.

  (* compute_outer, opened up: the final hello is frame_pre ‖ ciphertext ‖ frame_post, the AAD is the same frame
     around zeros, and the frame depends on the inner hello only through the LENGTH of its padded encoding *)
  Theorem compute_outer_frame h exts pad_on inner cfg enc useKey seq o :
    compute_outer hostname_in_sni padf seal h exts pad_on inner cfg enc useKey seq = Ok o ->
    exists pre old post,
      exts = pre ++ UEch old :: post /\ no_ech_slot pre /\
      let encap := if useKey then enc else [] in
      let n := len (o_encoded o) + 16 in
      let F := frame_pre h pre post (c_id cfg) (c_kdf cfg) (c_aead cfg) encap n in
      let G := frame_post h pre post (c_id cfg) (c_kdf cfg) (c_aead cfg) encap n in
      encode_inner inner (c_maxname cfg) (Some (extensions_list hostname_in_sni pad_on exts)) = Ok (o_encoded o) /\
      o_aad o = skipn 4 (F ++ zeros (N.to_nat n) ++ G) /\
      o_raw o = F ++ seal seq (o_aad o) (o_encoded o) ++ G.
  Proof.
    unfold compute_outer. intros H.
    destruct (encode_inner inner (c_maxname cfg) (Some (extensions_list hostname_in_sni pad_on exts))) as [encoded| |] eqn:Eenc;
      cbn [bind] in H; try discriminate.
    set (encap := if useKey then enc else []) in *.
    set (nz := N.to_nat (len encoded + 16)) in *.
    destruct (negb (fits16 encap && fits16 (zeros nz))); [discriminate|].
    destruct (replace_first_ech exts (mkExt EXT_ECH (gen_outer_ech (c_id cfg) (c_kdf cfg) (c_aead cfg) encap (zeros nz))))
      as [exts1|] eqn:R1; [|discriminate].
    destruct (replaced_split_first _ _ _ (replace_first_ech_replaced _ _ _ R1)) as (pre & old & post & Hex & -> & Hns).
    fold (ech_uext (c_id cfg) (c_kdf cfg) (c_aead cfg) encap (zeros nz)) in H.
    destruct (marshal_outer _ _ _ _) as [raw1| |] eqn:M1; cbn [bind] in H; try discriminate.
    apply marshal_outer_frame in M1.
    replace (len (zeros nz)) with (len encoded + 16) in M1 by (rewrite len_zeros; unfold nz; lia).
    destruct (negb (fits16 (seal seq (skipn 4 raw1) encoded))); [discriminate|].
    rewrite Hex, (replace_first_ech_at _ old post _ Hns) in H.
    fold (ech_uext (c_id cfg) (c_kdf cfg) (c_aead cfg) encap (seal seq (skipn 4 raw1) encoded)) in H.
    destruct (marshal_outer _ _ _ _) as [raw2| |] eqn:M2; cbn [bind] in H; try discriminate.
    apply marshal_outer_frame in M2. rewrite seal_len in M2.
    apply ok_inj in H. subst o raw2 raw1. cbn [o_encoded o_aad o_raw].
    exists pre, old, post. split; [exact Hex|]. split; [exact Hns|]. cbv zeta.
    split; [reflexivity|]. split; reflexivity.
  Qed.

End OuterProofs.

Lemma apply_preset_sni_public pn sn e n : apply_preset_sni (Some pn) sn e = USni n -> n = pn.
Proof. destruct e; cbn [apply_preset_sni]; intros H; try discriminate. injection H. auto. Qed.

Lemma set_item_find e k items : eid e = EXT_KEY_SHARE ->
  find_ext EXT_KEY_SHARE (map it_ext (set_item e k items)) = Some e.
Proof.
  intros He. induction items as [|it r IH]; cbn [set_item map find_ext it_ext].
  - rewrite He, N.eqb_refl. reflexivity.
  - destruct (eid (it_ext it) =? eid e) eqn:E1.
    + cbn [map find_ext it_ext]. rewrite He, N.eqb_refl. reflexivity.
    + destruct (eid (it_ext it) =? 45) eqn:E2.
      * cbn [map find_ext it_ext]. rewrite He, N.eqb_refl. reflexivity.
      * cbn [map find_ext it_ext]. rewrite He in E1. rewrite E1. exact IH.
Qed.

Lemma set_keyshare_exts_all ks exts ks' : In (UKeyShare ks') (set_keyshare_exts ks exts) -> ks' = ks.
Proof.
  unfold set_keyshare_exts. rewrite in_map_iff. intros (x & Hx & _).
  destruct x; try discriminate. injection Hx. auto.
Qed.

Lemma set_keyshare_exts_some ks exts : has_keyshare_ext exts = true -> In (UKeyShare ks) (set_keyshare_exts ks exts).
Proof.
  unfold has_keyshare_ext, set_keyshare_exts. rewrite existsb_exists. intros (x & Hx & Hk).
  destruct x; try discriminate. apply in_map_iff. eexists. split; [|exact Hx]. reflexivity.
Qed.

(* ech_hrr: after a HelloRetryRequest selecting `group`, the inner hello and every KeyShareExtension of the
   outer hello carry exactly the one fresh share for that group *)
Theorem hrr_one_share group pub st st' :
  hrr_update group pub st = Ok st' ->
  hs_outer_ks st' = [(group, pub)] /\
  find_ext EXT_KEY_SHARE (map it_ext (ch_items (hs_inner st'))) = Some (ks_ext [(group, pub)]) /\
  In (UKeyShare [(group, pub)]) (hs_exts st') /\
  (forall ks, In (UKeyShare ks) (hs_exts st') -> ks = [(group, pub)]).
Proof.
  unfold hrr_update. destruct (has_keyshare_ext (hs_exts st)) eqn:E; cbn [negb]; [|discriminate].
  intros H. apply ok_inj in H. subst st'. cbn [hs_outer_ks hs_inner hs_exts set_inner_keyshares ch_items].
  repeat split.
  - apply set_item_find. reflexivity.
  - apply set_keyshare_exts_some. exact E.
  - intros ks. apply set_keyshare_exts_all.
Qed.

(* ... so the compressed key_share of the inner hello expands to its own value: the outer agrees with the inner *)
Corollary hrr_outer_agrees hostname padf group pub st st' U x :
  hrr_update group pub st = Ok st' ->
  (exists ks, In (UKeyShare ks) (hs_exts st') /\ In x (wire_one hostname padf U (UKeyShare ks))) ->
  x = ks_ext [(group, pub)].
Proof.
  intros H (ks & Hk & Hx). destruct (hrr_one_share _ _ _ _ H) as (_ & _ & _ & Hall).
  rewrite (Hall ks Hk) in Hx. cbn [wire_one In] in Hx. destruct Hx as [<- | []]. reflexivity.
Qed.

(* regression: the unfixed uTLS section (stale outer shares) violates the statement — F-15 *)
Definition f15_witness : hrr_state :=
  mkHrr [(29, [1]); (23, [2])]
        (mkHello 771 (zeros 32) [] [4865] [0] [115] [mkItem (ks_ext [(29, [1]); (23, [2])]) KComp] None)
        [UExt (mkExt 10 [0; 2; 0; 24]); UKeyShare [(29, [1]); (23, [2])]].

Lemma hrr_prefix_refuted :
  exists st', hrr_update_prefix 24 [7] f15_witness = Ok st' /\
              ~ (forall ks, In (UKeyShare ks) (hs_exts st') -> ks = [(24, [7])]).
Proof.
  eexists. split; [reflexivity|]. intros H.
  specialize (H [(29, [1]); (23, [2])]). cbn in H. assert (E : [(29, [1]); (23, [2])] = [(24, [7])]) by (apply H; auto).
  discriminate.
Qed.

Definition retry_of (v : client_view) : bytes := match v_ee_retry_configs v with Some r => r | None => [] end.

(* ech.go:226-231 as written: the result is in [0,31] and (hlen + p + result) is a multiple of 32, where p is the
   name padding that is computed but NOT appended; so the encoded length is hlen + result. *)
Lemma padding_len_mod hlen name_len maxn :
  (0 < hlen)%Z -> (0 <= maxn)%Z ->
  let p := if (name_len =? 0)%Z then (maxn + 9)%Z else Z.max 0 (maxn - name_len) in
  (0 <= p)%Z /\ padding_len hlen name_len maxn = (31 - (hlen + p - 1) mod 32)%Z.
Proof.
  intros H1 H3 p. assert (0 <= p)%Z by (unfold p; destruct (name_len =? 0)%Z; lia).
  split; [assumption|]. unfold padding_len. fold p. rewrite Z.rem_mod_nonneg by lia. reflexivity.
Qed.

Lemma padding_len_range hlen name_len maxn :
  (0 < hlen)%Z -> (0 <= name_len)%Z -> (0 <= maxn)%Z ->
  (0 <= padding_len hlen name_len maxn <= 31)%Z.
Proof.
  intros H1 _ H3. destruct (padding_len_mod hlen name_len maxn H1 H3) as [_ ->].
  match goal with |- context [(?a mod 32)%Z] => pose proof (Z.mod_pos_bound a 32) end. lia.
Qed.

Lemma padding_len_multiple hlen name_len maxn :
  (0 < hlen)%Z -> (0 <= name_len)%Z -> (0 <= maxn)%Z ->
  let p := if (name_len =? 0)%Z then (maxn + 9)%Z else Z.max 0 (maxn - name_len) in
  ((hlen + p + padding_len hlen name_len maxn) mod 32 = 0)%Z.
Proof.
  intros H1 _ H3 p. destruct (padding_len_mod hlen name_len maxn H1 H3) as [Hp ->]. fold p in Hp |- *.
  pose proof (Z.div_mod (hlen + p - 1) 32 ltac:(lia)) as D.
  replace (hlen + p + (31 - (hlen + p - 1) mod 32))%Z with (32 * ((hlen + p - 1) / 32 + 1))%Z by lia.
  rewrite Z.mul_comm. apply Z.mod_mul. lia.
Qed.

Definition server_answer (keys : list ech_key) (c : bytes) : bool * option bytes :=
  (server_accepts keys c, if server_accepts keys c then None else retry_list keys).

Theorem server_rejects_unknown keys c : (forall k, In k keys -> fst k <> c) -> server_accepts keys c = false.
Proof.
  intros H. unfold server_accepts.
  destruct (existsb (fun k => bytes_eqb (fst k) c) keys) eqn:E; [|reflexivity].
  apply existsb_exists in E. destruct E as (k & Hk & E). apply bytes_eqb_eq in E. exfalso. exact (H k Hk E).
Qed.

