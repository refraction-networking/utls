(* C23 — QUIC clients complete the handshake through the event API and never hang.

   Model/Quic.v is a transition system of the API caller and the handshake goroutine over the channels
   blockedc / signalc / cancelc. The goroutine's work is an arbitrary script (any number of waits, any events,
   success or failure, for BuildHandshakeState and for the handshake itself), so the statements below hold for
   every interleaving and every such script.

   STATE OF THE MODEL: [init true ...] is the code after fixes/C23-quic-build-error-closes-channels.diff (the early
   return of UConn.handshakeContext closes the QUIC channels); [init false ...] is the code as found. The
   property holds for the former (C23_progress) and is refuted for the latter (C23_progress_as_found_refuted,
   defect F-23), with the strongest condition under which the code as found is safe (C23_progress_as_found_holds_if).

   Caller discipline built into the model (step: LHandleData, LSetTP): HandleData, and SetTransportParameters
   after Start, are only called on a connection whose Start got past the MinVersion check. Outside it both
   block forever, in upstream crypto/tls as well (C23_ex_misuse_blocks); that is API misuse, not part of the property. *)
From UV Require Import Base.Common Model.Quic Proofs.QuicP Proofs.QuicEvP.

(* Start, HandleData, SetTransportParameters and Close never hang: in every reachable state in which the caller
   is inside an API call, some step other than a new call or a cancellation is enabled ... *)
Theorem C23_progress : forall mv tp b bok h hok s,
  reach (init true mv tp b bok h hok) s -> stuck s = false.
Proof.
  intros mv tp b bok h hok s. apply reach_not_stuck. split; reflexivity.
Qed.
Print Assumptions C23_progress.

(* ... and every such step strictly decreases a natural-number measure, so the call returns after at most
   [measure s] steps (each step being a terminating piece of Go code: the abstraction of the script). *)
(* measure stays folded while step_cases runs cbn: emit_frame strips the emits first *)
#[local] Arguments measure : simpl never.
Theorem C23_calls_terminate : forall s l s' r,
  internal l = true -> step s l = Some (s', r) -> (measure s' < measure s)%nat.
Proof.
  intros s l s' r I. revert s' r. apply step_elim. destruct s; destruct l; try discriminate I; step_cases.
  all: rewrite ?(emit_frame measure) by reflexivity; unfold measure; cbn -[Nat.mul].
  all: try match goal with |- context [if ?x then _ else _] => destruct x end; try lia.
  (* the joint step on blockedc: the caller's rank does not rise *)
  all: match goal with H : after_blk_value ?x = _, B : _ && _ = true |- _ =>
         destruct x; try discriminate B; injection H as <- _; clear B end; cbn; lia.
Qed.
Print Assumptions C23_calls_terminate.

(* The same statement for the code as found. *)
Definition C23_progress_as_found_full : Prop := forall mv tp b bok h hok s,
  reach (init false mv tp b bok h hok) s -> stuck s = false.

(* F-23: BuildHandshakeState fails (e.g. no ServerName); the goroutine returns without closing blockedc; Start blocks. *)
Definition f23_witness : list label := [LStart; LGInit; LGEnd; LGEarly; LGRet].
Theorem C23_progress_as_found_refuted : ~ C23_progress_as_found_full.
Proof.
  intros H.
  destruct (run (init false true false [] false [] true) f23_witness) as [[s rs]|] eqn:E; [|vm_compute in E; discriminate].
  pose proof (H _ _ _ _ _ _ _ (run_reach _ _ _ _ _ (reach_init _) E)) as K. vm_compute in E. inversion E; subst. vm_compute in K. discriminate.
Qed.
Print Assumptions C23_progress_as_found_refuted.

(* second witness of the same defect: HelloGolang waits for the transport parameters inside BuildHandshakeState;
   Close cancels that wait, the build fails, the goroutine leaves without closing, Close blocks. *)
Example C23_ex_f23_close_witness :
  match run (init false true false (golang_build false 1) true [] true)
            [LStart; LGInit; LGAct; LGAct; LSyncBlk; LNextEvent; LClose; LGCancelSeen; LGEarly; LGRet] with
  | Some (s, rs) => stuck s && list_eqb (fun a b => match a, b with RNil, RNil => true | REvent (Some ETPRequired), REvent (Some ETPRequired) => true | _, _ => false end)
                                       rs [RNil; REvent (Some ETPRequired)]
  | None => false
  end = true.
Proof. vm_compute. reflexivity. Qed.

(* strongest condition for the code as found: BuildHandshakeState cannot fail (reports success and never waits) *)
Theorem C23_progress_as_found_holds_if : forall mv tp h hok s,
  reach (init false mv tp [] true h hok) s -> stuck s = false.
Proof.
  intros mv tp h hok s. apply reach_not_stuck. split; reflexivity.
Qed.
Print Assumptions C23_progress_as_found_holds_if.

(* Event order (RFC 9001 4.1.4, 4.9, 5.7 and the property text), for the client's script — ClientHello, optional
   HelloRetryRequest round, handshake secrets write-then-read, peer transport parameters, client Finished,
   application write secret, HandshakeDone, application read secret — with any number of waits at every read,
   any failure point, HelloGolang's wait for transport parameters, whether or not the hello can be built:
   in every reachable state the events created so far satisfy order_ok (write secret before read secret per
   level, 1-RTT read secret only after HandshakeDone, CRYPTO data of a level only after its write secret, each
   secret / parameters / HandshakeDone at most once); once the handshake is complete they satisfy complete_ok
   (peer transport parameters exactly once, HandshakeDone exactly once, both read secrets delivered). *)
Theorem C23_event_order : forall ec mv tp0 tpb w bok hrr w0 w1 w2 w3 n cut s,
  reach (init ec mv tp0 (golang_build tpb w) bok
              (fst (client_hs hrr w0 w1 w2 w3 n cut)) (snd (client_hs hrr w0 w1 w2 w3 n cut))) s ->
  order_ok (rev (hist s)) = true /\ (complete s = true -> complete_ok (rev (hist s)) = true).
Proof.
  intros ec mv tp0 tpb w bok hrr w0 w1 w2 w3 n cut s R.
  destruct (EvInv_reach _ s (invb_init _ _ _ _ _ _ _) (client_EvInv ec mv tp0 tpb w bok hrr w0 w1 w2 w3 n cut) R) as [_ E].
  apply EvInv_hist; exact E.
Qed.
Print Assumptions C23_event_order.

(* The goroutine creates events only while the caller is blocked inside a call: with the caller idle (free to
   run NextEvent) no step other than a call changes the event queue. *)
Theorem C23_events_exclusive : forall ec mv tp b bok h hok s l s' r,
  reach (init ec mv tp b bok h hok) s -> c s = CIdle -> is_call l = false -> step s l = Some (s', r) ->
  queue s' = queue s /\ hist s' = hist s.
Proof.
  intros ec mv tp b bok h hok s l s' r R. apply idle_no_emit. exact (invb_reach _ _ (invb_init _ _ _ _ _ _ _) R).
Qed.
Print Assumptions C23_events_exclusive.

(* Empty legacy session id and no compatibility CCS on a QUIC connection, for any random bytes and any number
   of sendDummyChangeCipherSpec calls (HelloRetryRequest and Finished paths). *)
Theorem C23_no_sid_no_ccs : forall rand32 sent calls,
  preset_session_id true rand32 = [] /\ ccs_written true sent calls = 0%nat.
Proof.
  intros rand32 sent calls. split; [reflexivity|]. revert sent. induction calls as [|n IH]; intros sent; [reflexivity|].
  cbn [ccs_written send_dummy_ccs]. rewrite IH. reflexivity.
Qed.
Print Assumptions C23_no_sid_no_ccs.

(* a complete handshake in the model: Start, two HandleData calls, Close; all return nil; the events arrive in order *)
Example C23_ex_complete_run :
  match run (init true true true [] true (fst (client_hs false 1 0 1 0 0 None)) true)
            [LStart; LGInit; LGEnd; LGAct; LGAct; LSyncBlk; LNextEvent; LNextEvent;
             LHandleData; LSyncSig; LGAct; LGAct; LGAct; LSyncBlk; LNextEvent; LNextEvent; LNextEvent;
             LHandleData; LSyncSig; LGAct; LGAct; LGAct; LGEnd; LGClose1; LRecvClosed; LGClose2; LGRet; LLock;
             LClose; LRecvClosed] with
  | Some (s, rs) => complete s && complete_ok (rev (hist s)) && negb (in_call s)
                    && Nat.eqb (length (filter (fun r => match r with RNil => true | _ => false end) rs)) 4
  | None => false
  end = true.
Proof. vm_compute. reflexivity. Qed.

(* the unbuildable hello on the repaired code: Start returns an error, Close returns *)
Example C23_ex_build_failure_returns :
  match run (init true true false [] false [] true) [LStart; LGInit; LGEnd; LGEarly; LGClose1; LRecvClosed; LGClose2; LGRet; LClose; LRecvClosed] with
  | Some (s, [RErr; RErr]) => negb (stuck s) && negb (in_call s)
  | _ => false
  end = true.
Proof. vm_compute. reflexivity. Qed.

(* outside the caller discipline: HandleData on a connection that was never started blocks (no goroutine exists);
   expressed with the discipline check removed, i.e. the state the call would enter *)
Example C23_ex_misuse_blocks : stuck (set_c (init true true false [] true [] true) CHdSig) = true.
Proof. vm_compute. reflexivity. Qed.

Example C23_ex_ccs_tcp : ccs_written false false 2 = 1%nat /\ length (preset_session_id false (repeat 0 32)) = 32%nat.
Proof. split; reflexivity. Qed.
