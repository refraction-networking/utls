(* The weight-corner statement [coin_ok] for a row of the coin table (Model/RandomizedCoins.v: one row per
   `FlipWeightedCoin(id.Weights.X)` site of generateRandomizedSpec), proved for every row. *)
From UV Require Export Model.RandomizedCoins.
From UV Require Import Base.Common Model.Prng Proofs.PrngP Model.Randomized Proofs.RandomizedP Proofs.RandomizedS.
From Coq Require Import QArith Permutation.
Open Scope N_scope.

(* weight <= 0: the feature is present exactly when forced; weight >= 1 (no zero draw): present when applicable *)
Definition coin_ok (rnd : Q -> Q) (c : coin) : Prop :=
  forall fuel tb v w sn np s salted p, generate rnd fuel tb v w sn np s salted = Ok p ->
  (w_le0 (wfield (c_field c) w) -> (c_feature c tb v p <-> c_forced c v p)) /\
  (w_ge1 (wfield (c_field c) w) -> nz s -> nz salted -> c_app c v p -> c_feature c tb v p).

Lemma filter_perm_len {A} (f : A -> bool) l l' : Permutation l l' -> length (filter f l) = length (filter f l').
Proof.
  induction 1 as [|x l l' HP IH|x y l|l l' l'' HP1 IH1 HP2 IH2]; cbn [filter]; auto.
  - destruct (f x); cbn [length]; congruence.
  - destruct (f x), (f y); reflexivity.
  - congruence.
Qed.

Lemma share_p256 k1 k2 k3 : [CurveP256] = shares k1 k2 k3 <-> k1 = true.
Proof. destruct k1, k2, k3; split; intros H; try reflexivity; discriminate H. Qed.

(* The shape of a row. The feature is [e c] for a boolean function e of the row's coin (the other
   draws are parameters of e), where the coin counts as false when the run does not flip it
   (g false). A weight at a corner fixes the coin and leaves everything else free. *)
Lemma corner {rnd} (L : ieee_laws rnd) (s salted : stream) {st w0 b} (g : bool) (e : bool -> bool) {feat forced app : Prop} :
  (g = true -> FlipIn rnd st w0 b) -> (nz s -> nz salted -> nz st) ->
  (feat <-> e (g && b) = true) -> (forced <-> e false = true) -> (app -> g = true /\ e true = true) ->
  (w_le0 w0 -> (feat <-> forced)) /\ (w_ge1 w0 -> nz s -> nz salted -> app -> feat).
Proof.
  intros F Hz Hf Ho Ha. rewrite Hf, Ho. split.
  - intros Hw. destruct g; [rewrite (FlipIn_false _ _ _ _ L (F eq_refl) Hw)|]; reflexivity.
  - intros Hw Z1 Z2 A. destruct (Ha A) as [-> E]. rewrite (FlipIn_true _ _ _ _ L (F eq_refl) Hw (Hz Z1 Z2)). exact E.
Qed.

Theorem coins_ok rnd : ieee_laws rnd -> Forall (coin_ok rnd) coins.
Proof.
  intros L. apply Forall_forall. intros c Hc fuel tb v w sn np s salted p G.
  apply generate_inv in G. destruct G as (d & -> & Hok).
  pose proof (fun (Z : nz s) (_ : nz salted) => Z) as Zs.
  unfold coins in Hc. cbn [In] in Hc.
  repeat (destruct Hc as [<-|Hc]); [..|contradiction].
  (* one goal per row.  For each: read the row's fields, then state "the feature is in the spec" through the record d of
     the run's choices (lemmas has_.. and in_..), so that what is left is about the coin of that row alone *)
  all: cbn [wfield c_field c_feature c_forced c_app coin_alpn coin_tls13 coin_rm coin_ecdsa_sha1 coin_p521_sha512 coin_pss256
            coin_pss384_512 coin_mlkem_group coin_x25519 coin_p521 coin_padding coin_status coin_sct coin_reneg coin_ems
            coin_ks_p256 coin_ks_extra_p256 coin_ks_mlkem coin_alps].
  all: unfold is13, sig_has, grp_has, x25519_share; cbn [spec_of sp_exts sp_max sp_ciphers].
  all: rewrite ?is13_true, ?(has_alpn Hok), ?(has_sig Hok), ?(has_group Hok), ?(has_share Hok).
  all: unfold d_sig_base, d_curves, d_shares; rewrite ?in_sig_base, ?in_curves, ?in_shares; cbn [In sig_fixed].
  - (* ALPN: a coin for the Randomized id only *)
    pose proof (ok_alpn d Hok) as F. split.
    + intros Hw. destruct v; try rewrite (FlipIn_false _ _ _ _ L F Hw); try rewrite F; split; congruence.
    + intros Hw Z1 _ ->. exact (FlipIn_true _ _ _ _ L F Hw Z1).
  - apply (corner L s salted true (fun b => b) (fun _ => ok_13 d Hok) Zs); [reflexivity|easy|auto].
  - (* removeRandomCiphers: one coin per suite, none of them certain *)
    split; [|tauto]. intros Hw. split; [|tauto]. intros Hne. apply Hne.
    destruct (ok_ciphers d Hok) as (_ & Eq & _). rewrite (Eq L Hw).
    unfold full_len, suites_of. cbn [spec_of sp_max]. rewrite vmax_is13. pose proof (proj1 (ok_suites d Hok)) as P.
    destruct (d_13 d).
    + apply filter_perm_len, Permutation_app; [apply Permutation_sym, (ok_t13 d Hok)|exact P].
    + rewrite (Permutation_length P). apply map_length.
  - apply (corner L s salted true (fun b => b) (fun _ => ok_sha1 d Hok) Zs); [cbn [andb]; intuition discriminate|easy|auto].
  - apply (corner L s salted true (fun b => b) (fun _ => ok_p521sig d Hok) Zs); [cbn [andb]; intuition discriminate|easy|auto].
  - apply (corner L s salted true (fun b => b || d_13 d) (fun _ => ok_pss256 d Hok) Zs); [unfold pss_on; cbn [andb]; intuition discriminate|reflexivity|auto].
  - (* PSSWithSHA384, PSSWithSHA512: flipped when PSSWithSHA256 is offered *)
    apply (corner L s salted (pss_on d) (fun b => b) (ok_pss384 d Hok) Zs); [rewrite andb_true_iff; intuition discriminate|easy|intuition discriminate].
  - apply (corner L s salted (d_13 d) (fun b => b) (fun _ => ok_mlkem d Hok) Zs); [rewrite andb_comm; intuition discriminate|easy|auto].
  - apply (corner L s salted true (fun b => b || d_13 d) (fun _ => ok_x25519 d Hok) Zs); [cbn [andb]; intuition discriminate|reflexivity|auto].
  - apply (corner L s salted true (fun b => b) (fun _ => ok_p521 d Hok) Zs); [cbn [andb]; intuition discriminate|easy|auto].
  - apply (corner L s salted true (fun b => b || d_13 d) (fun _ => ok_pad d Hok) Zs); [exact (in_exts Hok EPadding)|reflexivity|auto].
  - apply (corner L s salted true (fun b => b) (fun _ => ok_status d Hok) Zs); [exact (in_exts Hok EStatus)|easy|auto].
  - apply (corner L s salted true (fun b => b) (fun _ => ok_sct d Hok) Zs); [exact (in_exts Hok ESCT)|easy|auto].
  - apply (corner L s salted true (fun b => b) (fun _ => ok_reneg d Hok) Zs); [|easy|auto].
    split; [intros (m & Hm); apply (in_exts Hok) in Hm; tauto|intros E; eexists; apply (in_exts Hok); cbv iota; eauto].
  - apply (corner L s salted true (fun b => b) (fun _ => ok_ems d Hok) Zs); [exact (in_exts Hok EEMS)|easy|auto].
  - apply (corner L s salted (d_13 d) (fun b => b) (ok_ksp256 d Hok) Zs); [|easy|auto].
    rewrite (in_exts Hok), andb_true_iff. unfold d_shares. rewrite share_p256. reflexivity.
  - (* key_share X25519 + P256: flipped when the first share stayed X25519 *)
    assert (F : d_13 d && negb (d_ksp256 d) = true -> FlipIn rnd s (w_ks_random w) (d_ksextra d)).
    { rewrite andb_true_iff, negb_true_iff. intros [E1 E2]. exact (ok_ksextra d Hok E1 E2). }
    apply (corner L s salted _ (fun b => b) F Zs); [rewrite !andb_true_iff, negb_true_iff|easy|rewrite andb_true_iff, negb_true_iff];
      destruct (d_ksp256 d); intuition discriminate.
  - assert (F : d_13 d && negb (d_ksp256 d) = true -> FlipIn rnd s (w_ks_random w) (d_ksmlkem d)).
    { rewrite andb_true_iff, negb_true_iff. intros [E1 E2]. exact (ok_ksmlkem d Hok E1 E2). }
    apply (corner L s salted _ (fun b => b) F Zs); [rewrite !andb_true_iff, negb_true_iff|easy|rewrite andb_true_iff, negb_true_iff];
      destruct (d_ksp256 d); intuition discriminate.
  - (* ALPS: the salted stream's first draw; TLS 1.3 with ALPN only *)
    assert (F : d_13 d && d_alpn d = true -> FlipIn rnd salted (w_alps w) (d_alps d)).
    { rewrite andb_true_iff. intros [E1 E2]. exact (ok_alps d Hok E1 E2). }
    apply (corner L s salted _ (fun b => b) F); [auto|rewrite !andb_true_iff|easy|rewrite andb_true_iff; tauto].
    split; [intros (q & Hq); apply (in_exts Hok) in Hq; rewrite andb_true_iff in Hq; tauto
           |intros ((E1 & E2) & E3); eexists; apply (in_exts Hok); rewrite E2, E3; auto].
Qed.
