(* C13 after fixes/C13-no-supported-versions-extension.diff, on the negotiation model alone (no marshal model):
   versions_ok widens Negotiate.versions_synced to hellos WITHOUT a supported_versions extension.

   There versions_synced demands that the CONFIGURED range stays within [spec minimum .. legacy_version]
   (versions_consistent). A spec with TLSVersMax 1.3 and no SupportedVersionsExtension violates that - and before the fix
   the client did settle on TLS 1.3 for it. With the fix ApplyConfig sets Hello.SupportedVersions to the accepted
   versions up to legacy_version, and the offered-version check of UConn.clientHandshake (env_fixed) refuses the rest:
   versions_synced_nosv states that situation. Corr/C13Corr.v evaluates versions_ok per client. *)
From UV Require Import Base.Common Model.Negotiate Proofs.NegotiateP.

(* Hello.SupportedVersions = Config.supportedVersions(roleClient) restricted to <= legacy_version, not empty;
   the configured minimum is not below the spec's *)
Definition versions_synced_nosv (v : client_view) (specmin : N) (w : wire_view) : bool :=
  negb (w_has_sv w)
  && list_eqN (cv_sv v) (filter (fun x => x <=? w_legacy w) (client_versions v))
  && negb (match cv_sv v with [] => true | _ => false end)
  && (specmin <=? (if cv_vmin v =? 0 then V12 else cv_vmin v)).

Definition versions_ok (v : client_view) (specmin : N) (w : wire_view) : bool :=
  versions_synced v specmin w || versions_synced_nosv v specmin w.

Lemma version_in_advertised_ok v specmin w vers :
  versions_ok v specmin w = true ->
  In vers (client_versions v) -> version_offered env_fixed v vers = true ->
  In vers (advertised specmin w).
Proof.
  unfold versions_ok. intros H Hin Hoff. apply orb_true_iff in H. destruct H as [H|H].
  - eapply version_in_advertised_fixed; eauto.
  - unfold versions_synced_nosv in H. rewrite !andb_true_iff in H. destruct H as [[[Hno Heq] Hne] Hmin].
    apply negb_true_iff in Hno. apply list_eqN_eq in Heq.
    unfold version_offered in Hoff. cbn [e_fix_version env_fixed] in Hoff.
    destruct (cv_sv v) as [|x0 xs] eqn:Esv; [discriminate|].
    apply memN_In in Hoff. rewrite Heq in Hoff. apply filter_In in Hoff. destruct Hoff as [_ Hle].
    unfold advertised. rewrite Hno. apply filter_In. split; [apply (client_versions_sub v); exact Hin|].
    unfold client_versions in Hin. apply filter_In in Hin. destruct Hin as [_ Hf].
    unfold V12 in *. destruct (cv_vmin v =? 0) eqn:E0; lia.
Qed.

Lemma version_fixed_ok v specmin w fl st :
  versions_ok v specmin w = true -> client_run v fl = Complete st -> In (cs_vers st) (advertised specmin w).
Proof.
  intros H Hrun. destruct (completed_version _ _ _ _ Hrun) as [Hin Hoff]. eapply version_in_advertised_ok; eauto.
Qed.

(* the downgrade-sentinel statement only concerns hellos that list TLS 1.3, i.e. carry the extension *)
Lemma ok_offers13_synced v specmin w :
  versions_ok v specmin w = true -> offers13 w = true -> versions_synced v specmin w = true.
Proof.
  unfold versions_ok, versions_synced_nosv, offers13. intros H Ho. apply andb_true_iff in Ho. destruct Ho as [Ho _].
  rewrite Ho in H. cbn [negb andb] in H. rewrite orb_false_r in H. exact H.
Qed.

Lemma canary_fixed_ok v specmin w fl st :
  versions_ok v specmin w = true -> offers13 w = true ->
  (h_tail (first_hello fl) = 1 \/ h_tail (first_hello fl) = 2) ->
  client_run v fl = Complete st -> cs_vers st = V13.
Proof. intros H Ho. exact (canary_fixed v specmin w fl st (ok_offers13_synced _ _ _ H Ho) Ho). Qed.

(* the real view/wire pair observed for the spec (HelloFirefox_105 without its SupportedVersionsExtension, TLSVersMin 1.2,
   TLSVersMax 1.3) on the repaired code: versions_synced is false, versions_ok holds, TLS 1.3 is refused *)
Example nosv_max13 :
  let v := mkView [4865; 49195] [29; 23] [29; 23] [] [1; 2; 3] 0 [] false 771 772 false 29 false [771] 0 in
  let w := mkWire 771 [4865; 49195] [0] [29; 23] [29; 23] [] [1; 2; 3] 0 [] false [] in
  versions_synced v 771 w = false /\ versions_ok v 771 w = true
  /\ client_run v (mkFlight None (mkHello 771 772 0 [1; 2; 3] 4865 0 29 0 false None []) [] None None true) = Abort a_protocol_version.
Proof. vm_compute. repeat split; reflexivity. Qed.
