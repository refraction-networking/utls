(* C18 — key shares are fresh, correctly sized, and backed by the matching private key.

   apply_preset (Model/KeyShare.v) is ApplyPreset's handling of the Config.Rand stream and of the
   KeyShareExtension: which bytes become the client random and the legacy session id, which shares
   are generated, which private keys are retained; client_secret is establishHandshakeKeys' shared
   secret for the server's selected group, server_flight a compliant peer that selected one of the
   client's shares. Key generation, Diffie-Hellman and ML-KEM are arbitrary functions satisfying
   [laws] (public key sizes, DH commutes, decapsulation inverts encapsulation, key generation
   consumes at least one byte); every theorem holds for EVERY such instance, every stream, every
   entry cursor and every key-share list.
   State of the files: they describe the tree WITH fixes/C18-keyshare-private-keys.diff applied
   ([fixed := true]); the pre-repair behaviour is the same model with [fixed := false] and the
   retention statement is refuted for it below (witness: the key shares of HelloFirefox_63..120). *)
From UV Require Import Base.Common Model.Negotiate Model.KeyShare Proofs.KeyShareP.

(* Each wire share: a GREASE entry keeps its data under the connection's GREASE group, a share with
   preset Data is sent unchanged, every other share carries a public key of exactly the size its
   group requires (32 / 65 / 97 / 133 / 1216 bytes). *)
Theorem C18_share_sizes :
  forall (priv dkey : Type) (rnd : N -> N) (ecdh_gen : N -> N -> priv * N) (pub : N -> priv -> bytes)
         (dh : N -> priv -> bytes -> option bytes) (kem_new : bytes -> dkey) (kem_ek : dkey -> bytes)
         (kem_decap : dkey -> bytes -> option bytes) (kem_encap : bytes -> bytes -> bytes * bytes),
    laws ecdh_gen pub dh kem_ek kem_decap kem_encap ->
    forall fixed quic gv shares p0 a,
      apply_preset priv dkey rnd ecdh_gen pub kem_new kem_ek fixed quic gv shares p0 = Ok a ->
      Forall2 (fun k k' =>
                 if is_grease (ks_group k) then ks_group k' = gv /\ ks_data k' = ks_data k
                 else if 1 <? lenN (ks_data k) then k' = k
                 else ks_group k' = ks_group k /\ lenN (ks_data k') = share_size (ks_group k)
                      /\ In (share_size (ks_group k)) [32; 65; 97; 133; 1216])
              shares (a_shares a).
Proof. exact share_sizes. Qed.
Print Assumptions C18_share_sizes.

Theorem C18_share_size_table :
  share_size 29 = 32 /\ share_size 23 = 65 /\ share_size 24 = 97 /\ share_size 25 = 133
  /\ share_size 4588 = 1216 /\ share_size 25497 = 1216.
Proof. repeat split. Qed.

(* The client retains the private key for every share it generated: whichever of them a compliant
   server selects (any server key b, any encapsulation randomness r), the secret the client derives
   is the server's. wf_shares: one share per classical group (RFC 8446 4.2.8), at most one hybrid share. *)
Theorem C18_keys_retained : keys_retained_stmt true.
Proof. exact keys_retained_fixed. Qed.
Print Assumptions C18_keys_retained.

(* The same statement is FALSE for the code before the repair (only the first classical key was kept): two classical
   shares, the server selects the second. *)
Theorem C18_keys_retained_before_fix_refuted : ~ keys_retained_stmt false.
Proof.
  (* the run on the two shares is closed: its result is evaluated once (Ea), the statement is then taken at share 1
     (group 23) with server key 5, and the two secrets differ by evaluation *)
  intros H.
  destruct (toy_apply rnd0 false false 2570 [mkKS 29 []; mkKS 23 []] 0) as [a| |] eqn:E; [|vm_compute in E; discriminate..].
  pose proof E as Ea. vm_compute in Ea. injection Ea as <-.
  destruct (H N bytes rnd0 (toy_gen rnd0) toy_pub toy_dh toy_kem_new toy_kem_ek toy_kem_decap toy_kem_encap (toy_laws rnd0)
              false 2570 [mkKS 29 []; mkKS 23 []] 0 _ eq_refl E 1%nat (mkKS 23 []) _ eq_refl eq_refl eq_refl) as [_ B].
  specialize (B 5 [] _ _ eq_refl). vm_compute in B. discriminate.
Qed.
Print Assumptions C18_keys_retained_before_fix_refuted.

(* Random, session id, GREASE bytes and every key consume pairwise disjoint, non-empty segments of the
   Config.Rand stream inside [entry cursor, exit cursor); the random and the session id are exactly
   the bytes of their own segments. *)
Theorem C18_draw_disjoint :
  forall (priv dkey : Type) (rnd : N -> N) (ecdh_gen : N -> N -> priv * N) (pub : N -> priv -> bytes)
         (dh : N -> priv -> bytes -> option bytes) (kem_new : bytes -> dkey) (kem_ek : dkey -> bytes)
         (kem_decap : dkey -> bytes -> option bytes) (kem_encap : bytes -> bytes -> bytes * bytes),
    laws ecdh_gen pub dh kem_ek kem_decap kem_encap ->
    forall fixed quic gv shares p0 a,
      apply_preset priv dkey rnd ecdh_gen pub kem_new kem_ek fixed quic gv shares p0 = Ok a ->
      (forall i s, nth_error (a_log a) i = Some s ->
                   p0 <= sg_start s /\ 0 < sg_len s /\ sg_start s + sg_len s <= a_end a)
      /\ (forall i j si sj, (i < j)%nat -> nth_error (a_log a) i = Some si -> nth_error (a_log a) j = Some sj ->
                            sg_start si + sg_len si <= sg_start sj)
      /\ (nth_error (a_log a) 0 = Some (mkSeg DRandom p0 32) /\ a_random a = take_at rnd p0 32)
      /\ (quic = false -> exists p, nth_error (a_log a) 3 = Some (mkSeg DSid p 32) /\ a_sid a = take_at rnd p 32).
Proof. exact draw_disjoint. Qed.
Print Assumptions C18_draw_disjoint.

(* Two connections that read one Config.Rand one after the other never share a byte of it. *)
Theorem C18_fresh_across_connections :
  forall (priv dkey : Type) (rnd : N -> N) (ecdh_gen : N -> N -> priv * N) (pub : N -> priv -> bytes)
         (dh : N -> priv -> bytes -> option bytes) (kem_new : bytes -> dkey) (kem_ek : dkey -> bytes)
         (kem_decap : dkey -> bytes -> option bytes) (kem_encap : bytes -> bytes -> bytes * bytes),
    laws ecdh_gen pub dh kem_ek kem_decap kem_encap ->
    forall fixed q1 q2 gv1 gv2 sh1 sh2 p1 p2 a1 a2,
      apply_preset priv dkey rnd ecdh_gen pub kem_new kem_ek fixed q1 gv1 sh1 p1 = Ok a1 ->
      apply_preset priv dkey rnd ecdh_gen pub kem_new kem_ek fixed q2 gv2 sh2 p2 = Ok a2 ->
      a_end a1 <= p2 ->
      forall i j s1 s2, nth_error (a_log a1) i = Some s1 -> nth_error (a_log a2) j = Some s2 ->
                        sg_start s1 + sg_len s1 <= sg_start s2.
Proof. exact fresh_across. Qed.
Print Assumptions C18_fresh_across_connections.

(* QUIC connections send an empty legacy session id; TCP connections 32 bytes; the random is 32 bytes. *)
Theorem C18_quic_empty_sid :
  forall (priv dkey : Type) (rnd : N -> N) (ecdh_gen : N -> N -> priv * N) (pub : N -> priv -> bytes)
         (kem_new : bytes -> dkey) (kem_ek : dkey -> bytes) fixed gv shares p0 a,
    apply_preset priv dkey rnd ecdh_gen pub kem_new kem_ek fixed true gv shares p0 = Ok a -> a_sid a = [].
Proof. exact quic_empty_sid. Qed.
Print Assumptions C18_quic_empty_sid.

Theorem C18_tcp_sid_random_32 :
  forall (priv dkey : Type) (rnd : N -> N) (ecdh_gen : N -> N -> priv * N) (pub : N -> priv -> bytes)
         (kem_new : bytes -> dkey) (kem_ek : dkey -> bytes) fixed gv shares p0 a,
    apply_preset priv dkey rnd ecdh_gen pub kem_new kem_ek fixed false gv shares p0 = Ok a ->
    length (a_sid a) = 32%nat /\ length (a_random a) = 32%nat.
Proof. exact tcp_sid_random_32. Qed.
Print Assumptions C18_tcp_sid_random_32.

(* Fingerprinted copies: the spec the Fingerprinter builds from a captured hello carries no key_exchange bytes for any
   non-GREASE share (each is generated per connection, hence fresh and - by C18_keys_retained - backed), and offers
   exactly the captured non-GREASE groups. *)
Theorem C18_fingerprinted_shares_generated : forall wire,
  (forall k, In k (import_shares wire) -> is_grease (ks_group k) = true \/ generated k = true)
  /\ map ks_group (filter generated (import_shares wire))
     = map ks_group (filter (fun k => negb (is_grease (ks_group k))) wire).
Proof. intros wire. split; [intros k; apply import_generated|apply import_groups]. Qed.
Print Assumptions C18_fingerprinted_shares_generated.

(* the laws are satisfiable *)
Example C18_ex_laws_satisfiable :
  laws (toy_gen rnd0) toy_pub toy_dh toy_kem_ek toy_kem_decap toy_kem_encap.
Proof. exact (toy_laws rnd0). Qed.

(* the key-share lists of the parrots are well-formed: Firefox (X25519, P-256), Chrome 133 (GREASE, X25519MLKEM768,
   X25519), a hybrid-only list, five shares; two X25519 shares are not *)
Example C18_ex_wf :
  wf_shares [mkKS 29 []; mkKS 23 []] = true /\ wf_shares [mkKS 2570 [0]; mkKS 4588 []; mkKS 29 []] = true
  /\ wf_shares [mkKS 4588 []] = true /\ wf_shares [mkKS 23 []; mkKS 4588 []; mkKS 29 []; mkKS 24 []; mkKS 25 []] = true
  /\ wf_shares [mkKS 29 []; mkKS 29 []] = false.
Proof. vm_compute. repeat split. Qed.

(* on the toy instance the repaired client agrees with the server on every generated share of these lists,
   the pre-repair client does not on Firefox's second share *)
Example C18_ex_agree :
  (forall l, In l [[mkKS 29 []; mkKS 23 []]; [mkKS 2570 [0]; mkKS 4588 []; mkKS 29 []]; [mkKS 25497 []; mkKS 23 []];
                   [mkKS 4588 []]; [mkKS 23 []; mkKS 4588 []; mkKS 29 []; mkKS 24 []; mkKS 25 []]] ->
     match toy_apply rnd0 true false 2570 l 5 with
     | Ok a => forallb (fun i => negb (generated (nth i l (mkKS 2570 []))) || toy_agree true a i 77 [1; 2; 3]) (seq 0 (length l))
     | _ => false
     end = true)
  /\ match toy_apply rnd0 false false 2570 [mkKS 29 []; mkKS 23 []] 5 with
     | Ok a => toy_agree false a 0 77 [] && negb (toy_agree false a 1 77 [])
     | _ => false
     end = true.
Proof.
  split; [|vm_compute; reflexivity].
  intros l H. simpl in H. repeat (destruct H as [<-|H]; [vm_compute; reflexivity|]). destruct H.
Qed.

(* QUIC: no session-id draw, the GREASE bytes follow the random directly *)
Example C18_ex_quic :
  match toy_apply rnd0 true true 2570 [mkKS 29 []] 0 with
  | Ok a => a_sid a = [] /\ map sg_start (a_log a) = [0; 32; 42] /\ length (a_random a) = 32%nat
  | _ => False
  end.
Proof. vm_compute. repeat split. Qed.

(* C18 over the regenerated parrot table (Gen/Parrots.v): the premise of C18_keys_retained ("one share per classical group,
   at most one hybrid share") is a theorem about every shipped parrot, the class of finding two-hybrid-shares/* is empty
   among them, and the SHAPE of the retained keys (which curve sits in Ecdhe / ExtraEcdhe / MlkemEcdhe, whether Mlkem is
   set) is a function of the share list alone - for every crypto instance, stream and cursor, no law needed.
   (Model/ParrotNeg.v, Proofs/ParrotNegS.v, Proofs/ParrotNegC.v.) *)
From UV Require Model.Preset Model.ParrotNeg Gen.Parrots Proofs.ParrotNegS Proofs.ParrotNegC.

Theorem C18_parrots_keyshares_ok : forallb ParrotNegS.keyshares_ok Parrots.all = true.
Proof. exact ParrotNegS.parrots_keyshares_ok. Qed.
Theorem C18_parrots_two_hybrid_exceptions :
  map Preset.p_name (filter (fun p => negb (ParrotNegS.keyshares_ok p)) Parrots.all) = [].
Proof. exact ParrotNegS.parrots_two_hybrid_exceptions. Qed.

(* the retained keys have the static shape: every instance, every share list (not only the table's) *)
Theorem C18_retained_shape : forall (priv dkey : Type) (rnd : N -> N) (ecdh_gen : N -> N -> priv * N) (pub : N -> priv -> bytes)
  (kem_new : bytes -> dkey) (kem_ek : dkey -> bytes) quic gv shares p0 a,
  apply_preset priv dkey rnd ecdh_gen pub kem_new kem_ek true quic gv shares p0 = Ok a ->
  shape_of (a_keys a) = ParrotNeg.static_shape (map ParrotNegS.pair_of shares).
Proof. exact ParrotNegS.retained_shape. Qed.
Print Assumptions C18_retained_shape.

(* every shipped parrot, every crypto instance satisfying the laws, every stream, cursor and GREASE value: every share the
   loop generates keeps its group, has the size of its group, and is backed - whichever of them a compliant server answers,
   the client derives the server's secret *)
Theorem C18_parrots : forall p, In p Parrots.all ->
  forall (priv dkey : Type) (rnd : N -> N) (ecdh_gen : N -> N -> priv * N) (pub : N -> priv -> bytes)
         (dh : N -> priv -> bytes -> option bytes) (kem_new : bytes -> dkey) (kem_ek : dkey -> bytes)
         (kem_decap : dkey -> bytes -> option bytes) (kem_encap : bytes -> bytes -> bytes * bytes),
  laws ecdh_gen pub dh kem_ek kem_decap kem_encap ->
  forall quic gv p0 a,
  apply_preset priv dkey rnd ecdh_gen pub kem_new kem_ek true quic gv (ParrotNeg.kshares_of (Preset.p_spec p)) p0 = Ok a ->
  shape_of (a_keys a) = ParrotNeg.static_shape (ParrotNeg.lastS ParrotNeg.s_shares (Preset.sp_exts (Preset.p_spec p)) [])
  /\ forall i k k', nth_error (ParrotNeg.kshares_of (Preset.p_spec p)) i = Some k -> nth_error (a_shares a) i = Some k' ->
       generated k = true ->
       ks_group k' = ks_group k /\ lenN (ks_data k') = share_size (ks_group k')
       /\ forall b r sdata ssec,
            server_flight priv pub dh kem_encap (ks_group k') (ks_data k') b r = Some (sdata, ssec) ->
            client_secret priv dkey dh kem_decap true true (a_keys a) (ks_group k') sdata = Ok ssec.
Proof. exact ParrotNegC.parrot_keys. Qed.
Print Assumptions C18_parrots.

(* on the toy instance: Firefox_120's two shares and Chrome_133's hybrid + X25519 shares, with the shapes the theorem predicts *)
Example C18_ex_parrot_shapes :
  ParrotNeg.kshares_of (Preset.p_spec Parrots.p_Firefox_120) = [mkKS 29 []; mkKS 23 []]
  /\ match toy_apply rnd0 true false 2570 (ParrotNeg.kshares_of (Preset.p_spec Parrots.p_Firefox_120)) 0 with
     | Ok a => shape_of (a_keys a) = mkShape 29 [23] false 0 /\ map (fun k => lenN (ks_data k)) (a_shares a) = [32; 65]
     | _ => False end
  /\ match toy_apply rnd0 true false 2570 (ParrotNeg.kshares_of (Preset.p_spec Parrots.p_Chrome_133)) 0 with
     | Ok a => shape_of (a_keys a) = mkShape 29 [] true 29 /\ map (fun k => lenN (ks_data k)) (a_shares a) = [1; 1216; 32]
     | _ => False end.
Proof. vm_compute. repeat split; reflexivity. Qed.

(* imported last, for the driver's closure scan only (lib/vcheck.py follows "Require Import" lines); nothing follows *)
From UV Require Import Model.ParrotNeg Proofs.ParrotNegS Proofs.ParrotNegC.
