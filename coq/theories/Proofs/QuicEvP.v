(* Event order of the QUIC client (C23): what the handshake goroutine has created so far, followed by
   what its script will still create, is always (a coalescing of a prefix of) the script's emission
   sequence; for the client's script that sequence obeys RFC 9001's ordering rules. *)
From UV Require Import Base.Common Model.Quic Proofs.QuicP.

Definition seen_after (seen : list event) (a : list event) : list event :=
  fold_left (fun s e => match e with EWriteData _ => s | _ => e :: s end) a seen.
Lemma order_scan_app a : forall seen b,
  order_scan seen (a ++ b) = order_scan seen a && order_scan (seen_after seen a) b.
Proof.
  induction a as [|e a IH]; intros seen b; [reflexivity|].
  cbn [app order_scan seen_after fold_left]. rewrite IH. unfold seen_after. rewrite andb_assoc. reflexivity.
Qed.

Lemma order_scan_prefix a seen b : order_scan seen (a ++ b) = true -> order_scan seen a = true.
Proof. rewrite order_scan_app. intros H. apply andb_true_iff in H. apply H. Qed.

Lemma order_scan_drop_wd a seen l b :
  order_scan seen (a ++ EWriteData l :: b) = true -> order_scan seen (a ++ b) = true.
Proof.
  rewrite !order_scan_app. cbn [order_scan]. intros H.
  apply andb_true_iff in H as [H1 H2]. apply andb_true_iff in H2 as [_ H2]. rewrite H1. exact H2.
Qed.

Lemma count_ev_app e a b : count_ev e (a ++ b) = (count_ev e a + count_ev e b)%nat.
Proof. induction a as [|x a IH]; cbn [app count_ev]; [reflexivity|]. rewrite IH. lia. Qed.

Lemma mem_ev_app e a b : mem_ev e (a ++ b) = mem_ev e a || mem_ev e b.
Proof. unfold mem_ev. apply existsb_app. Qed.

Definition not_wd (e : event) : bool := match e with EWriteData _ => false | _ => true end.

Lemma count_drop_wd e a l b : not_wd e = true -> count_ev e (a ++ EWriteData l :: b) = count_ev e (a ++ b).
Proof. intros H. rewrite !count_ev_app. cbn [count_ev]. destruct e; try discriminate; reflexivity. Qed.
Lemma mem_drop_wd e a l b : not_wd e = true -> mem_ev e (a ++ EWriteData l :: b) = mem_ev e (a ++ b).
Proof. intros H. rewrite !mem_ev_app. unfold mem_ev. cbn [existsb]. destruct e; try discriminate; reflexivity. Qed.

Lemma complete_ok_drop_wd a l b :
  complete_ok (a ++ EWriteData l :: b) = true -> complete_ok (a ++ b) = true.
Proof.
  unfold complete_ok, order_ok. rewrite !count_drop_wd, !mem_drop_wd by reflexivity.
  rewrite !andb_true_iff. intros [[[[H ?] ?] ?] ?]. repeat split; auto. exact (order_scan_drop_wd a [] l b H).
Qed.

Definition tailev (s : state) : list event := if hs_ok s then [EHandshakeDone; EReadSecret LvApp] else [].
(* what the goroutine will still create *)
Definition pending (s : state) : list event :=
  match g s with
  | GNone | GInit | GBuild | GWaitBlk true | GWaitSig true =>
      emits (build s) ++ (if build_ok s then emits (hs s) ++ tailev s else [])
  | GHs | GWaitBlk false | GWaitSig false => emits (hs s) ++ tailev s
  | _ => []
  end.
Definition may_complete (s : state) : bool :=
  match g s with
  | GNone | GInit | GBuild | GWaitBlk true | GWaitSig true => build_ok s && hs_ok s
  | GHs | GWaitBlk false | GWaitSig false => hs_ok s
  | _ => false
  end.
Definition post (x : gpc) : bool := match x with GClose1 | GClose2 | GRet | GDone => true | _ => false end.
Definition timeline (s : state) : list event := rev (hist s) ++ pending s.

(* One step leaves the timeline as it is, or coalesces the next pending WriteData into the last event, or
   (an error return) cuts what is pending. *)
Definition same_tl (s s' : state) : Prop :=
  timeline s' = timeline s /\ (may_complete s' = true -> may_complete s = true) /\
  (complete s' = true -> complete s = true \/ may_complete s = true).
Definition coal_tl (s s' : state) : Prop :=
  exists l b, pending s = EWriteData l :: b /\ pending s' = b /\ hist s' = hist s /\
  (may_complete s' = true -> may_complete s = true) /\ complete s' = complete s /\ complete s = false.
Definition cut_tl (s s' : state) : Prop :=
  pending s' = [] /\ hist s' = hist s /\ may_complete s' = false /\ complete s' = complete s /\ complete s = false.

Lemma emit_tl s0 s1 e :
  complete s0 = false -> complete s1 = false -> hist s1 = hist s0 ->
  pending s0 = e :: pending s1 -> (may_complete s1 = true -> may_complete s0 = true) ->
  same_tl s0 (emit s1 e) \/ coal_tl s0 (emit s1 e).
Proof.
  intros C0 C1 H P M. unfold emit. destruct (coalesces (queue s1) e) eqn:E.
  - right. unfold coalesces in E. destruct e as [| |l| | | |]; try discriminate E. exists l, (pending s1). repeat split; auto. congruence.
  - left. unfold same_tl, timeline. rewrite P. cbn [hist set_events rev]. rewrite H, <- app_assoc.
    split; [reflexivity|]. split; [exact M|]. intros X. change (complete s1 = true) in X. congruence.
Qed.

Definition inv3 (s : state) : bool := negb (complete s) || post (g s).

Lemma inv3_step s l s' r : invb s = true -> inv3 s = true -> step s l = Some (s', r) -> inv3 s' = true.
Proof.
  intros I0 I. revert s' r. apply step_elim. destruct l; step_cases.
  all: rewrite ?(emit_frame inv3) by reflexivity; try exact I.
  all: unfold inv3 in *; cbn; rewrite ?orb_true_r; try reflexivity.
  (* LStart spawns the goroutine only where there is none *)
  all: try rewrite (unstarted_unspawned s I0) in I by assumption.
  all: try match goal with H : g _ = _ |- _ => rewrite H in I end; exact I.
Qed.

(* what the timeline and its bookkeeping read of a state *)
Definition ev_view (s : state) := (g s, build s, build_ok s, hs s, hs_ok s, hist s, complete s).

Lemma same_tl_view s s' : ev_view s' = ev_view s -> same_tl s s'.
Proof.
  unfold ev_view, same_tl, timeline, pending, may_complete, tailev. intros E.
  injection E as -> -> -> -> -> -> ->. repeat split; auto.
Qed.

Lemma tl_step s l s' r : invb s = true -> inv3 s = true -> step s l = Some (s', r) -> same_tl s s' \/ coal_tl s s' \/ cut_tl s s'.
Proof.
  (* By label. The caller's labels, and the goroutine's moves that leave ev_view alone: same_tl_view. LGAct on an
     AEmit: the head of pending goes to hist through emit: same_tl, or coal_tl where emit coalesces (emit_tl). LGAct on
     an AWait, LGEnd of a script that reports success: pending is only re-bracketed, same_tl. LGEnd of a failing
     script, LGCancelSeen: what is pending is dropped, cut_tl. LStart spawns the goroutine only where there is none
     (G). inv3 says that nothing is complete while the goroutine is before its closing moves. *)
  intros I0 I3. revert s' r. apply step_elim. destruct l; step_cases.
  all: try (left; apply same_tl_view; reflexivity).
  all: try (assert (G : g s = GNone) by (apply unstarted_unspawned; assumption)).
  all: unfold inv3 in I3; match goal with H : g _ = _ |- _ => rewrite H in I3 end; cbn in I3;
       try rewrite orb_false_r in I3; try apply negb_true_iff in I3.
  all: try (match goal with |- same_tl ?s0 (emit ?s1 ?e0) \/ _ =>
        destruct (emit_tl s0 s1 e0) as [X|X]; [exact I3|exact I3|reflexivity| | |left; exact X|right; left; exact X] end).
  all: unfold same_tl, cut_tl, timeline, pending, may_complete, tailev, emit; cbn;
       repeat match goal with H : _ = _ |- _ => rewrite H; clear H end; cbn.
  all: try (left; rewrite <- ?app_assoc; repeat split; intros; auto; try discriminate; try congruence; fail).
  all: try (right; right; repeat split; auto; fail).
  all: auto.
Qed.

Definition EvInv (s : state) : Prop :=
  inv3 s = true /\ order_scan [] (timeline s) = true /\
  ((may_complete s = true \/ complete s = true) -> complete_ok (timeline s) = true).

Lemma EvInv_step s l s' r : invb s = true -> EvInv s -> step s l = Some (s', r) -> EvInv s'.
Proof.
  intros I0 (I3 & O & C) S. split; [eapply inv3_step; eauto|].
  destruct (tl_step _ _ _ _ I0 I3 S) as [X | [X | X]].
  - destruct X as (T & M & C1). rewrite T. split; [exact O|].
    intros [H|H]; apply C; [left; auto|]. destruct (C1 H) as [A|A]; [right|left]; exact A.
  - destruct X as (l0 & b & P & P' & H & M & C1 & C2). unfold timeline in *. rewrite P', H. rewrite P in O, C.
    split; [eapply order_scan_drop_wd; exact O|]. intros [Hm|Hc]; [|congruence].
    eapply complete_ok_drop_wd. apply C. left; auto.
  - destruct X as (P' & H & M & C1 & C2). unfold timeline in *. rewrite P', H, app_nil_r.
    split; [eapply order_scan_prefix; exact O|]. intros [Hm|Hc]; congruence.
Qed.

Lemma EvInv_reach s0 s : invb s0 = true -> EvInv s0 -> reach s0 s -> invb s = true /\ EvInv s.
Proof.
  intros I0 E0 R. induction R as [|s l s' r R IH S]; [auto|].
  destruct IH as [A B]. split; [eapply inv_step; eauto | eapply EvInv_step; eauto].
Qed.

Lemma EvInv_hist s : EvInv s -> order_ok (rev (hist s)) = true /\ (complete s = true -> complete_ok (rev (hist s)) = true).
Proof.
  intros (I3 & O & C). split.
  - unfold order_ok. eapply order_scan_prefix. exact O.
  - intros H. specialize (C (or_intror H)). unfold inv3 in I3. rewrite H in I3. cbn in I3.
    unfold timeline, pending in C. destruct (g s); try discriminate; rewrite app_nil_r in C; exact C.
Qed.

Lemma emits_app a b : emits (a ++ b) = emits a ++ emits b.
Proof. induction a as [|[e|] a IH]; cbn [app emits]; [reflexivity| |exact IH]. rewrite IH. reflexivity. Qed.
Lemma emits_waits n : emits (waits n) = [].
Proof. unfold waits. induction n; cbn [repeat emits]; auto. Qed.
Lemma emits_repeat e n : emits (repeat (AEmit e) n) = repeat e n.
Proof. induction n; cbn [repeat emits]; [reflexivity|]. rewrite IHn. reflexivity. Qed.
Lemma emits_firstn k : forall l, exists r, emits l = emits (firstn k l) ++ r.
Proof.
  induction k as [|k IH]; intros l; [exists (emits l); reflexivity|].
  destruct l as [|[e|] l]; cbn [firstn emits].
  - exists []; reflexivity.
  - destruct (IH l) as [r Hr]. exists r. rewrite Hr at 1. reflexivity.
  - exact (IH l).
Qed.

Lemma order_scan_repeat_wdh seen k rest :
  mem_ev (EWriteSecret LvHandshake) seen = true ->
  order_scan seen (repeat (EWriteData LvHandshake) k ++ rest) = order_scan seen rest.
Proof. intros H. induction k; cbn [repeat app order_scan]; [reflexivity|]. rewrite H, IHk. reflexivity. Qed.
Lemma count_repeat_wd e l k : not_wd e = true -> count_ev e (repeat (EWriteData l) k) = 0%nat.
Proof. intros H. induction k; cbn [repeat count_ev]; [reflexivity|]. rewrite IHk. destruct e; try discriminate; reflexivity. Qed.
Lemma mem_repeat_wd e l k : not_wd e = true -> mem_ev e (repeat (EWriteData l) k) = false.
Proof. intros H. unfold mem_ev. induction k; cbn [repeat existsb]; [reflexivity|]. rewrite IHk. destruct e; try discriminate; reflexivity. Qed.

Definition pre_full (tpb hrr : bool) : list event :=
  (if tpb then [] else [ETPRequired]) ++ [EWriteData LvInitial] ++ (if hrr then [EWriteData LvInitial] else []) ++
  [EWriteSecret LvHandshake; EReadSecret LvHandshake; ETransportParams].
Definition post_full : list event := [EWriteSecret LvApp; EHandshakeDone; EReadSecret LvApp].

Lemma full_timeline tpb hrr w w0 w1 w2 w3 n :
  emits (golang_build tpb w) ++ emits (client_full hrr w0 w1 w2 w3 n) ++ [EHandshakeDone; EReadSecret LvApp]
  = pre_full tpb hrr ++ repeat (EWriteData LvHandshake) (S n) ++ post_full.
Proof.
  unfold golang_build, client_full, pre_full, post_full. rewrite !emits_app, emits_repeat.
  destruct tpb, hrr; cbn [emits]; rewrite ?emits_waits; cbn [app]; rewrite <- ?app_assoc; reflexivity.
Qed.

Lemma full_order tpb hrr n : order_scan [] (pre_full tpb hrr ++ repeat (EWriteData LvHandshake) (S n) ++ post_full) = true.
Proof.
  rewrite order_scan_app. destruct tpb, hrr; cbn [pre_full app seen_after fold_left];
  (rewrite order_scan_repeat_wdh by reflexivity); reflexivity.
Qed.

Lemma full_complete tpb hrr n : complete_ok (pre_full tpb hrr ++ repeat (EWriteData LvHandshake) (S n) ++ post_full) = true.
Proof.
  unfold complete_ok, order_ok. rewrite full_order.
  rewrite !count_ev_app, !mem_ev_app, !count_repeat_wd, !mem_repeat_wd by reflexivity.
  destruct tpb, hrr; reflexivity.
Qed.

(* every client script starts in EvInv, whatever the number of waits, with or without HelloRetryRequest,
   with or without a failure after any number of actions, whether or not the hello can be built *)
Lemma client_EvInv ec mv tp0 tpb w bok hrr w0 w1 w2 w3 n cut :
  EvInv (init ec mv tp0 (golang_build tpb w) bok
              (fst (client_hs hrr w0 w1 w2 w3 n cut)) (snd (client_hs hrr w0 w1 w2 w3 n cut))).
Proof.
  pose proof (full_order tpb hrr n) as FO. pose proof (full_complete tpb hrr n) as FC.
  rewrite <- (full_timeline tpb hrr w w0 w1 w2 w3 n) in FO, FC.
  unfold EvInv. split; [reflexivity|].
  unfold timeline, pending, may_complete, tailev. cbn [init g hist build build_ok hs hs_ok complete rev app].
  destruct cut as [k|]; cbn [client_hs fst snd].
  - split.
    + destruct bok; [|rewrite app_nil_r; eapply order_scan_prefix; exact FO].
      rewrite app_nil_r. destruct (emits_firstn k (client_full hrr w0 w1 w2 w3 n)) as [r Hr].
      rewrite Hr, <- !app_assoc, app_assoc in FO. eapply order_scan_prefix. exact FO.
    + rewrite andb_false_r. intros [H|H]; discriminate.
  - destruct bok.
    + split; [exact FO|]. intros _. exact FC.
    + rewrite app_nil_r. split; [eapply order_scan_prefix; exact FO|]. intros [H|H]; discriminate.
Qed.

Lemma idle_no_emit s l s' r :
  invb s = true -> c s = CIdle -> is_call l = false -> step s l = Some (s', r) ->
  queue s' = queue s /\ hist s' = hist s.
Proof.
  intros I0 CI NC. revert s' r. apply step_elim. destruct s; cbn in CI; subst.
  destruct l; try discriminate NC; step_cases; auto.
  (* the script runs only while the caller waits *)
  all: discriminate I0.
Qed.
