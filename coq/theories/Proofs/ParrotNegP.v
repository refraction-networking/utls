(* For every spec, Config and randomness: the extension values ApplyPreset produces are the spec's with the documented
   substitutions (preset_exts_rel), hence the lists the negotiation consults - as UConn.ApplyConfig stores them in the
   client's view - are the spec's lists with the connection's GREASE group / version value in the GREASE slots
   (view_fields).  Model/ParrotNeg.v's abs_view / abs_wire agree with the real view and wire on everything
   Complete.spec_ok looks at besides [synced]. *)
From UV Require Import Base.Common Model.Wire Model.Varint Model.Ext Model.ExtSpec Model.Strict.
From UV Require Import Model.Padding Model.Marshal Model.ChMarshal Model.WriteToUConn Proofs.ComposeP.
From UV Require Model.Grease Proofs.GreaseP Proofs.PresetP Model.Negotiate Model.KeyShare Model.Complete.
From UV Require Import Model.Preset Model.PresetOk Model.ParrotNeg.
From UV Require Proofs.ComposeW.

(* what ApplyPreset does to one extension of the spec *)
Definition erel (sd : list N) (c : cfg) (s : sext) (e : ext) : Prop :=
  match s with
  | SGreaseECH su ci en pl => exists d, ech_init su ci en pl d = Ok e
  | SExt (ESNI host) => e = ESNI (if empty host then c_sni c else host)
  | SExt (EGREASE _ _) => exists x b, e = EGREASE x b
  | SExt (ESupportedCurves cs) => exists cs', Grease.map_res (Grease.regrease sd Grease.ssl_grease_group) cs = Ok cs' /\ e = ESupportedCurves cs'
  | SExt (EKeyShare ks) => exists keys ks' keys', preset_shares sd keys ks = Ok (ks', keys') /\ e = EKeyShare ks'
  | SExt (ESupportedVersions vs) => exists vs', Grease.map_res (Grease.regrease sd Grease.ssl_grease_version) vs = Ok vs' /\ e = ESupportedVersions vs'
  | SExt (EUtlsPreSharedKey se cl _ ids bs) => e = EUtlsPreSharedKey se cl (c_omit_psk c) ids bs
  | SExt (EFakePreSharedKey _ ids bs) => e = EFakePreSharedKey (c_omit_psk c) ids bs
  | SExt e0 => e = e0
  end.

Lemma step_erel sd c seen keys echs s e st : PresetP.preset_step sd c seen keys echs s e st -> erel sd c s e.
Proof.
  destruct 1 as [e Hp| | | | | | | | |]; cbn [erel]; eauto.
  destruct e; try discriminate Hp; reflexivity.
Qed.

Lemma preset_exts_rel sd c : forall ss seen keys echs es, preset_exts sd c seen keys echs ss = Ok es -> Forall2 (erel sd c) ss es.
Proof.
  induction ss as [|s r IH]; intros seen keys echs es H.
  - cbn [preset_exts] in H. inversion H. constructor.
  - destruct (PresetP.preset_exts_inv _ _ _ _ _ _ _ _ H) as (e & seen' & keys' & echs' & r' & -> & Hs & Hr).
    constructor; [exact (step_erel _ _ _ _ _ _ _ _ Hs) | exact (IH _ _ _ _ Hr)].
Qed.

Lemma regrease_sub sd idx x : Grease.boring_grease sd idx = Ok x ->
  forall l l', Grease.map_res (Grease.regrease sd idx) l = Ok l' -> l' = map (sub x) l.
Proof.
  intros Hx. induction l as [|a l IH]; intros l' H; cbn [Grease.map_res] in H; [inversion H; reflexivity|].
  destruct (Grease.regrease sd idx a) as [y|?|?] eqn:Ey; cbn [bind] in H; try discriminate.
  destruct (Grease.map_res (Grease.regrease sd idx) l) as [r|?|?] eqn:Er; cbn [bind] in H; try discriminate.
  inversion H; subst l'. cbn [map]. rewrite <- (IH r eq_refl). f_equal.
  unfold Grease.regrease in Ey. unfold sub. destruct (Grease.is_grease a); [rewrite Hx in Ey|]; inversion Ey; reflexivity.
Qed.

Lemma shares_sub sd x : Grease.boring_grease sd Grease.ssl_grease_group = Ok x ->
  forall ks keys ks' keys', preset_shares sd keys ks = Ok (ks', keys') -> map fst ks' = map (sub x) (map fst ks).
Proof.
  intros Hx. induction ks as [|[g d] ks IH]; intros keys ks' keys' H; cbn [preset_shares] in H; [inversion H; reflexivity|].
  (* whichever branch: the group kept is [sub x g], the data varies, the rest is a recursive call *)
  assert (Hstep : forall keys1 d1, (do rk <- preset_shares sd keys1 ks; Ok ((sub x g, d1) :: fst rk, snd rk)) = Ok (ks', keys') ->
                  map fst ks' = map (sub x) (map fst ((g, d) :: ks))).
  { intros keys1 d1 H1. destruct (preset_shares sd keys1 ks) as [[r k2]|?|?] eqn:Er; cbn [bind fst snd] in H1; try discriminate.
    inversion H1; subst. cbn [map fst]. rewrite (IH _ _ _ Er). reflexivity. }
  unfold sub in Hstep. destruct (Grease.is_grease g).
  - rewrite Hx in H. exact (Hstep _ _ H).
  - destruct (1 <? blen d); [exact (Hstep _ _ H)|].
    destruct (key_size g); [|discriminate]. destruct keys as [|k keys1]; [discriminate|].
    destruct (negb (blen k =? n)); [discriminate | exact (Hstep _ _ H)].
Qed.

Lemma ech_init_form su ci en pl d e : ech_init su ci en pl d = Ok e -> exists a b c' x y, e = EGREASEECH a b c' x y.
Proof. intros H. destruct (PresetP.ech_init_inv _ _ _ _ _ _ H) as (kdf & aead & cfgid & plen & -> & _). repeat eexists. Qed.

Section Getters.
  Variables (sd : list N) (c : cfg) (gg gv : N).
  Hypothesis Hgg : Grease.boring_grease sd Grease.ssl_grease_group = Ok gg.
  Hypothesis Hgv : Grease.boring_grease sd Grease.ssl_grease_version = Ok gv.

  Lemma erel_getters s e : erel sd c s e ->
    get_curves e = option_map (map (sub gg)) (s_curves s)
    /\ option_map (map fst) (get_shares e) = option_map (fun l => map (sub gg) (map fst l)) (s_shares s)
    /\ get_versions e = option_map (map (sub gv)) (s_versions s)
    /\ get_ccalgs e = s_ccalgs s
    /\ is_versions_ext e = (match s_versions s with Some _ => true | None => false end)
    /\ is_ccert_ext e = (match s_ccalgs s with Some _ => true | None => false end).
  Proof.
    intros H. destruct s as [e0|su ci en pl].
    - destruct e0; cbn [erel] in H;
      try (subst e; repeat split; reflexivity).
      + destruct H as (cs' & Hm & ->). rewrite (regrease_sub _ _ _ Hgg _ _ Hm). repeat split; reflexivity.
      + destruct H as (x & b & ->). repeat split; reflexivity.
      + destruct H as (keys & ks' & keys' & Hp & ->). cbn [get_shares option_map s_shares]. rewrite (shares_sub _ _ Hgg _ _ _ _ Hp). repeat split; reflexivity.
      + destruct H as (vs' & Hm & ->). rewrite (regrease_sub _ _ _ Hgv _ _ Hm). repeat split; reflexivity.
    - cbn [erel] in H. destruct H as (d & Hd). destruct (ech_init_form _ _ _ _ _ _ Hd) as (a & b & c' & x & y & ->). repeat split; reflexivity.
  Qed.

  Lemma fold_rel {A B} (getS : sext -> option A) (getE : ext -> option B) (f : A -> B) :
    (forall s e, erel sd c s e -> getE e = option_map f (getS s)) ->
    forall ss es, Forall2 (erel sd c) ss es -> forall a, last_of getE es (f a) = f (lastS getS ss a).
  Proof.
    intros Hg ss es H. induction H as [|s e ss es Hse _ IH]; intros a; [reflexivity|].
    unfold last_of, lastS in *. cbn [fold_left]. rewrite (Hg s e Hse). destruct (getS s) as [a1|]; cbn [option_map]; apply IH.
  Qed.

  Lemma existsb_rel (pS : sext -> bool) (pE : ext -> bool) :
    (forall s e, erel sd c s e -> pE e = pS s) -> forall ss es, Forall2 (erel sd c) ss es -> existsb pE es = existsb pS ss.
  Proof.
    intros Hp ss es H. induction H as [|s e ss es Hse _ IH]; [reflexivity|]. cbn [existsb]. rewrite (Hp s e Hse), IH. reflexivity.
  Qed.
End Getters.

(* a last-writer fold through its optional version, over the spec (lastS) and over the extension list (last_of) *)
Lemma fold_last_opt {E A} (get : E -> option A) l : forall init,
  fold_left (fun acc s => match get s with Some a => a | None => acc end) l init
  = match fold_left (fun acc s => match option_map Some (get s) with Some a => a | None => acc end) l None with
    | Some a => a | None => init end.
Proof.
  assert (G : forall (o : option A) init,
    fold_left (fun acc s => match get s with Some a => a | None => acc end) l (match o with Some a => a | None => init end)
    = match fold_left (fun acc s => match option_map Some (get s) with Some a => a | None => acc end) l o with Some a => a | None => init end).
  { induction l as [|s r IH]; intros o init; [reflexivity|]. cbn [fold_left]. destruct (get s) as [a|]; cbn [option_map].
    - apply (IH (Some a) init).
    - apply (IH o init). }
  intros init. exact (G None init).
Qed.

Lemma lastS_opt {A} (get : sext -> option A) ss : forall init,
  lastS get ss init = match lastS (fun s => option_map Some (get s)) ss None with Some a => a | None => init end.
Proof. exact (fold_last_opt get ss). Qed.

Lemma last_of_opt {A} (get : ext -> option A) es : forall init,
  last_of get es init = match last_of (fun e => option_map Some (get e)) es None with Some a => a | None => init end.
Proof. exact (fold_last_opt get es). Qed.

Lemma lastS_opt_some {A} (get : sext -> option A) ss :
  (match lastS (fun s => option_map Some (get s)) ss None with Some _ => true | None => false end)
  = existsb (fun s => match get s with Some _ => true | None => false end) ss.
Proof.
  unfold lastS. assert (G : forall o : option A,
    (match fold_left (fun acc s => match option_map Some (get s) with Some a => a | None => acc end) ss o with Some _ => true | None => false end)
    = (match o with Some _ => true | None => false end) || existsb (fun s => match get s with Some _ => true | None => false end) ss).
  { induction ss as [|s r IH]; intros o; cbn [fold_left existsb]; [rewrite orb_false_r; reflexivity|].
    rewrite IH. destruct (get s); cbn [option_map]; destruct o; reflexivity. }
  rewrite (G None). reflexivity.
Qed.

Lemma in_grease16 sd idx x : Grease.boring_grease sd idx = Ok x -> In x grease16.
Proof.
  intros H. destruct (GreaseP.boring_grease_form sd idx x H) as (_ & w & Hw & ->). unfold grease16. apply in_map. apply nrange_In. exact Hw.
Qed.

Lemma apply_preset_inv sp c fr h es : apply_preset sp c fr = Ok (h, es) ->
  exists mn mx sd gg gv, set_tls_vers sp = Ok (mn, mx) /\ h_vers h = legacy_of mx /\ h_comp h = [0]
    /\ Grease.boring_grease sd Grease.ssl_grease_group = Ok gg /\ Grease.boring_grease sd Grease.ssl_grease_version = Ok gv
    /\ In gg grease16 /\ In gv grease16 /\ Forall2 (erel sd c) (sp_exts sp) es.
Proof.
  intros H. destruct (PresetP.apply_preset_inv _ _ _ _ _ H) as (mn & mx & v & sd & su & Ev & Eh & _ & _ & Eg & _ & Ee & _ & ->).
  destruct (GreaseP.grease_seed_shape _ _ Eg) as (c0 & g0 & e1 & e2 & v0 & -> & _).
  unfold hello_vers in Eh. destruct (mx <? mn) eqn:Em; [discriminate|]. inversion Eh; subst v.
  exists mn, mx, [c0; g0; e1; e2; v0], (Grease.grease_word g0), (Grease.grease_word v0).
  assert (G1 : Grease.boring_grease [c0; g0; e1; e2; v0] Grease.ssl_grease_group = Ok (Grease.grease_word g0)) by reflexivity.
  assert (G2 : Grease.boring_grease [c0; g0; e1; e2; v0] Grease.ssl_grease_version = Ok (Grease.grease_word v0)) by reflexivity.
  repeat split; try reflexivity; try assumption.
  - exact (in_grease16 _ _ _ G1).
  - exact (in_grease16 _ _ _ G2).
  - exact (preset_exts_rel _ _ _ _ _ _ _ Ee).
Qed.

(* spec_rest looks at these fields only *)
Lemma spec_rest_ext fixed e ks m v v' w w' :
  Negotiate.cv_shares v = Negotiate.cv_shares v' -> Negotiate.cv_vmin v = Negotiate.cv_vmin v' ->
  Negotiate.cv_vmax v = Negotiate.cv_vmax v' -> Negotiate.cv_ech v = Negotiate.cv_ech v' ->
  Negotiate.cv_sv v = Negotiate.cv_sv v' -> Negotiate.cv_mlkem v = Negotiate.cv_mlkem v' ->
  Negotiate.w_has_sv w = Negotiate.w_has_sv w' -> (Negotiate.w_has_sv w' = true -> Negotiate.w_sv w = Negotiate.w_sv w') ->
  Negotiate.w_legacy w = Negotiate.w_legacy w' ->
  spec_rest fixed e v ks m w = spec_rest fixed e v' ks m w'.
Proof.
  intros H1 H2 H3 H4 H5 H6 H7 H8 H9.
  unfold spec_rest, Complete.versions_ok, Complete.keys_ok, Negotiate.advertised, Negotiate.offers13, Negotiate.version_offered,
    Negotiate.offered_max, Negotiate.max_version, Negotiate.client_versions.
  rewrite H1, H2, H3, H4, H5, H6, H7, H9. destruct (Negotiate.w_has_sv w'); [rewrite (H8 eq_refl); reflexivity | reflexivity].
Qed.

(* the real view of a hello built from a spec (no session in play) *)
Section Real.
  Variables (sp : spec) (c : cfg) (fr : fresh) (h : hello_hdr) (es : list ext).
  Hypothesis Ha : apply_preset sp c fr = Ok (h, es).
  Variables (mn mx : N) (env : wenv) (marsh : res bytes) (s' : uconn_state) (ks : KeyShare.kshape).
  Hypothesis Hv : set_tls_vers sp = Ok (mn, mx).
  Hypothesis Hcfg : apply_config env marsh (ComposeW.preset_state h mn mx) es = Ok s'.
  Hypothesis Hcache : we_cache_session env = false.

  Let v := view_of (finish false es s') es (KeyShare.sh_ecdhe ks) (KeyShare.sh_mlkem ks) 0.

  Lemma view_fields : exists gg gv, In gg grease16 /\ In gv grease16
    /\ Negotiate.cv_curves v = abs_curves sp gg /\ Negotiate.cv_shares v = abs_shares sp gg
    /\ Negotiate.cv_sv v = abs_sv sp mn mx gv
    /\ Negotiate.cv_vmin v = mn /\ Negotiate.cv_vmax v = mx /\ Negotiate.cv_ech v = false
    /\ Negotiate.cv_mlkem v = KeyShare.sh_mlkem ks /\ Negotiate.cv_psk v = 0
    /\ Negotiate.cv_ccext v = has_sccert sp /\ h_vers h = legacy_of mx
    /\ existsb is_versions_ext es = (match opt_versions sp with Some _ => true | None => false end)
    /\ (forall vs, opt_versions sp = Some vs -> Negotiate.cv_sv v = map (sub gv) vs).
  Proof.
    destruct (apply_preset_inv _ _ _ _ _ Ha) as (mn' & mx' & sd & gg & gv & Hv' & Hvers & _ & Hgg & Hgv & Ig & Iv & Hrel).
    rewrite Hv in Hv'. inversion Hv'; subst mn' mx'. exists gg, gv.
    destruct (apply_config_fields _ _ _ _ _ Hcfg) as ((_ & Cmin & Cmax & Cech & A1 & A2 & _) & A5 & A6).
    pose proof (erel_getters sd c gg gv Hgg Hgv) as G.
    assert (Hex : existsb is_versions_ext es = (match opt_versions sp with Some _ => true | None => false end)).
    { unfold opt_versions. rewrite lastS_opt_some. apply (existsb_rel sd c); [|exact Hrel]. intros s e He. apply (G s e He). }
    assert (Hsv : us_versions s' = abs_sv sp mn mx gv).
    { unfold abs_sv. rewrite Hex in A5. destruct (opt_versions sp) as [vs|] eqn:Eo.
      - rewrite A5, last_of_opt.
        pose proof (fold_rel sd c (fun s => option_map Some (s_versions s)) (fun e => option_map Some (get_versions e)) (option_map (map (sub gv)))) as F.
        specialize (F ltac:(intros s e He; destruct (G s e He) as (_ & _ & Gv & _); rewrite Gv; destruct (s_versions s); reflexivity)).
        specialize (F _ _ Hrel None). cbn [option_map] in F. rewrite F. unfold opt_versions in Eo. rewrite Eo. reflexivity.
      - destruct A5 as [A5 _]. rewrite A5. cbn [ComposeW.preset_state us_hdr us_cfg_min us_cfg_max us_cfg_ech]. rewrite Hvers. reflexivity. }
    unfold v, view_of, finish.
    cbn [Negotiate.cv_curves Negotiate.cv_shares Negotiate.cv_sv Negotiate.cv_vmin Negotiate.cv_vmax Negotiate.cv_ech
         Negotiate.cv_mlkem Negotiate.cv_psk Negotiate.cv_ccext].
    rewrite A1, A2, Hsv, Cmin, Cmax, Cech, (A6 Hcache). repeat split; try assumption; try reflexivity.
    - exact (fold_rel sd c s_curves get_curves (map (sub gg)) ltac:(intros s e He; apply (G s e He)) _ _ Hrel []).
    - rewrite <- (last_of_map (map fst) get_shares es).
      exact (fold_rel sd c s_shares (fun e => option_map (map fst) (get_shares e)) (fun l => map (sub gg) (map fst l))
               ltac:(intros s e He; apply (G s e He)) _ _ Hrel []).
    - unfold has_sccert. apply (existsb_rel sd c); [|exact Hrel]. intros s e He. apply (G s e He).
    - intros vs Hvs. unfold abs_sv. rewrite Hvs. reflexivity.
  Qed.
End Real.
