(* C16 over Model/EchGrease.v: Read emits [outer_ext] of the generated fields (ext_bytes_layout), the server-side
   parser reads that layout back, and init on a parrot's template sets every generated field to its draw. *)
From UV Require Import Base.Common Model.EchGrease.

Lemma be16_value x : x < 65536 -> hi8 x * 256 + lo8 x = x.
Proof.
  intros H. unfold hi8, lo8.
  rewrite (N.mod_small (x / 256) 256) by (apply N.div_lt_upper_bound; lia).
  pose proof (N.div_mod x 256). lia.
Qed.

Lemma rd16_be16 x r : x < 65536 -> rd16 (be16 x ++ r) = Some (x, r).
Proof. intros H. unfold be16. cbn [app rd16]. rewrite be16_value by exact H. reflexivity. Qed.

Lemma firstn_app_exact {A} (x r : list A) : firstn (length x) (x ++ r) = x.
Proof. induction x as [|a x IH]; simpl; [destruct r; reflexivity | rewrite IH; reflexivity]. Qed.
Lemma skipn_app_exact {A} (x r : list A) : skipn (length x) (x ++ r) = r.
Proof. induction x as [|a x IH]; simpl; [reflexivity | exact IH]. Qed.

Lemma rd_vec16_ok x r : nlen x < 65536 -> rd_vec16 (be16 (nlen x) ++ x ++ r) = Some (x, r).
Proof.
  intros H. unfold rd_vec16. rewrite rd16_be16 by exact H.
  assert (Hl : (N.of_nat (length (x ++ r)) <? nlen x) = false).
  { unfold nlen. rewrite app_length. lia. }
  rewrite Hl. unfold nlen. rewrite Nat2N.id, firstn_app_exact, skipn_app_exact. reflexivity.
Qed.

Lemma rd_vec16_all x : nlen x < 65536 -> rd_vec16 (be16 (nlen x) ++ x) = Some (x, []).
Proof. intros H. rewrite <- (app_nil_r x) at 2. apply rd_vec16_ok. exact H. Qed.

(* the extension layout of the property, as a function of the five fields *)
Definition outer_body (kdf aead id : N) (enc pl : bytes) : bytes :=
  [0] ++ be16 kdf ++ be16 aead ++ [id] ++ be16 (nlen enc) ++ enc ++ be16 (nlen pl) ++ pl.
Definition outer_ext (kdf aead id : N) (enc pl : bytes) : bytes :=
  be16 utlsExtensionECH ++ be16 (nlen (outer_body kdf aead id enc pl)) ++ outer_body kdf aead id enc pl.

Lemma outer_body_len kdf aead id enc pl : nlen (outer_body kdf aead id enc pl) = 10 + nlen enc + nlen pl.
Proof. unfold outer_body, nlen, be16. repeat (rewrite app_length; cbn [length]). lia. Qed.

Lemma parse_outer_body kdf aead id enc pl :
  kdf < 65536 -> aead < 65536 -> nlen enc < 65536 -> nlen pl < 65536 -> pl <> [] ->
  parse_outer (outer_body kdf aead id enc pl) = Some (mkOuter kdf aead id enc pl).
Proof.
  intros Hk Ha He Hp Hne. unfold outer_body, parse_outer. cbn [app]. cbn [N.eqb negb].
  rewrite rd16_be16 by exact Hk. rewrite rd16_be16 by exact Ha. cbn [app].
  rewrite rd_vec16_ok by exact He. rewrite rd_vec16_all by exact Hp. destruct pl; [congruence | reflexivity].
Qed.

Lemma parse_outer_ext kdf aead id enc pl :
  nlen enc + nlen pl < 65526 ->
  parse_ext (outer_ext kdf aead id enc pl) = Some (utlsExtensionECH, outer_body kdf aead id enc pl).
Proof.
  intros H. unfold outer_ext, parse_ext. rewrite rd16_be16 by (vm_compute; reflexivity).
  rewrite rd_vec16_all by (rewrite outer_body_len; lia). reflexivity.
Qed.

Lemma ext_bytes_layout g :
  ext_bytes g = outer_ext (fst (cipherSuite g)) (snd (cipherSuite g)) (configId g) (EncapsulatedKey g) (payload g).
Proof.
  unfold ext_bytes, outer_ext. rewrite outer_body_len. unfold ext_len_of, outer_body, be16. cbn [app].
  replace (2 + 2 + 1 + 4 + 1 + 2 + nlen (EncapsulatedKey g) + 2 + nlen (payload g) - 4)
    with (10 + nlen (EncapsulatedKey g) + nlen (payload g)) by lia.
  unfold OuterClientHello. reflexivity.
Qed.

Lemma ext_len_of_bytes g : ext_len_of g = nlen (ext_bytes g).
Proof. unfold ext_bytes, ext_len_of, nlen. rewrite !app_length. cbn [length]. lia. Qed.

Definition valid_aead (a : N) : Prop := a = AEAD_AES_128_GCM \/ a = AEAD_AES_256_GCM \/ a = AEAD_ChaCha20Poly1305.

Record template_ok (g : grease) : Prop := {
  t_uninit : init_done g = false;
  t_no_key : EncapsulatedKey g = [];
  t_no_payload : payload g = [];
  t_suites : Forall (fun s => fst s < 65536 /\ valid_aead (snd s)) (CandidateCipherSuites g);
  t_lens : Forall (fun c => c + 16 < 65000) (CandidatePayloadLens g)
}.
Record fresh_ok (g : grease) (f : fresh) : Prop := {
  f_suite_in : CandidateCipherSuites g <> [] -> f_suite_pick f < nlen (CandidateCipherSuites g);
  f_len_in : f_len_pick f < nlen (lens_or_default (CandidatePayloadLens g));
  f_enc_32 : nlen (f_enc f) = 32;
  f_rand_fills : forall n, nlen (f_rand f n) = n
}.

Lemma cipherLen_valid a m : valid_aead a -> cipherLen a m = Ok (m + 16).
Proof. intros [ -> | [ -> | -> ] ]; reflexivity. Qed.

Lemma is_nil_false {A} (l : list A) : l <> [] -> is_nil l = false.
Proof. destruct l; [congruence | reflexivity]. Qed.

Lemma nth_suite_in l i : i < nlen l -> In (nth_suite l i) l.
Proof. intros H. unfold nth_suite. apply nth_In. unfold nlen in H. lia. Qed.
Lemma nth_N_in l i : i < nlen l -> In (nth_N l i) l.
Proof. intros H. unfold nth_N. apply nth_In. unfold nlen in H. lia. Qed.

Definition chosen_suite (g : grease) (f : fresh) : suite :=
  if is_nil (CandidateCipherSuites g) then (defaultHpkeKdf, defaultHpkeAead) else nth_suite (CandidateCipherSuites g) (f_suite_pick f).
Definition chosen_len (g : grease) (f : fresh) : N :=
  nth_N (lens_or_default (CandidatePayloadLens g)) (f_len_pick f).
Definition chosen_id (g : grease) (f : fresh) : N :=
  if is_nil (CandidateConfigIds g) then f_id_byte f else nth_N (CandidateConfigIds g) (f_id_pick f).

Lemma chosen_suite_ok g f : template_ok g -> fresh_ok g f ->
  In (chosen_suite g f) (candidates_or_default (CandidateCipherSuites g)) /\
  fst (chosen_suite g f) < 65536 /\ valid_aead (snd (chosen_suite g f)).
Proof.
  intros T F. unfold chosen_suite, candidates_or_default.
  destruct (CandidateCipherSuites g) as [|s l] eqn:E; cbn [is_nil].
  - split; [left; reflexivity|]. split; [vm_compute; reflexivity | left; reflexivity].
  - assert (Hin : In (nth_suite (s :: l) (f_suite_pick f)) (s :: l)).
    { apply nth_suite_in. rewrite <- E. apply (f_suite_in g f F). rewrite E. discriminate. }
    split; [exact Hin|]. pose proof (t_suites g T) as Hs. rewrite E, Forall_forall in Hs. exact (Hs _ Hin).
Qed.

Lemma chosen_len_ok g f : template_ok g -> fresh_ok g f ->
  In (chosen_len g f) (lens_or_default (CandidatePayloadLens g)) /\ chosen_len g f + 16 < 65000.
Proof.
  intros T F. unfold chosen_len.
  assert (Hin : In (nth_N (lens_or_default (CandidatePayloadLens g)) (f_len_pick f)) (lens_or_default (CandidatePayloadLens g))).
  { apply nth_N_in. exact (f_len_in g f F). }
  split; [exact Hin|]. revert Hin. generalize (nth_N (lens_or_default (CandidatePayloadLens g)) (f_len_pick f)). intros c Hin.
  unfold lens_or_default in Hin. destruct (CandidatePayloadLens g) as [|c0 l] eqn:E; cbn [is_nil] in Hin.
  - destruct Hin as [<-|[]]. lia.
  - pose proof (t_lens g T) as Hs. rewrite E, Forall_forall in Hs. exact (Hs _ Hin).
Qed.

(* init on a template: every generated field is the corresponding draw *)
Lemma init_template g f : template_ok g -> fresh_ok g f ->
  init g f = Ok (mkGrease (CandidateCipherSuites g) (chosen_suite g f) (CandidateConfigIds g) (chosen_id g f) (f_enc f)
                          (lens_or_default (CandidatePayloadLens g)) (f_rand f (chosen_len g f + 16)) true).
Proof.
  intros T F. destruct (chosen_suite_ok g f T F) as (_ & _ & Hv). unfold chosen_suite in Hv.
  unfold init, init_body, randomizePayload, chosen_suite, chosen_id, chosen_len, lens_or_default.
  rewrite (t_uninit g T), (t_no_key g T), (t_no_payload g T).
  cbn [is_nil payload CandidatePayloadLens cipherSuite CandidateCipherSuites CandidateConfigIds configId EncapsulatedKey init_done].
  rewrite (cipherLen_valid _ _ Hv). cbn [bind]. reflexivity.
Qed.

Lemma init_marks_done g f g' : init g f = Ok g' -> init_done g' = true.
Proof.
  unfold init. destruct (init_done g) eqn:E.
  - intros H. injection H as <-. exact E.
  - destruct (init_body g f); cbn [bind]; intros H; try discriminate. injection H as <-. reflexivity.
Qed.

Lemma init_done_id g f : init_done g = true -> init g f = Ok g.
Proof. intros H. unfold init. rewrite H. reflexivity. Qed.

Lemma Read_state g f b g' e : Read g f b = Ok (g', e) -> init_done g' = true /\ e = ext_bytes g'.
Proof.
  unfold Read. destruct (init g f) as [g1| |] eqn:E; cbn [bind]; try discriminate.
  destruct (b <? ext_len_of g1); [discriminate|]. intros H. injection H as <- <-.
  split; [exact (init_marks_done g f g1 E) | reflexivity].
Qed.

Lemma reads_done g fs b es : init_done g = true -> reads g fs b = Ok es -> Forall (eq (ext_bytes g)) es.
Proof.
  revert es. induction fs as [|f fs IH]; intros es Hd H; cbn [reads] in H.
  - injection H as <-. constructor.
  - unfold Read in H. rewrite (init_done_id g f Hd) in H. cbn [bind] in H.
    destruct (b <? ext_len_of g); cbn [bind] in H; [discriminate|]. cbn [fst snd] in H.
    destruct (reads g fs b) as [rest| |] eqn:E; cbn [bind] in H; try discriminate.
    injection H as <-. constructor; [reflexivity | exact (IH rest Hd eq_refl)].
Qed.
