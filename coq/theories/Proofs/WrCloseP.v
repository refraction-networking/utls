(* C26, Write against Close (Model/WrClose.v): the boolean invariant [invb], the list [inv_states] of the
   states that satisfy it, one evaluation over that list for preservation, progress and the interlock, and a
   rank on the two program counters for termination. *)
From UV Require Import Base.Common Model.WrClose.

Inductive reach (s0 : state) : state -> Prop :=
| reach_init : reach s0 s0
| reach_step s l s' : reach s0 s -> step s l = Some s' -> reach s0 s'.

Definition bools := [true; false].
Definition holders := [HFree; HW; HC].
Definition wpcs := [W0; W1; W2; W3; W4; W5; WRet].
Definition cpcs := [C0; C1; C2; C3; C4; C5; CRet].
Definition wress := [WNone; WOk; WErrClosed; WErr].
Definition all_states : list state :=
  flat_map (fun me => flat_map (fun co => flat_map (fun st => flat_map (fun cb => flat_map (fun inf => flat_map (fun o =>
  flat_map (fun cl => flat_map (fun wp => flat_map (fun cp => flat_map (fun sw => flat_map (fun wr =>
  map (fun d => mkState me co st cb inf o cl wp cp sw wr d) bools) wress) bools) cpcs) wpcs) bools) holders) bools) bools) bools) bools) bools.

Lemma bools_all b : In b bools. Proof. destruct b; cbn; auto. Qed.
Lemma holders_all o : In o holders. Proof. destruct o; cbn; auto. Qed.
Lemma wpcs_all q : In q wpcs. Proof. destruct q; cbn; auto 10. Qed.
Lemma cpcs_all q : In q cpcs. Proof. destruct q; cbn; auto 10. Qed.
Lemma wress_all r : In r wress. Proof. destruct r; cbn; auto. Qed.
#[local] Hint Resolve bools_all holders_all wpcs_all cpcs_all wress_all : core.

Lemma all_states_complete s : In s all_states.
Proof.
  destruct s. unfold all_states. repeat (apply in_flat_map_all; [auto | eexists]).
  apply in_map_iff. eexists. split; [reflexivity | auto].
Qed.

Lemma sweep (P : state -> bool) : forallb P all_states = true -> forall s, P s = true.
Proof. intros H s. rewrite forallb_forall in H. apply H. apply all_states_complete. Qed.

Definition w_in (q : wpc) : bool := match q with W1 | W2 | W3 | W4 | W5 => true | _ => false end.
Definition w_holds (q : wpc) : bool := match q with W3 | W4 => true | _ => false end.
Definition c_holds (q : cpc) : bool := match q with C3 | C4 => true | _ => false end.
Definition c_after (q : cpc) : bool := match q with C0 => false | _ => true end.
Definition is_hw (o : holder) : bool := match o with HW => true | _ => false end.
Definition is_hc (o : holder) : bool := match o with HC => true | _ => false end.
Definition c_notify (q : cpc) : bool := match q with C1 | C2 | C3 | C4 => true | _ => false end.

(* invariant of the code as it is (marker_early = false) *)
Definition invb (s : state) : bool :=
  negb (marker_early s)
  && eqb (inflight s) (w_in (w s))                       (* the marker covers the whole Write *)
  && eqb (is_hw (out s)) (w_holds (w s))
  && eqb (is_hc (out s)) (c_holds (c s))
  && eqb (closed_bit s) (c_after (c s) || cdone s && false)
  && (negb (c_notify (c s)) || negb (saw_writer s) && negb (w_in (w s)))   (* closeNotify path: no Write in flight, and none can start *)
  && eqb (conn_closed s) (match c s with CRet => true | _ => false end)
  && (match wret s with WOk => negb (stall s) | _ => true end)
  && (match c s with CRet => cdone s | _ => negb (cdone s) end).

(* the invariant makes six of the twelve fields functions of the two program counters *)
Definition canon (wp : wpc) (cp : cpc) (co st sw : bool) (wr : wres) : state :=
  let ret := match cp with CRet => true | _ => false end in
  mkState false co st (c_after cp) (w_in wp) (if w_holds wp then HW else if c_holds cp then HC else HFree) ret wp cp sw wr ret.

Lemma inv_canon s : invb s = true -> s = canon (w s) (c s) (complete s) (stall s) (saw_writer s) (wret s).
Proof.
  destruct s as [me co st cb inf o cl wp cp sw wr d]. cbv [invb canon marker_early complete stall closed_bit inflight out conn_closed w c saw_writer wret cdone].
  rewrite !andb_true_iff, !eqb_true_iff, andb_false_r, orb_false_r. intros [[[[[[[[M I] OW] OC] B] _] L] _] D]. subst cb inf cl. f_equal.
  - destruct me; [discriminate | reflexivity].
  - rewrite <- OW, <- OC. destruct o; reflexivity.
  - destruct cp, d; (discriminate || reflexivity).
Qed.

Definition inv_states : list state :=
  flat_map (fun wp => flat_map (fun cp => flat_map (fun co => flat_map (fun st => flat_map (fun sw =>
  map (canon wp cp co st sw) wress) bools) bools) bools) cpcs) wpcs.

Lemma inv_states_complete s : invb s = true -> In s inv_states.
Proof.
  intros I. rewrite (inv_canon s I). unfold inv_states. repeat (apply in_flat_map_all; [auto | eexists]). apply in_map. auto.
Qed.

Definition step_preserves (s : state) : bool :=
  implb (invb s) (forallb (fun l => match step s l with Some s' => invb s' | None => true end) [LW; LC]).

Definition progress_p (s : state) : bool := implb (invb s && negb (finished s)) (can_step s).

(* Close never waits for c.out behind a Write, and a Write counted by the interlock is in flight until it has returned *)
Definition interlock_p (s : state) : bool :=
  implb (invb s) ((negb (match c s with C2 => true | _ => false end) || negb (is_hw (out s)))
                  && (negb (w_in (w s)) || inflight s)
                  && (match wret s with WOk => negb (stall s) | _ => true end)).

(* the control space is finite: one evaluation over [inv_states] decides all three *)
Definition inv_facts : list (state -> bool) := [step_preserves; progress_p; interlock_p].

Lemma inv_facts_all : forallb (fun s => forallb (fun f => f s) inv_facts) inv_states = true.
Proof. vm_compute. reflexivity. Qed.

Lemma inv_fact f s : In f inv_facts -> invb s = true -> f s = true.
Proof.
  intros F I. pose proof inv_facts_all as H. rewrite forallb_forall in H. specialize (H s (inv_states_complete s I)).
  exact (proj1 (forallb_forall _ _) H f F).
Qed.

Lemma inv_fact_all f : In f inv_facts -> (forall s, invb s = false -> f s = true) -> forallb f all_states = true.
Proof. intros F N. apply forallb_forall. intros s _. destruct (invb s) eqn:I; [apply inv_fact | apply N]; assumption. Qed.

Lemma inv_step s l s' : invb s = true -> step s l = Some s' -> invb s' = true.
Proof.
  intros I S. pose proof (inv_fact step_preserves s (or_introl eq_refl) I) as H. unfold step_preserves in H. rewrite I in H.
  cbn [implb] in H. rewrite forallb_forall in H. specialize (H l). rewrite S in H. apply H. destruct l; cbn; auto.
Qed.
Lemma inv_reach s0 s : invb s0 = true -> reach s0 s -> invb s = true.
Proof. intros I R. induction R as [|s l s' R IH S]; [exact I|]. eapply inv_step; eauto. Qed.

Lemma progress_all : forallb progress_p all_states = true.
Proof. apply inv_fact_all; [cbn; auto | intros s I; unfold progress_p; rewrite I; reflexivity]. Qed.

Lemma interlock_all : forallb interlock_p all_states = true.
Proof. apply inv_fact_all; [cbn; auto | intros s I; unfold interlock_p; rewrite I; reflexivity]. Qed.

Definition wrank (q : wpc) : nat := match q with W0 => 6 | W1 => 5 | W2 => 4 | W3 => 3 | W4 => 2 | W5 => 1 | WRet => 0 end.
Definition crank (q : cpc) : nat := match q with C0 => 6 | C1 => 5 | C2 => 4 | C3 => 3 | C4 => 2 | C5 => 1 | CRet => 0 end.
Definition measure (s : state) : nat := (wrank (w s) + crank (c s))%nat.
Definition decreases_p (s : state) : bool :=
  forallb (fun l => match step s l with Some s' => Nat.ltb (measure s') (measure s) | None => true end) [LW; LC].

(* a step of either process moves its own pc to one of lower rank and leaves the other's *)
Lemma step_decreases s l s' : step s l = Some s' -> (measure s' < measure s)%nat.
Proof.
  destruct s as [me co st cb inf o cl wp cp sw wr d], l; cbn.
  - (* Write; guarded at W0 by the closed bit, at W2 by c.out, at W3 by the transport *)
    destruct wp; [destruct cb| |destruct o|destruct cl, st| | |];
      intros [= <-] || discriminate; unfold measure; cbn; lia.
  - (* Close; guarded at C0 by the closed bit and the marker, at C1 by complete, at C2 by c.out *)
    destruct cp; [destruct cb, inf|destruct co|destruct o| | | |];
      intros [= <-] || discriminate; unfold measure; cbn; lia.
Qed.

Lemma decreases_all : forallb decreases_p all_states = true.
Proof.
  apply forallb_forall. intros s _. apply forallb_forall. intros l _. destruct (step s l) eqn:S; [|reflexivity].
  apply Nat.ltb_lt. eapply step_decreases, S.
Qed.
