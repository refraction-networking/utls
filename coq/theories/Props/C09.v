(* C09 - randomized fingerprints are seed-reproducible and internally consistent.

   Model: Model/Randomized.v [generate] mirrors generateRandomizedSpec (u_parrots.go:2949-3157).
   STATE OF THESE FILES: they describe the UNFIXED code. The two key-share statements are refuted
   (finding F-09, keys keyshare-not-in-groups / hybrid-without-share); their strongest true
   conditional versions are proved.

   Determinism is purity: [generate] is a Gallina function of (table, variant, weights, serverName,
   NextProtos, SHAKE256 stream of the seed, salted stream); the same inputs give the same spec by
   reflexivity (C09_deterministic), and the correspondence check confirms on every run that the code
   is that function of exactly those inputs (and calls it twice per input).

   All other theorems quantify over EVERY byte stream (a superset of the 2^256 seeds), every
   weights vector, every table and, where floats matter, every rounding function with the IEEE-754
   laws [ieee_laws] (monotone; 0, 1, 2^63, 2^-63 exact; equal rationals round alike). [nz s]: no 63-bit draw of the stream is 0
   (FlipWeightedCoin(1.0) is false on a zero draw, probability 2^-63 each). *)
From UV Require Import Base.Common Model.Prng Proofs.PrngP Model.Randomized Proofs.RandomizedP Proofs.RandomizedW Proofs.RandomizedS Proofs.RandomizedC Model.RandomizedId.
From Coq Require Import QArith Permutation Sorted.
Open Scope N_scope.

Theorem C09_deterministic : forall rnd fuel tb v w sn np s salted p q,
  generate rnd fuel tb v w sn np s salted = p -> generate rnd fuel tb v w sn np s salted = q -> p = q.
Proof. congruence. Qed.
Print Assumptions C09_deterministic.

(* Reproducibility is about a SEQUENCE of builds on one ClientHelloID: generateRandomizedSpec gets *ClientHelloID, and
   every copy of an id value shares its Seed pointer (a Roller, or a caller reusing an id for a second connection).
   In the model a build returns the id it was given ([Model.RandomizedId.build]; [generate] has no seed in its result
   type), so the second build sees the same inputs and returns the same spec. That the CODE leaves the caller's seed
   bytes alone is a correspondence observable (CGen: seed bytes after two builds from one *PRNGSeed = [id_seed] of
   the id the model hands back) and a Go-side oracle (seed, weights, id fields unchanged after every build, through
   the hook and through UClient+BuildHandshakeState with one shared Seed pointer). *)
Theorem C09_build_twice : forall rnd fuel tb id sn np s salted,
  let '(r1, id1) := build rnd fuel tb id sn np s salted in
  let '(r2, id2) := build rnd fuel tb id1 sn np s salted in
  r1 = r2 /\ id1 = id /\ id2 = id.
Proof. cbn. auto. Qed.
Print Assumptions C09_build_twice.

(* suites: a TLS 1.3 block (only in TLS 1.3 specs), then suites flagged suiteTLS12, then older ones *)
Theorem C09_suite_order : forall rnd fuel tb v w sn np s salted p,
  generate rnd fuel tb v w sn np s salted = Ok p ->
  exists a b c, sp_ciphers p = a ++ b ++ c /\
    Forall (fun x => In x (t_tls13 tb)) a /\ Forall (row_in tb true) b /\ Forall (row_in tb false) c /\
    (sp_max p <> VersionTLS13 -> a = []).
Proof. exact suite_order. Qed.
Print Assumptions C09_suite_order.

(* removeRandomCiphers never removes the first suite *)
Theorem C09_first_suite_kept : forall rnd s0 w s out s' x t,
  removeRandomCiphers rnd s0 w s = Ok (out, s') -> s0 = x :: t -> exists t', out = x :: t'.
Proof. exact first_suite_kept. Qed.
Print Assumptions C09_first_suite_kept.

(* TLS 1.3 specs: no RC4, RSA-PSS offered, padding present, supported_versions = [max..min], one key_share *)
Theorem C09_tls13_rules : forall rnd fuel tb v w sn np s salted p,
  generate rnd fuel tb v w sn np s salted = Ok p -> sp_max p = VersionTLS13 ->
  Forall (fun c => is_rc4 c = false) (sp_ciphers p) /\
  (exists algs, In (ESigAlgs algs) (sp_exts p) /\ In PSSWithSHA256 algs) /\
  In EPadding (sp_exts p) /\
  (sp_min p = VersionTLS10 \/ sp_min p = VersionTLS12) /\
  In (ESupportedVersions (makeSupportedVersions (sp_min p) (sp_max p))) (sp_exts p) /\
  (exists ks, In (EKeyShare ks) (sp_exts p)).
Proof. exact tls13_rules. Qed.
Print Assumptions C09_tls13_rules.

Theorem C09_versions_desc : makeSupportedVersions VersionTLS10 VersionTLS13 = [772; 771; 770; 769] /\
                            makeSupportedVersions VersionTLS12 VersionTLS13 = [772; 771].
Proof. split; reflexivity. Qed.

(* ALPS only with ALPN (and only in TLS 1.3 specs) *)
Theorem C09_alps_needs_alpn : forall rnd fuel tb v w sn np s salted p q,
  generate rnd fuel tb v w sn np s salted = Ok p -> In (EALPS q) (sp_exts p) ->
  (exists q', In (EALPN q') (sp_exts p)) /\ sp_max p = VersionTLS13.
Proof. exact alps_needs_alpn. Qed.
Print Assumptions C09_alps_needs_alpn.

(* Every coin flip: the table [coins] (Model/RandomizedCoins.v) has one row per FlipWeightedCoin(id.Weights.X)
   site of generateRandomizedSpec, in source order (a CCoins correspondence case compares the rows' weight fields
   with the id.Weights.X references and the number of FlipWeightedCoin calls found in the function's source text).
   For EVERY row: weight <= 0 (or -Inf) makes the feature present exactly when a TLS 1.3 rule / the -ALPN id
   forces it ([c_forced], [False] for most rows); weight >= 1 (or +Inf) makes it present whenever the coin is
   flipped at all ([c_app]), provided no 63-bit draw is zero. *)
Theorem C09_coins : forall rnd, ieee_laws rnd -> forall c, In c coins ->
  forall fuel tb v w sn np s salted p, generate rnd fuel tb v w sn np s salted = Ok p ->
  (w_le0 (wfield (c_field c) w) -> (c_feature c tb v p <-> c_forced c v p)) /\
  (w_ge1 (wfield (c_field c) w) -> nz s -> nz salted -> c_app c v p -> c_feature c tb v p).
Proof. intros rnd L. exact (proj1 (Forall_forall (coin_ok rnd) coins) (coins_ok rnd L)). Qed.
Print Assumptions C09_coins.
(* the rows, visibly: (source line, weights field index) *)
Example C09_coins_rows : map (fun c => (c_line c, c_field c)) coins =
  [(2980, 0); (2995, 1); (3171, 2); (3029, 3); (3032, 4); (3035, 5); (3038, 6); (3056, 7); (3059, 7); (3063, 8);
   (3089, 9); (3094, 10); (3097, 11); (3100, 12); (3103, 13); (3110, 14); (3113, 15); (3116, 15); (3141, 16)].
Proof. reflexivity. Qed.
(* the exceptions, exactly: which rows are forced / conditional *)
Example C09_coins_forced :
  (forall v p, c_forced coin_alpn v p <-> v = VALPN) /\
  (forall v p, c_forced coin_pss256 v p <-> sp_max p = VersionTLS13) /\
  (forall v p, c_forced coin_x25519 v p <-> sp_max p = VersionTLS13) /\
  (forall v p, c_forced coin_padding v p <-> sp_max p = VersionTLS13) /\
  (forall c, In c coins -> c <> coin_alpn -> c <> coin_pss256 -> c <> coin_x25519 -> c <> coin_padding ->
     forall v p, ~ c_forced c v p).
Proof.
  repeat split; try (intros H; exact H).
  intros c Hin N1 N2 N3 N4 v p. cbn [coins In] in Hin.
  repeat (destruct Hin as [<-|Hin]; [try contradiction; try (intros []) |]); contradiction.
Qed.

(* the two summaries below spell the corners out extension by extension, naming the extension's content *)
(* weight <= 0 (or -Inf): the optional feature is absent unless a TLS 1.3 rule forces it *)
Theorem C09_weight0_absent : forall rnd, ieee_laws rnd -> forall fuel tb v w sn np s salted p,
  generate rnd fuel tb v w sn np s salted = Ok p ->
  (w_le0 (w_tls13 w) -> sp_max p = VersionTLS12) /\
  (w_le0 (w_alpn w) -> v = VRandomized -> forall q, ~ In (EALPN q) (sp_exts p)) /\
  (w_le0 (w_padding w) -> sp_max p <> VersionTLS13 -> ~ In EPadding (sp_exts p)) /\
  (w_le0 (w_status w) -> ~ In EStatus (sp_exts p)) /\
  (w_le0 (w_sct w) -> ~ In ESCT (sp_exts p)) /\
  (w_le0 (w_reneg w) -> forall m, ~ In (EReneg m) (sp_exts p)) /\
  (w_le0 (w_ems w) -> ~ In EEMS (sp_exts p)) /\
  (w_le0 (w_alps w) -> forall q, ~ In (EALPS q) (sp_exts p)).
Proof. exact weight0_absent. Qed.
Print Assumptions C09_weight0_absent.

(* weight >= 1 (or +Inf): present, provided no 63-bit draw is exactly 0 *)
Theorem C09_weight1_present : forall rnd, ieee_laws rnd -> forall fuel tb v w sn np s salted p,
  generate rnd fuel tb v w sn np s salted = Ok p -> nz s -> nz salted ->
  (w_ge1 (w_tls13 w) -> sp_max p = VersionTLS13) /\
  (w_ge1 (w_alpn w) -> v = VRandomized -> exists q, In (EALPN q) (sp_exts p)) /\
  (w_ge1 (w_padding w) -> In EPadding (sp_exts p)) /\
  (w_ge1 (w_status w) -> In EStatus (sp_exts p)) /\
  (w_ge1 (w_sct w) -> In ESCT (sp_exts p)) /\
  (w_ge1 (w_reneg w) -> In (EReneg RenegotiateOnceAsClient) (sp_exts p)) /\
  (w_ge1 (w_ems w) -> In EEMS (sp_exts p)) /\
  (w_ge1 (w_alps w) -> sp_max p = VersionTLS13 -> (exists q, In (EALPN q) (sp_exts p)) -> In (EALPS [proto_h2]) (sp_exts p)).
Proof. exact weight1_present. Qed.
Print Assumptions C09_weight1_present.

(* removal weight <= 0: no suite is removed *)
Theorem C09_weight0_no_removal : forall rnd, ieee_laws rnd -> forall s0 w s out s',
  removeRandomCiphers rnd s0 w s = Ok (out, s') -> w_le0 w -> out = s0.
Proof.
  intros rnd L s0 w s out s' H. apply (removeRandomCiphers_spec rnd s0 w s s out s' (steps_refl s) H). exact L.
Qed.
Print Assumptions C09_weight0_no_removal.

(* The cipher sort has exactly one correct result:
   math/rand Perm yields, for every stream, a permutation of 0..n-1; the (isObsolete, randomTag) keys are therefore
   pairwise distinct, and ANY list that is a permutation of the sortableCiphers and sorted w.r.t. Less (for i < j: not
   Less(j,i), which is what sort.Sort guarantees, stable or not) equals the model's insertion sort. *)
Theorem C09_perm_is_permutation : forall fuel n s l r, perm fuel n s = Some (l, r) ->
  length l = n /\ NoDup l /\ Forall (fun x => (0 <= x < Z.of_nat n)%Z) l.
Proof. exact perm_spec. Qed.
Print Assumptions C09_perm_is_permutation.
Theorem C09_sort_unique : forall fuel tb s pm r l',
  perm fuel (length (t_suites tb)) s = Some (pm, r) ->
  Permutation (sortable tb pm) l' -> StronglySorted (fun a b => less b a = false) l' ->
  l' = isort (sortable tb pm).
Proof.
  intros fuel tb s pm r l' H P S. apply sort_unique_tags; auto. apply perm_spec in H. destruct H as (_ & Hn & _).
  unfold sortable. rewrite map_map.
  replace (map _ (combine (t_suites tb) pm)) with (map snd (combine (t_suites tb) pm)).
  - apply NoDup_snd_combine. exact Hn.
  - apply map_ext. intros [row tag]. reflexivity.
Qed.
Print Assumptions C09_sort_unique.
Theorem C09_shuffled_is_that_sort : forall fuel tb s out s', shuffledCiphers fuel tb s = Ok (out, s') ->
  exists pm r, perm fuel (length (t_suites tb)) s = Some (pm, r) /\ out = map sc_suite (isort (sortable tb pm)).
Proof.
  unfold shuffledCiphers. intros fuel tb s out s' H. apply bindM_Ok in H. destruct H as (pm & s1 & P & H).
  apply ret_Ok in H. injection H as -> ->. unfold permM in P. apply liftO_Ok in P. exists pm, s1. split; [exact P|reflexivity].
Qed.

(* key shares vs supported_groups: refuted at full strength (F-09) *)
Definition C09_keyshare_in_groups_full : Prop := forall rnd fuel tb v w sn np s salted p,
  generate rnd fuel tb v w sn np s salted = Ok p ->
  forall ks gs, In (EKeyShare ks) (sp_exts p) -> In (ECurves gs) (sp_exts p) -> incl ks gs.
Definition C09_hybrid_has_share_full : Prop := forall rnd fuel tb v w sn np s salted p,
  generate rnd fuel tb v w sn np s salted = Ok p ->
  forall ks gs, In (EKeyShare ks) (sp_exts p) -> In (ECurves gs) (sp_exts p) ->
  In X25519MLKEM768 gs -> In X25519MLKEM768 ks.

(* the run of the first witness, evaluated once *)
Lemma witness_keyshare_run : exists p,
  generate rne 16 utls_table VALPN default_weights [] [] witness_keyshare witness_salted = Ok p /\
  sp_max p = VersionTLS13 /\ In (EKeyShare [4588; 29; 23]) (sp_exts p) /\ In (ECurves [29; 23; 24]) (sp_exts p).
Proof. eexists. split; [vm_compute; reflexivity|]. cbn. tauto. Qed.

Theorem C09_keyshare_in_groups_refuted : ~ C09_keyshare_in_groups_full.
Proof.
  intros F. destruct witness_keyshare_run as (p & H & _ & Hk & Hg).
  specialize (F _ _ _ _ _ _ _ _ _ _ H _ _ Hk Hg 4588 (or_introl eq_refl)).
  cbn in F. intuition discriminate.
Qed.
Print Assumptions C09_keyshare_in_groups_refuted.
Theorem C09_hybrid_has_share_refuted : ~ C09_hybrid_has_share_full.
Proof.
  intros F.
  assert (R : exists p, generate rne 16 utls_table VNoALPN default_weights [] [] witness_hybrid witness_salted = Ok p /\
                        In (EKeyShare [29; 23]) (sp_exts p) /\ In (ECurves [4588; 29; 23; 24; 25]) (sp_exts p)).
  { eexists. split; [vm_compute; reflexivity|]. cbn. tauto. }
  destruct R as (p & H & Hk & Hg). specialize (F _ _ _ _ _ _ _ _ _ _ H _ _ Hk Hg (or_introl eq_refl)).
  cbn in F. intuition discriminate.
Qed.
Print Assumptions C09_hybrid_has_share_refuted.

(* strongest true versions: every classical share is listed, always; the X25519MLKEM768 share and the
   group are decided by two independent pairs of coins (w_ks_random at 3116, w_x25519 at 3056), so
   consistency holds exactly when a weight pins one of them *)
Theorem C09_keyshare_in_groups_holds_if : forall rnd, ieee_laws rnd -> forall fuel tb v w sn np s salted p,
  generate rnd fuel tb v w sn np s salted = Ok p ->
  forall ks gs, In (EKeyShare ks) (sp_exts p) -> In (ECurves gs) (sp_exts p) ->
  (forall g, In g ks -> g <> X25519MLKEM768 -> In g gs) /\
  (w_le0 (w_ks_random w) \/ (nz s /\ (w_ge1 (w_x25519 w) \/ w_ge1 (w_ks_p256 w))) -> incl ks gs).
Proof.
  intros rnd L fuel tb v w sn np s salted p H ks gs Hk Hg. split; [eapply keyshare_classical; eauto|].
  intros Hc g Hin. destruct (N.eq_dec g X25519MLKEM768) as [->|Hne]; [|eapply keyshare_classical; eauto].
  destruct (mlkem_share_and_group _ _ _ _ _ _ _ _ _ _ _ _ H Hk Hg) as (d & Hok & E13 & Sk & Sg).
  apply Sk in Hin. destruct Hin as [K1 K3]. apply Sg. destruct Hc as [Hw | [Hz [Hw | Hw]]].
  - rewrite (FlipIn_false _ _ _ _ L (ok_ksmlkem d Hok E13 K1) Hw) in K3. discriminate K3.
  - exact (FlipIn_true _ _ _ _ L (ok_mlkem d Hok) Hw Hz).
  - rewrite (FlipIn_true _ _ _ _ L (ok_ksp256 d Hok E13) Hw Hz) in K1. discriminate K1.
Qed.
Print Assumptions C09_keyshare_in_groups_holds_if.
Theorem C09_hybrid_has_share_holds_if : forall rnd, ieee_laws rnd -> forall fuel tb v w sn np s salted p,
  generate rnd fuel tb v w sn np s salted = Ok p ->
  forall ks gs, In (EKeyShare ks) (sp_exts p) -> In (ECurves gs) (sp_exts p) ->
  (w_le0 (w_x25519 w) \/ (nz s /\ w_ge1 (w_ks_random w) /\ w_le0 (w_ks_p256 w))) ->
  In X25519MLKEM768 gs -> In X25519MLKEM768 ks.
Proof.
  intros rnd L fuel tb v w sn np s salted p H ks gs Hk Hg Hc Hin.
  destruct (mlkem_share_and_group _ _ _ _ _ _ _ _ _ _ _ _ H Hk Hg) as (d & Hok & E13 & Sk & Sg).
  apply Sg in Hin. apply Sk. destruct Hc as [Hw | (Hz & Hw & Hw')].
  - rewrite (FlipIn_false _ _ _ _ L (ok_mlkem d Hok) Hw) in Hin. discriminate Hin.
  - pose proof (FlipIn_false _ _ _ _ L (ok_ksp256 d Hok E13) Hw') as K1. split; [exact K1|].
    exact (FlipIn_true _ _ _ _ L (ok_ksmlkem d Hok E13 K1) Hw Hz).
Qed.
Print Assumptions C09_hybrid_has_share_holds_if.

(* hypotheses are satisfiable by non-trivial inputs *)
Example C09_ex_laws : ieee_laws (fun x => x).
Proof. repeat split; intros; try reflexivity; assumption. Qed.
Example C09_ex_rne_points :
  (rne 0 == 0)%Q /\ (rne 1 == 1)%Q /\ (rne (inject_Z 9223372036854775808) == inject_Z 9223372036854775808)%Q /\
  (rne (1 / inject_Z 9223372036854775808) == 1 / inject_Z 9223372036854775808)%Q.
Proof. exact rne_points. Qed.
Example C09_ex_weights : w_le0 (WFin 0) /\ w_ge1 (WFin 1) /\ w_le0 (WInf true) /\ w_ge1 (WInf false).
Proof. cbn. repeat split; try reflexivity; discriminate. Qed.
(* a real seed's stream (the keyshare witness) yields a TLS 1.3 spec, and all its draws are non-zero *)
Example C09_ex_tls13 : exists p, generate rne 16 utls_table VALPN default_weights [] [] witness_keyshare witness_salted = Ok p /\ sp_max p = VersionTLS13.
Proof. destruct witness_keyshare_run as (p & H & Hm & _). exists p. auto. Qed.
Example C09_ex_nz : nz [0; 0; 0; 0; 0; 0; 0; 1].
Proof.
  intros st i r (h & E & _) Hi.
  assert (Hst : (8 <= length st)%nat).
  { unfold int63, uint64 in Hi. destruct st as [|b0 [|b1 [|b2 [|b3 [|b4 [|b5 [|b6 [|b7 t]]]]]]]]; try discriminate Hi. cbn [length]. lia. }
  assert (Hlen : (length h + length st = 8)%nat) by (rewrite <- app_length, <- E; reflexivity).
  destruct h; [|cbn [length] in Hlen; lia]. cbn in E. subst st. vm_compute in Hi. injection Hi as <- _. discriminate.
Qed.
