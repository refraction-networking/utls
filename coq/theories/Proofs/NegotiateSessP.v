(* The version and downgrade-sentinel statements of C13, and the suite statement of C12, on the path where the
   ClientHello offers a cached TLS <= 1.2 session (resumed by the server or not). *)
From UV Require Import Base.Common Model.Negotiate Model.NegotiateSess Proofs.NegotiateP Proofs.NegotiateVersP.

Lemma sess_none e v ems fl : client_run_sess e v None ems fl = client_run_gen e v fl.
Proof. reflexivity. Qed.

Lemma run12_sess_inv {e v vers h fl sess ems st} :
  run12_sess e v vers h fl sess ems = Complete st ->
  cs_vers st = vers /\ In (cs_suite st) (cv_suites v)
  /\ (resumes v sess h = true -> forall s, sess = Some s -> s_vers s = vers /\ s_suite s = cs_suite st /\ s_ems s = ems).
Proof.
  unfold run12_sess. destruct (resumes v sess h).
  - unfold prefix12.
    destruct (memN (h_suite h) (cv_suites v) && memN (h_suite h) (e_impl12 e)) eqn:M; [|discriminate]. cbn [negb].
    destruct (negb (h_comp h =? 0)); [discriminate|]. destruct (negb (check_alpn _ _)); [discriminate|].
    destruct sess as [s|]; [|discriminate].
    destruct (s_vers s =? vers) eqn:E1; [|discriminate]. cbn [negb].
    destruct (s_suite s =? h_suite h) eqn:E2; [|discriminate]. cbn [negb].
    destruct (Bool.eqb (s_ems s) ems) eqn:E3; [|discriminate]. cbn [negb].
    destruct (negb (f_crypto_ok fl)); [discriminate|].
    intros H; inversion H; subst st; clear H. cbn [cs_vers cs_suite].
    apply andb_true_iff in M. destruct M as [M _]. apply memN_In in M.
    apply N.eqb_eq in E1, E2. apply Bool.eqb_prop in E3.
    split; [reflexivity|]. split; [exact M|]. intros _ s' Hs. inversion Hs; subst s'. auto.
  - intros H. apply run12_inv in H. rewrite (a12_suite H).
    split; [exact (a12_vers H)|]. split; [exact (a12_suite_offered H) | discriminate].
Qed.

Lemma run12_sess_resumed e v vers h fl s ems st :
  resumes v (Some s) h = true -> run12_sess e v vers h fl (Some s) ems = Complete st ->
  s_vers s = vers /\ s_suite s = cs_suite st /\ In (cs_suite st) (cv_suites v) /\ s_ems s = ems.
Proof.
  intros R H. destruct (run12_sess_inv H) as (_ & I & K).
  destruct (K R s eq_refl) as (A & B & C). auto.
Qed.

(* the version tests precede the resumption branch and do not look at the session (C13); the suite of a completed
   handshake - resumed or not - is one the hello lists (C12) *)
Lemma sess_inv {e v sess ems fl st} :
  client_run_sess e v sess ems fl = Complete st -> settled e v fl (cs_vers st) /\ In (cs_suite st) (cv_suites v).
Proof.
  unfold client_run_sess, settled. fold (first_hello fl).
  destruct (pick_version v (first_hello fl)) as [vers|]; [|discriminate].
  destruct (version_offered e v vers) eqn:E2; [|discriminate]. cbn [negb].
  destruct (canary_abort e v vers (first_hello fl)) eqn:E3; [discriminate|].
  destruct (N.eqb_spec vers V13) as [E4|E4]; intros H.
  - subst vers. apply run13_inv in H. rewrite (a13_vers H), (a13_suite H).
    repeat split; auto. exact (a13_suite_offered H).
  - apply run12_sess_inv in H. destruct H as (<- & I & _). auto.
Qed.

Lemma version_sess_fixed v specmin w sess ems fl st :
  versions_synced v specmin w = true ->
  client_run_sess env_fixed v sess ems fl = Complete st -> In (cs_vers st) (advertised specmin w).
Proof.
  intros Hs Hr. destruct (settled_configured (proj1 (sess_inv Hr))) as [H1 H2].
  eapply version_in_advertised_fixed; eauto.
Qed.

Lemma canary_sess_config e v sess ems fl st :
  max_version v = V13 ->
  h_tail (first_hello fl) = 1 \/ h_tail (first_hello fl) = 2 ->
  client_run_sess e v sess ems fl = Complete st -> cs_vers st = V13.
Proof.
  intros Hm Ht Hr. eapply settled_canary; [apply offered_max_of_config; exact Hm | exact Ht | apply (sess_inv Hr)].
Qed.

Lemma canary_sess_fixed v specmin w sess ems fl st :
  versions_synced v specmin w = true -> offers13 w = true ->
  h_tail (first_hello fl) = 1 \/ h_tail (first_hello fl) = 2 ->
  client_run_sess env_fixed v sess ems fl = Complete st -> cs_vers st = V13.
Proof.
  intros Hs Ho Ht Hr.
  eapply settled_canary; [eapply offered_max_of_wire; eauto | exact Ht | apply (sess_inv Hr)].
Qed.

(* in particular: whatever version the cached session has (even the very version the server picks), a
   sentinel-carrying TLS <= 1.2 hello is never completed by a client whose hello lists 1.3 *)
Lemma canary_sess_same_version v specmin w s ems fl :
  versions_synced v specmin w = true -> offers13 w = true ->
  h_tail (first_hello fl) = 1 \/ h_tail (first_hello fl) = 2 ->
  h_sv (first_hello fl) = 0 -> h_vers (first_hello fl) = s_vers s -> s_vers s <> V13 ->
  exists a, client_run_sess env_fixed v (Some s) ems fl = Abort a.
Proof.
  intros Hs Ho Ht Hsv Hv Hn.
  destruct (client_run_sess env_fixed v (Some s) ems fl) as [st|a] eqn:E; [|exists a; reflexivity].
  exfalso. pose proof (canary_sess_fixed _ _ _ _ _ _ _ Hs Ho Ht E) as K.
  apply sess_inv in E. destruct E as ((P & _) & _).
  apply pick_version_peer in P. rewrite Hsv in P. cbn in P. congruence.
Qed.

Lemma wire_suite_sess e v w sess ems fl st :
  synced v w = true -> client_run_sess e v sess ems fl = Complete st -> In (cs_suite st) (w_suites w).
Proof.
  intros Hs Hr. destruct (synced_inv _ _ Hs) as (S1 & _). rewrite <- S1. apply (sess_inv Hr).
Qed.

(* the same two statements under NegotiateVersP.versions_ok (hellos without a supported_versions extension whose spec
   declares a higher TLSVersMax: Hello.SupportedVersions = accepted versions up to legacy_version) *)
Lemma version_sess_ok v specmin w sess ems fl st :
  versions_ok v specmin w = true ->
  client_run_sess env_fixed v sess ems fl = Complete st -> In (cs_vers st) (advertised specmin w).
Proof.
  intros H Hr. destruct (settled_configured (proj1 (sess_inv Hr))) as [H1 H2].
  eapply version_in_advertised_ok; eauto.
Qed.

Lemma canary_sess_ok v specmin w sess ems fl st :
  versions_ok v specmin w = true -> offers13 w = true ->
  h_tail (first_hello fl) = 1 \/ h_tail (first_hello fl) = 2 ->
  client_run_sess env_fixed v sess ems fl = Complete st -> cs_vers st = V13.
Proof. intros H Ho. exact (canary_sess_fixed v specmin w sess ems fl st (ok_offers13_synced _ _ _ H Ho) Ho). Qed.
