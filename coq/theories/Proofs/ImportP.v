(* Proofs about Model/Import.v: ImportTLSClientHello with the key_share length
   check never panics; without it the 4-byte stepping runs off the slice. *)
From UV Require Import Base.Common Model.Wire Model.Varint Model.Ext Model.FromRaw Model.Import
  Proofs.WireP Proofs.FromRawP.

(* Go's slice invariant for the one input whose capacity matters *)
Definition imap_ok (m : imap) : Prop :=
  match im_key_share m with Some d => blen d <= im_key_share_cap m | None => True end.

(* the loop stays inside the slice when its length is a multiple of 4 *)
Lemma key_share_loop_np fuel d cap : blen d mod 4 = 0 -> blen d <= cap ->
  forall i acc, i mod 4 = 0 -> np (key_share_loop fuel d cap i acc).
Proof.
  intros Hl Hcap. induction fuel as [|k IH]; intros i acc Hi; cbn [key_share_loop].
  - destruct (blen d <=? i); reflexivity.
  - destruct (N.leb_spec (blen d) i) as [Hge|Hlt]; [reflexivity|].
    assert (Hi' : (i + 4) mod 4 = 0) by lia.
    destruct (N.ltb_spec cap (i + 4)) as [Hc|Hc]; [lia|].
    destruct (nth_error d (N.to_nat (i + 3))) eqn:Hn.
    + apply IH. exact Hi'.
    + apply nth_error_None in Hn. unfold blen in *. lia.
Qed.

Lemma key_share_fixed_data_np d cap : blen d <= cap -> np (key_share_fixed_data true d cap).
Proof.
  intros Hcap. unfold key_share_fixed_data. cbn [andb].
  destruct (N.eqb_spec (blen d mod 4) 0) as [Hm|Hm]; cbn [negb]; [|reflexivity].
  apply np_bind; [|intros; reflexivity].
  apply key_share_loop_np; auto.
Qed.

Lemma imap_ok_key_share m d : imap_ok m -> req (im_key_share m) = Ok d -> blen d <= im_key_share_cap m.
Proof. unfold imap_ok. destruct (im_key_share m); [intros H [= <-]; exact H | discriminate]. Qed.

Lemma req_np o : np (req o). Proof. apply np_of_opt. Qed.
Lemma uint8to16_np b : np (uint8to16 b). Proof. apply np_of_opt. Qed.
#[local] Hint Resolve req_np uint8to16_np ext_write_np key_share_fixed_data_np imap_ok_key_share : np.

Lemma import_ext_np m id : imap_ok m -> np (import_ext true m id).
Proof. intros Hok. unfold import_ext. np_auto. Qed.

Lemma import_exts_np m ids : imap_ok m -> np (import_exts true m ids).
Proof. pose proof import_ext_np. intros Hok. induction ids as [|id r IH]; cbn [import_exts]; np_auto. Qed.

Lemma import_hello_np vmin vmax m : imap_ok m -> np (import_hello true vmin vmax m).
Proof. pose proof import_exts_np. intros Hok. unfold import_hello. np_auto. Qed.

(* the code as shipped: F-07a *)
Definition f07a_map (ks : bytes) (cap : N) : imap :=
  {| im_cipher_suites := Some [19; 1]; im_compression_methods := Some [0];
     im_extensions := Some [0; 51];
     im_pt_fmts := None; im_sig_algs := None; im_supported_versions := None; im_curves := None;
     im_alpn := None; im_key_share := Some ks; im_key_share_cap := cap;
     im_psk_key_exchange_modes := None; im_cert_compression_algs := None; im_record_size_limit := None |}.

Lemma unfixed_import_panics_slice : import_hello false 0 0 (f07a_map [0; 29; 0] 3) = Panic P_SLICE.
Proof. vm_compute. reflexivity. Qed.
(* a larger backing array only moves the panic to the index expression *)
Lemma unfixed_import_panics_index : import_hello false 0 0 (f07a_map [0; 29; 0] 8) = Panic P_INDEX.
Proof. vm_compute. reflexivity. Qed.

(* strongest true statement about the unfixed loop: no panic iff the length is a multiple of 4 *)
Lemma unfixed_key_share_np d cap : blen d <= cap -> blen d mod 4 = 0 -> np (key_share_fixed_data false d cap).
Proof.
  intros Hcap Hm. unfold key_share_fixed_data. cbn [andb].
  apply np_bind; [|intros; reflexivity]. apply key_share_loop_np; auto.
Qed.
