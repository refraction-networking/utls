(* Model/Roller.v: the order in which Dial tries the ids ([prioritise]), the attempt loop against its
   postcondition [loop_post], and what an observer of the wire can attribute to which id. *)
From UV Require Import Base.Common Model.Roller.
From Coq Require Import Permutation.

Lemma oN_eqb_eq a b : oN_eqb a b = true <-> a = b.
Proof.
  destruct a as [x|], b as [y|]; cbn [oN_eqb]; try (split; congruence).
  rewrite N.eqb_eq. split; congruence.
Qed.

Lemma hid_eqb_eq a b : hid_eqb a b = true <-> a = b.
Proof.
  destruct a as [ra ba sa], b as [rb bb sb]. unfold hid_eqb. cbn [rnd base seed].
  rewrite !andb_true_iff, eqb_true_iff, N.eqb_eq, oN_eqb_eq. split.
  - intros [[-> ->] ->]. reflexivity.
  - intros [= -> -> ->]. auto.
Qed.
Lemma hid_eqb_refl a : hid_eqb a a = true.
Proof. apply hid_eqb_eq. reflexivity. Qed.

Lemma memb_In w l : memb w l = true <-> In w l.
Proof.
  unfold memb. rewrite existsb_exists. split.
  - intros (x & Hin & E). apply hid_eqb_eq in E. subst. exact Hin.
  - intros H. exists w. split; [exact H|apply hid_eqb_refl].
Qed.

Lemma memb_perm w a b : Permutation a b -> memb w a = memb w b.
Proof.
  intros P. apply eq_true_iff_eq. rewrite !memb_In.
  split; apply Permutation_in; [exact P|symmetry; exact P].
Qed.

Lemma conn_id_fixed gen k x : unseeded (conn_id gen k x) = false.
Proof. unfold conn_id. destruct (unseeded x) eqn:U; [reflexivity|exact U]. Qed.
Lemma conn_id_idem gen k x : unseeded x = false -> conn_id gen k x = x.
Proof. intros U. unfold conn_id. rewrite U. reflexivity. Qed.

Lemma fps_fixed gen l : forall k, forallb (fun f => negb (unseeded f)) (fps gen k l) = true.
Proof.
  induction l as [|x l IH]; intros k; cbn [fps forallb]; [reflexivity|]. rewrite conn_id_fixed, IH. reflexivity.
Qed.
Lemma fps_length gen l : forall k, length (fps gen k l) = length l.
Proof. induction l as [|x l IH]; intros k; cbn [fps length]; [reflexivity|]. rewrite IH. reflexivity. Qed.

Lemma index_of_In w l : match index_of w l with Some _ => In w l | None => ~ In w l end.
Proof.
  induction l as [|x r IH]; cbn [index_of In]; [tauto|].
  destruct (hid_eqb x w) eqn:E; [apply hid_eqb_eq in E; auto|].
  destruct (index_of w r); [auto|]. intros [->|H]; [rewrite hid_eqb_refl in E; discriminate|contradiction].
Qed.

Lemma swap_perm w h t k : index_of w t = Some k -> Permutation (h :: t) (w :: set_nth k h t).
Proof.
  revert k; induction t as [|x r IH]; intros k; cbn [index_of]; [discriminate|].
  destruct (hid_eqb x w) eqn:E.
  - intros [= <-]. apply hid_eqb_eq in E. subst x. apply perm_swap.
  - destruct (index_of w r) as [j|]; [|discriminate]. intros [= <-]. cbn [set_nth].
    rewrite perm_swap, (IH j eq_refl). apply perm_swap.
Qed.

Lemma prioritise_spec sh working :
  Permutation (prioritise sh working) (pool sh working) /\
  forall w, working = Some w -> hd_error (prioritise sh working) = Some w.
Proof.
  destruct working as [w|]; [|split; [reflexivity|discriminate]].
  enough (Permutation (prioritise sh (Some w)) (pool sh (Some w)) /\ hd_error (prioritise sh (Some w)) = Some w)
    as [P H] by (split; [exact P|intros ? [= <-]; exact H]).
  unfold prioritise, pool. pose proof (index_of_In w sh) as I. destruct (index_of w sh) as [i|] eqn:E.
  - rewrite (proj2 (memb_In w sh) I). destruct sh as [|h t]; [destruct I|]. cbn [index_of hd] in *.
    destruct (hid_eqb h w) eqn:H.
    + apply hid_eqb_eq in H. subst h. injection E as <-. split; reflexivity.
    + destruct (index_of w t) as [j|] eqn:J; [|discriminate]. injection E as <-.
      split; [symmetry; apply swap_perm; exact J|reflexivity].
  - destruct (memb w sh) eqn:M; [apply memb_In in M; contradiction|]. split; reflexivity.
Qed.

Lemma prioritise_pool ids sh working : Permutation ids sh ->
  Permutation (prioritise sh working) (pool ids working).
Proof.
  intros P. rewrite (proj1 (prioritise_spec sh working)). destruct working as [w|]; [|symmetry; exact P].
  unfold pool. rewrite (memb_perm w ids sh P). destruct (memb w sh); rewrite P; reflexivity.
Qed.

Lemma NoDup_app_l {A} (a b : list A) : NoDup (a ++ b) -> NoDup a.
Proof.
  induction a as [|x a IH]; cbn [app]; intros H; [constructor|]. inversion H as [|? ? Hn Hr]; subst.
  constructor; [intros Hin; apply Hn; apply in_or_app; left; exact Hin|apply IH; exact Hr].
Qed.

Lemma pool_nodup ids working : NoDup ids -> NoDup (pool ids working).
Proof.
  intros H. destruct working as [w|]; [|exact H]. unfold pool.
  destruct (memb w ids) eqn:E; [exact H|]. constructor; [|exact H].
  intros Hin. apply memb_In in Hin. congruence.
Qed.

(* one TCP dial and one handshake: the timeout is relative to the call's own start *)
Definition tcp_wait (Dt : N) (b : tcp_beh) : N := match b with Connects _ => Dt | Refused => 0 end.

Lemma tcp_dial_spec now Dt b ok t1 : tcp_dial now Dt b = (ok, t1) ->
  ok = tcp_connects Dt b /\ now <= t1 /\ (ok = false -> now + tcp_wait Dt b <= t1).
Proof.
  unfold tcp_dial, tcp_connects, tcp_wait. destruct b as [d|]; [|intros [= <- <-]; lia].
  destruct (N.ltb_spec (now + d) (now + Dt)), (N.ltb_spec d Dt); intros [= <- <-]; lia.
Qed.

Lemma handshake_spec now T b o t2 : handshake now T b = (o, t2) ->
  o = hs_outcome T b /\ now + T * match o with HsTimeout => 1 | _ => 0 end <= t2.
Proof.
  unfold handshake, hs_outcome. destruct b as [d|d|]; [| |intros [= <- <-]; split; [reflexivity|lia]].
  all: destruct (N.ltb_spec (now + d) (now + T)), (N.ltb_spec d T); intros [= <- <-]; split; try reflexivity; lia.
Qed.

Section LoopP.
  Variables (tcpd : nat -> tcp_beh) (Dt : N) (gen : nat -> N) (T : N) (peer : hid -> peer_beh).
  Notation loop := (attempt_loop tcpd Dt gen T peer).
  Notation own_outcome := (fun a : hid * hsres => snd a = hs_outcome T (peer (fst a))).
  Notation fails := (fun a : hid * hsres => would_succeed T (peer (fst a)) = false).

  (* What a run of the loop over [order], starting with attempt k at time now, returns: the ids tried are a
     prefix of [order], one ClientHello each; every handshake ends as it would on its own; all but a
     connecting last one fail; and the time spent covers every timeout waited for. *)
  Definition loop_post (order : list hid) (k : nat) (now : N) (tr : list hid) (wi : list (hid * hsres))
             (o : outcome) (te : N) : Prop :=
    map fst wi = fps gen k tr /\
    Forall own_outcome wi /\
    (exists rest, order = tr ++ rest /\
       match o with
       | Connected f => exists before, wi = before ++ [(f, HsOk)] /\ Forall fails before /\
                                       would_succeed T (peer f) = true /\ unseeded f = false
       | TcpError j => Forall fails wi /\ j = (k + length tr)%nat /\ tcp_connects Dt (tcpd j) = false
       | AllFailed | NoIds => rest = [] /\ Forall fails wi
       end) /\
    now + T * n_timeouts wi + match o with TcpError j => tcp_wait Dt (tcpd j) | _ => 0 end <= te.

  (* a failed attempt in front of a run of the rest *)
  Lemma loop_post_failed x r k now t2 ho tr wi o te :
    ho = hs_outcome T (peer (conn_id gen k x)) -> ho <> HsOk ->
    now + T * match ho with HsTimeout => 1 | _ => 0 end <= t2 ->
    loop_post r (S k) t2 tr wi o te ->
    loop_post (x :: r) k now (x :: tr) ((conn_id gen k x, ho) :: wi) o te.
  Proof.
    intros HO Hne Ht (A & B & (rest & -> & C) & D).
    assert (F : fails (conn_id gen k x, ho)) by (unfold would_succeed; cbn [fst]; rewrite <- HO; destruct ho; congruence).
    split; [cbn [map fps fst]; rewrite A; reflexivity|]. split; [constructor; [exact HO|exact B]|]. split.
    - exists rest. split; [reflexivity|]. destruct o as [f|j| |].
      3,4: destruct C as [E Hf]; split; [exact E|constructor; assumption].
      + destruct C as (before & -> & Hf & Hs). exists ((conn_id gen k x, ho) :: before).
        split; [reflexivity|]. split; [constructor; assumption|exact Hs].
      + destruct C as (Hf & -> & Hj). split; [constructor; assumption|]. split; [cbn [length]; lia|exact Hj].
    - cbn [n_timeouts snd]. lia.
  Qed.

  Lemma loop_spec order : forall k now tr wi o te, loop order k now = (tr, wi, o, te) ->
    loop_post order k now tr wi o te.
  Proof.
    induction order as [|x r IH]; intros k now tr wi o te; cbn [attempt_loop].
    - intros [= <- <- <- <-]. split; [reflexivity|]. split; [constructor|]. split.
      + exists []. split; [reflexivity|]. destruct (k =? 0)%nat; split; constructor.
      + cbn [n_timeouts]. destruct (k =? 0)%nat; lia.
    - destruct (tcp_dial now Dt (tcpd k)) as [ok t1] eqn:TD. apply tcp_dial_spec in TD. destruct TD as (Hok & Ht1 & Hw).
      destruct ok.
      + destruct (handshake t1 T (peer (conn_id gen k x))) as [ho t2] eqn:HS. apply handshake_spec in HS.
        destruct HS as [HO Ht2]. destruct ho.
        2,3: destruct (loop r (S k) t2) as [[[tr' wi'] o'] te'] eqn:L; intros [= <- <- <- <-];
             apply (loop_post_failed x r k now t2); [exact HO|discriminate|lia|apply IH; exact L].
        intros [= <- <- <- <-]. split; [reflexivity|]. split; [constructor; [exact HO|constructor]|]. split.
        * exists r. split; [reflexivity|]. exists []. split; [reflexivity|]. split; [constructor|].
          split; [unfold would_succeed; rewrite <- HO; reflexivity|apply conn_id_fixed].
        * cbn [n_timeouts snd]. lia.
      + intros [= <- <- <- <-]. split; [reflexivity|]. split; [constructor|]. split.
        * exists (x :: r). split; [reflexivity|]. split; [constructor|]. split; [cbn [length]; lia|symmetry; exact Hok].
        * cbn [n_timeouts]. specialize (Hw eq_refl). lia.
  Qed.

  Section Dial.
    Variables (sh : list hid) (working : option hid) (now : N).
    Notation r := (dial sh working tcpd Dt gen T peer now).

    Lemma dial_spec :
      loop_post (prioritise sh working) 0 now (tried r) (wire r) (result r) (t_end r) /\
      working' r = match result r with Connected i => Some i | _ => working end.
    Proof.
      unfold dial. destruct (attempt_loop _ _ _ _ _ _ _ _) as [[[tr wi] o] te] eqn:L.
      split; [apply loop_spec; exact L|reflexivity].
    Qed.

    Lemma dial_first w : working = Some w ->
      tried r = [] \/ (hd_error (tried r) = Some w /\ hd_error (map fst (wire r)) = Some (conn_id gen 0 w)).
    Proof.
      intros Hw. destruct dial_spec as [(W & _ & (rest & E & _) & _) _].
      pose proof (proj2 (prioritise_spec sh working) w Hw) as H. rewrite E in H. rewrite W.
      destruct (tried r) as [|x t]; [left; reflexivity|right].
      injection H as ->. split; reflexivity.
    Qed.
  End Dial.
End LoopP.

Lemma nodupb_spec l : NoDup l -> nodupb l = true.
Proof.
  induction 1 as [|x l Hn Hl IH]; cbn [nodupb]; [reflexivity|]. rewrite IH, andb_true_r.
  apply negb_true_iff. apply not_true_is_false. intros H. apply memb_In in H. contradiction.
Qed.
Lemma subsetb_spec a b : incl a b -> subsetb a b = true.
Proof.
  intros H. unfold subsetb. apply forallb_forall. intros x Hx. apply memb_In. apply H. exact Hx.
Qed.

(* trace_ok's clause that a remembered working id is tried first, for any prefix of the prioritised ids *)
Lemma first_ok sh working tr rest : prioritise sh working = tr ++ rest ->
  match working, tr with Some w, x :: _ => hid_eqb x w | _, _ => true end = true.
Proof.
  destruct working as [w|], tr as [|x tr]; try reflexivity. intros E.
  pose proof (proj2 (prioritise_spec sh (Some w)) w eq_refl) as H. rewrite E in H.
  injection H as ->. apply hid_eqb_refl.
Qed.

(* a fingerprint on the wire is attributed to the id it was made from, as long as generated
   seeds do not collide with a seed that is already configured or remembered *)
Section Attr.
  Variables (gen : nat -> N) (p : list hid).
  Hypothesis gen_fresh : forall k y, In y p -> seed y <> Some (gen k).

  Lemma attr_conn_id k x : In x p -> attr p (conn_id gen k x) = x.
  Proof.
    intros Hin. unfold conn_id, attr. destruct (unseeded x) eqn:U.
    - destruct (memb _ _) eqn:M.
      + apply memb_In in M. exfalso. eapply gen_fresh; [exact M|]. reflexivity.
      + unfold unseed. cbn [rnd base]. destruct x as [rx bx sx]. unfold unseeded in U. cbn [rnd seed base] in *.
        destruct rx; [|discriminate]. destruct sx; [discriminate|]. reflexivity.
    - rewrite (proj2 (memb_In x p) Hin). reflexivity.
  Qed.

  Lemma attr_fps l : forall k, incl l p -> map (attr p) (fps gen k l) = l.
  Proof.
    induction l as [|x l IH]; intros k I; cbn [fps map]; [reflexivity|].
    rewrite attr_conn_id by (apply I; left; reflexivity). rewrite IH; [reflexivity|].
    intros y Hy. apply I. right. exact Hy.
  Qed.
End Attr.

(* the observer sees, for each ClientHello, the fingerprint and what the peer does with it *)
Section Observed.
  Variables (T : N) (peer : hid -> peer_beh).
  Notation observed := (map (fun a : hid * hsres => (fst a, peer (fst a)))).

  Lemma obs_fixed gen k tr (wi : list (hid * hsres)) : map fst wi = fps gen k tr ->
    forallb (fun a : hid * peer_beh => negb (unseeded (fst a))) (observed wi) = true.
  Proof.
    intros W. apply forallb_forall. intros a Ha. apply in_map_iff in Ha. destruct Ha as (a0 & <- & Ha0). cbn [fst].
    pose proof (fps_fixed gen tr k) as F. rewrite <- W, forallb_forall in F. apply F, in_map, Ha0.
  Qed.

  Lemma n_timeouts_obs (wi : list (hid * hsres)) :
    Forall (fun a => snd a = hs_outcome T (peer (fst a))) wi ->
    N.of_nat (length (filter (fun a : hid * peer_beh => timed_out T (snd a)) (observed wi))) = n_timeouts wi.
  Proof.
    induction 1 as [|a wi Ha Hwi IH]; [reflexivity|]. cbn [map filter n_timeouts snd fst].
    unfold timed_out at 1. rewrite <- Ha. destruct (snd a); cbn [length]; lia.
  Qed.

  Lemma forallb_obs (l : list (hid * hsres)) :
    Forall (fun a => would_succeed T (peer (fst a)) = false) l ->
    forallb (fun a : hid * peer_beh => negb (would_succeed T (snd a))) (observed l) = true.
  Proof.
    induction 1 as [|a l Ha Hl IH]; [reflexivity|]. cbn [map forallb snd]. rewrite Ha, IH. reflexivity.
  Qed.
End Observed.
