(* tamper_detected for the AEAD suites, under an ideal-AEAD hypothesis (labelled ideal: integrity of
   ciphertexts — whatever Open accepts under a key was produced by Seal by a holder of that key).
   What the record layer contributes, and what is proved here, is that the nonce and additional data
   bind the sequence number, content type, version and length, so that an accepted record is the one
   the peer sealed for exactly this position of the stream. *)
From UV Require Import Base.Common Model.Record.
Open Scope N_scope.

Section Tamper.
Variable P : prims.
(* [sealed a k n ad c]: some holder of key k produced c = Seal(k, n, ad, _) *)
Variable sealed : N -> bytes -> bytes -> bytes -> bytes -> Prop.
Hypothesis ideal_aead_int_ctxt :
  forall a k n ad c p, aead_open P a k n ad c = Some p -> sealed a k n ad c.

(* what an AEAD read half authenticates when it accepts a record *)
Theorem aead_accept_inv (rx : half) (ci : cipher) (r p : bytes) (t : N) (rx' : half) :
  h_cipher rx = Some ci -> c_kind ci = KAeadPrefix \/ c_kind ci = KAeadXor ->
  (h_vers rx = V13 -> nth 0 r 0 <> rtCCS) ->
  decrypt P rx r = Ok (p, t, rx') ->
  let enl := explicit_nonce_len rx in
  let body := skipn enl (skipn recordHeaderLen r) in
  let nonce := match firstn enl (skipn recordHeaderLen r) with [] => seq8 (h_seq rx) | e => e end in
  let ad := if h_vers rx =? V13 then firstn recordHeaderLen r
            else seq8 (h_seq rx) ++ firstn 3 r ++ be16 (N.of_nat (length body - aead_overhead)) in
  sealed (c_alg ci) (c_key ci) (aead_nonce ci nonce) ad body.
Proof.
  intros Hc Hk Hccs Hd. cbv zeta. unfold decrypt in Hd.
  destruct (length r <? recordHeaderLen)%nat; [discriminate|].
  destruct ((h_vers rx =? V13) && (nth 0 r 0 =? rtCCS)) eqn:Eccs.
  { apply andb_true_iff in Eccs. destruct Eccs as [E1 E2]. exfalso. apply Hccs; lia. }
  rewrite Hc in Hd.
  destruct (dec_cipher P rx ci r) as [[[[[pt pay] pl] good] c1]| |] eqn:Edc; cbn [bind] in Hd; try discriminate.
  clear Hd. unfold dec_cipher in Edc.
  destruct Hk as [Hk | Hk]; rewrite Hk in Edc;
    (destruct (length (skipn recordHeaderLen r) <? explicit_nonce_len rx)%nat; [discriminate|]);
    (destruct (aead_open P _ _ _ _ _) eqn:Eo in Edc; [|discriminate]);
    eapply ideal_aead_int_ctxt; exact Eo.
Qed.

Theorem tamper_detected (rx : half) (ci : cipher) (r : bytes) :
  h_cipher rx = Some ci -> c_kind ci = KAeadPrefix \/ c_kind ci = KAeadXor ->
  (h_vers rx = V13 -> nth 0 r 0 <> rtCCS) ->
  let enl := explicit_nonce_len rx in
  let body := skipn enl (skipn recordHeaderLen r) in
  let nonce := match firstn enl (skipn recordHeaderLen r) with [] => seq8 (h_seq rx) | e => e end in
  let ad := if h_vers rx =? V13 then firstn recordHeaderLen r
            else seq8 (h_seq rx) ++ firstn 3 r ++ be16 (N.of_nat (length body - aead_overhead)) in
  ~ sealed (c_alg ci) (c_key ci) (aead_nonce ci nonce) ad body ->
  forall p t rx', decrypt P rx r <> Ok (p, t, rx').
Proof.
  intros Hc Hk Hccs. cbv zeta. intros Hns p t rx' Hd. apply Hns.
  exact (aead_accept_inv rx ci r p t rx' Hc Hk Hccs Hd).
Qed.

(* TLS 1.3 change_cipher_spec records bypass decryption in halfConn.decrypt (conn.go:350); after the
   handshake readRecordOrCCS refuses them, so they cannot smuggle data either *)
Lemma ccs_never_delivers f c wire c' rest :
  read_record P (S f) c wire = @RDone (conn * bytes)%type (c', rest) ->
  forall r, r = firstn (recordHeaderLen + N.to_nat (nth 3 wire 0 * 256 + nth 4 wire 0)) wire ->
  forall p hin, decrypt P (cn_in c) r = Ok (p, rtCCS, hin) -> False.
Proof.
  intros H r -> p hin Hd. cbn [read_record] in H.
  destruct (length wire <? recordHeaderLen)%nat; [discriminate|].
  destruct (negb _); [discriminate|]. destruct (_ || _); [discriminate|].
  destruct (length wire <? _)%nat; [discriminate|].
  rewrite Hd in H.
  destruct (maxPlaintext <? len p); [discriminate|].
  destruct (_ && (rtCCS =? rtAppData)); [discriminate|].
  destruct ((cn_vers c =? V13) && negb (rtCCS =? rtHandshake) && (0 <? len (cn_hand c))); [discriminate|].
  change (rtCCS =? rtAlert) with false in H. change (rtCCS =? rtCCS) with true in H. cbv iota in H.
  destruct (negb (len p =? 1) || negb (nth 0 p 0 =? 1)); [discriminate|].
  destruct (0 <? len (cn_hand c)); discriminate.
Qed.

End Tamper.
