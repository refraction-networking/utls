(* C11 — client and server agree on every negotiated parameter and exported key.

   Model/Transcript.v: the bytes each side writes to its transcript hash, in the order of each side's own code
   (client: handshake_client_tls13.go + the uTLS compressed-certificate and ALPS steps; server: handshake_server_tls13.go
   / verif_server.go), the exporters as uninterpreted functions of (secret, transcript hash, label, context, length),
   the server's ConnectionState as the RFC-level function of the messages it sent, and the server name each side reports.
   Model/Negotiate.v: the client's decision and ConnectionState.
   State of the files: they describe the tree WITH fixes/C11-sni-reported-name.diff applied (client_server_name ... true);
   the pre-fix behaviour (... false) is kept in the same model and refuted below (F-11).
   Scope: no ECH (c.serverName = Config.ServerName when ECH is accepted is outside the model), no QUIC, no renegotiation;
   key agreement, signatures and Finished are abstract (the flight's f_crypto_ok bit; the secrets are arguments). *)
From UV Require Import Base.Common Model.Negotiate Proofs.NegotiateP Model.Transcript Proofs.TranscriptP.
From UV Require Model.Complete.

(* For EVERY hash function and every flight shape - with or without HelloRetryRequest, resumed or not, with or
   without CertificateRequest / client CertificateVerify / client EncryptedExtensions (ALPS), the server certificate
   sent plain or compressed (m_cert is the message as sent) - both ends have written the same bytes when the server
   Finished is in (traffic and exporter secrets) and when the client Finished is in (resumption secret). *)
Theorem C11_transcript_equal : forall H s m,
  client_to_server_finished H s m = server_to_server_finished H s m /\
  client_to_client_finished H s m = server_to_client_finished H s m.
Proof. intros. split; [apply to_server_finished_equal | apply to_client_finished_equal]. Qed.
Print Assumptions C11_transcript_equal.

(* the HelloRetryRequest substitution: message_hash header, H(first hello), HRR, second hello *)
Theorem C11_hrr_message_hash : forall H s m, s_hrr s = true ->
  client_hello_part H s m = [254; 0; 0; u8 (N.of_nat (length (H (m_ch1 m))))] ++ H (m_ch1 m) ++ m_hrr m ++ m_ch2 m.
Proof.
  intros H s m E. unfold client_hello_part, message_hash. rewrite E. cbn zeta. rewrite <- !app_assoc. reflexivity.
Qed.
Print Assumptions C11_hrr_message_hash.

(* hence ExportKeyingMaterial agrees for every label, context and length, whatever the hash, the key schedule and
   the exporter are (same master secret on both sides: the key agreement itself is exercised by the runs) *)
Theorem C11_ekm_equal : forall H exporter_secret ekm13 master s m label ctx n,
  client_ekm13 H exporter_secret ekm13 master s m label ctx n = server_ekm13 H exporter_secret ekm13 master s m label ctx n.
Proof. intros. unfold client_ekm13, server_ekm13. rewrite to_server_finished_equal. reflexivity. Qed.
Print Assumptions C11_ekm_equal.

(* TLS <= 1.2: the exporter is a function of master secret and the two randoms; with extended_master_secret the master
   secret depends on the session hash through ClientKeyExchange, which both ends feed identically *)
Theorem C11_ekm_equal_tls12 : forall H master12 ekm12 pre s m label ctx n,
  client_ekm12 H master12 ekm12 pre s m label ctx n = server_ekm12 H master12 ekm12 pre s m label ctx n.
Proof. reflexivity. Qed.
Print Assumptions C11_ekm_equal_tls12.

(* For EVERY environment, client view, set of retained key-share private keys and server flight: if the client completes,
   the version, cipher suite, group (TLS 1.3 key_share group / TLS 1.2 ServerKeyExchange curve), negotiated protocol and
   "resumed" it reports are the values the server's own messages carry - i.e. what the server reports.
   Complete.client_run10 fixed is UConn.clientHandshake's decision with establishHandshakeKeys' key selection:
   fixed = true is the code with fixes/C18-keyshare-private-keys.diff (the key for the server share's group is the one
   ApplyPreset generated for that group: Ecdhe, ExtraEcdhe, MlkemEcdhe), fixed = false the code before it (always Ecdhe);
   the statement holds for both - the repair changes WHICH flights complete (with it a Firefox-type hello with shares
   [X25519; P-256] completes on P-256), never what a completed client reports. *)
Theorem C11_params : forall fixed e v ks fl cs, Complete.client_run10 fixed e v ks fl = Complete cs ->
  let ss := server_state fl in
  cs_vers cs = ss_vers ss /\ cs_suite cs = ss_suite ss /\ cs_group cs = ss_group ss /\
  cs_alpn cs = ss_alpn ss /\ cs_psk cs = ss_resumed ss.
Proof. intros fixed e v ks fl cs. unfold Complete.client_run10. apply params_agree. Qed.
Print Assumptions C11_params.

(* the same for the negotiation core alone (the view's single ecdhe curve; what C12/C13 reason about) *)
Theorem C11_params_core : forall e v fl cs, client_run_gen e v fl = Complete cs ->
  let ss := server_state fl in
  cs_vers cs = ss_vers ss /\ cs_suite cs = ss_suite ss /\ cs_group cs = ss_group ss /\
  cs_alpn cs = ss_alpn ss /\ cs_psk cs = ss_resumed ss.
Proof. exact params_agree. Qed.
Print Assumptions C11_params_core.

(* TLS <= 1.2 session resumption (outside Negotiate.v's run12): a client that completes the abbreviated handshake reports
   the version, suite, ALPN protocol of the resumed ServerHello (no protocol if it carries none - never the cached
   session's), no curve, and resumed = true: the server's values *)
Theorem C11_params_resumed12 : forall e v se vers h h_ems ok cs, client_resume12 e v se vers h h_ems ok = Complete cs ->
  let ss := server_state_resumed12 vers h in
  cs_vers cs = ss_vers ss /\ cs_suite cs = ss_suite ss /\ cs_group cs = ss_group ss /\
  cs_alpn cs = ss_alpn ss /\ cs_psk cs = ss_resumed ss.
Proof.
  unfold client_resume12. intros e v se vers h h_ems ok cs.
  repeat match goal with |- context [if ?b then _ else _] => destruct b; [discriminate|] end.
  intros E; inversion E; subst cs. cbn. repeat split; reflexivity.
Qed.
Print Assumptions C11_params_resumed12.

(* Server name, full statement: the client reports the SNI actually on the wire (which is what the server reports),
   empty if none - for every hostnameInSNI function, Config.ServerName and extension list with at most one SNI extension
   (two server_name extensions on the wire are refused by any server). Proved for the repaired code ... *)
Definition C11_server_name_full (fixed : bool) : Prop :=
  forall (host : bytes -> bytes) cfg exts, (sni_count exts <= 1)%nat ->
    server_server_name host exts = Some (client_server_name host fixed cfg exts).

Theorem C11_server_name : C11_server_name_full true.
Proof.
  intros host cfg exts Hc. unfold client_server_name.
  destruct (sni_count exts) as [|[|n]] eqn:E; [|apply one_sni_decides; exact E|lia].
  destruct (no_sni_neutral host [] exts E) as [Ha Hw]. unfold server_server_name. rewrite Ha, Hw. reflexivity.
Qed.
Print Assumptions C11_server_name.

(* ... and refuted for the code before the repair (F-11): no SNI extension, Config.ServerName "example.com":
   the client reports "example.com", the server "" *)
Theorem C11_server_name_before_fix_refuted : ~ C11_server_name_full false.
Proof.
  intros Hall. specialize (Hall (fun b => b) f11_name [NoSni] ltac:(cbn; lia)).
  vm_compute in Hall. discriminate Hall.
Qed.
Print Assumptions C11_server_name_before_fix_refuted.

(* the strongest true conditional for the unrepaired code: the spec has exactly one SNI extension *)
Theorem C11_server_name_before_fix_holds_if : forall (host : bytes -> bytes) cfg exts, sni_count exts = 1%nat ->
  server_server_name host exts = Some (client_server_name host false cfg exts).
Proof. intros host cfg exts. apply one_sni_decides. Qed.
Print Assumptions C11_server_name_before_fix_holds_if.

(* the hypotheses are satisfiable: concrete non-trivial inputs *)
Definition ex_view : client_view :=
  mkView [4865; 4866] [29; 23] [29] [[104; 50]] [1; 2; 3] 0 [] false 771 772 false 29 false [772; 771] 0.
(* HelloRetryRequest for P-256, then ServerHello on P-256 with ALPN h2 *)
Definition ex_flight : flight :=
  mkFlight (Some (mkHello 771 772 0 [1; 2; 3] 4865 0 0 23 true None []))
           (mkHello 771 772 0 [1; 2; 3] 4865 0 23 0 false None []) [104; 50] None None true.
Example C11_ex_complete : client_run ex_view ex_flight = Complete (mkState 772 4865 23 [104; 50] true false)
  /\ server_state ex_flight = mkSrv 772 4865 23 [104; 50] false.
Proof. vm_compute. split; reflexivity. Qed.

(* two key shares [X25519; P-256], server selects the second: aborts before the C18 repair, completes after it,
   with the server's values *)
Definition ex_view2 : client_view :=
  mkView [4865; 4866] [29; 23] [29; 23] [[104; 50]] [1; 2; 3] 0 [] false 771 772 false 29 false [772; 771] 0.
Definition ex_flight2 : flight :=
  mkFlight None (mkHello 771 772 0 [1; 2; 3] 4865 0 23 0 false None []) [104; 50] None None true.
Example C11_ex_second_share :
  Complete.client_run10 true env_fixed ex_view2 (KeyShare.mkShape 29 [23] false 0) ex_flight2
    = Complete (mkState 772 4865 23 [104; 50] false false)
  /\ Complete.client_run10 false env_fixed ex_view2 (KeyShare.mkShape 29 [] false 0) ex_flight2 = Abort a_illegal_parameter
  /\ server_state ex_flight2 = mkSrv 772 4865 23 [104; 50] false.
Proof. vm_compute. repeat split. Qed.

(* a TLS 1.2 resumption whose ServerHello carries no ALPN although the session was negotiated with h2: no protocol reported *)
Example C11_ex_resume12 :
  client_resume12 env_fixed ex_view (mkSess12 771 49195 true) 771 (mkHello 771 0 0 [9] 49195 0 0 0 false None []) true true
    = Abort a_handshake_failure  (* ex_view does not offer 49195 *)
  /\ client_resume12 env_fixed (mkView [49195] [29] [] [[104; 50]] [9] 0 [] false 769 771 false 0 false [] 0)
        (mkSess12 771 49195 true) 771 (mkHello 771 0 0 [9] 49195 0 0 0 false None []) true true
      = Complete (mkState 771 49195 0 [] false true).
Proof. vm_compute. split; reflexivity. Qed.

(* F-11 witness evaluated: identity hostnameInSNI, one non-SNI extension *)
Example C11_ex_f11 :
  client_server_name (fun b => b) false f11_name [NoSni] = f11_name /\
  client_server_name (fun b => b) true f11_name [NoSni] = [] /\
  server_server_name (fun b => b) [NoSni] = Some [].
Proof. vm_compute. repeat split. Qed.

(* an IP-literal ServerName (hostnameInSNI = ""): nothing on the wire, both report "" *)
Example C11_ex_ip : let host := (fun b : bytes => match b with 49 :: _ => [] | _ => b end) in
  client_server_name host true [49; 46; 49] [SniExt [49; 46; 49]] = [] /\ server_server_name host [SniExt [49; 46; 49]] = Some [].
Proof. vm_compute. split; reflexivity. Qed.

(* a transcript with every optional message present *)
Example C11_ex_shape : let s := mkShape true false true true true in
  let m := mkMsgs [1] [2] [3] [4] [5] [6] [7] [8] [9] [10] [11] [12] [13] in
  client_to_client_finished (fun b => b ++ b) s m = [254; 0; 0; 2; 1; 1; 2; 3; 4; 5; 6; 7; 8; 9; 10; 11; 12; 13].
Proof. vm_compute. reflexivity. Qed.
