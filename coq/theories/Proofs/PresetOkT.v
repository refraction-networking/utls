(* Model/PresetOk.v: for a spec satisfying the static predicate ApplyPreset can only fail for the
   documented reasons - the spec's version bounds (SetTLSVers / makeClientHelloForApplyPreset errors) or randomness that
   does not have the shape of the code's draws (short reads; the model's E_FRESH). It never panics (no third GREASE
   extension, no unsupported key-share group, no unknown HPKE AEAD, no uAssert in syncSessionExts, no GREASE slot out of
   range). *)
From UV Require Import Base.Common Model.Wire Model.Varint Model.Ext Model.ExtSpec Model.Strict.
From UV Require Import Proofs.WireP Proofs.ExtP Proofs.StrictP.
From UV Require Import Model.Padding Model.Marshal Model.ChMarshal Model.WriteToUConn.
From UV Require Model.Grease Proofs.GreaseP.
From UV Require Import Model.Preset Model.PresetOk Proofs.PresetOkP Proofs.PresetP.

Definition fails_with {A} (P : N -> Prop) (r : res A) : Prop :=
  match r with Ok _ => True | Err e => P e | Panic _ => False end.

Lemma fails_with_bind {A B} P (r : res A) (f : A -> res B) :
  fails_with P r -> (forall a, r = Ok a -> fails_with P (f a)) -> fails_with P (bind r f).
Proof. destruct r; cbn [bind fails_with]; intros H1 H2; [apply H2; reflexivity | exact H1 | exact H1]. Qed.

Lemma fails_with_weaken {A} (P Q : N -> Prop) (r : res A) : (forall e, P e -> Q e) -> fails_with P r -> fails_with Q r.
Proof. destruct r; cbn [fails_with]; auto. Qed.

(* the result is a value or the "randomness of the wrong shape" error *)
Definition okf {A} (r : res A) : Prop := match r with Ok _ => True | Err e => e = E_FRESH | Panic _ => False end.

Lemma okf_bind {A B} (r : res A) (f : A -> res B) : okf r -> (forall a, r = Ok a -> okf (f a)) -> okf (bind r f).
Proof. exact (fails_with_bind (fun e => e = E_FRESH) r f). Qed.

Lemma okf_ok {A} (a : A) : okf (Ok a). Proof. exact I. Qed.
Lemma okf_of_opt {A} (o : option A) : okf (of_opt E_FRESH o). Proof. destruct o; [exact I|reflexivity]. Qed.

Definition seed5 (sd : list N) : Prop := exists a b c d e, sd = [a; b; c; d; e].

Lemma boring_total sd idx : seed5 sd -> (idx <? 5)%nat = true -> exists v, Grease.boring_grease sd idx = Ok v.
Proof.
  intros (a & b & c & d & e & ->) H. destruct idx as [|[|[|[|[|k]]]]]; try discriminate; eexists; reflexivity.
Qed.

Lemma regrease_total sd idx l : seed5 sd -> (idx <? 5)%nat = true -> okf (Grease.map_res (Grease.regrease sd idx) l).
Proof.
  intros Hs Hi. induction l as [|x l IH]; cbn [Grease.map_res]; [exact I|].
  apply okf_bind.
  - unfold Grease.regrease. destruct (Grease.is_grease x); [|exact I]. destruct (boring_total sd idx Hs Hi) as (v & ->). exact I.
  - intros y _. apply okf_bind; [exact IH|]. intros r _. exact I.
Qed.

Lemma shares_total sd : seed5 sd -> forall ks keys, forallb share_ok ks = true -> okf (preset_shares sd keys ks).
Proof.
  intros Hs. induction ks as [|[g d] ks IH]; intros keys Hok; [exact I|].
  cbn [forallb] in Hok. apply andb_true_iff in Hok. destruct Hok as [Hk Hks].
  rewrite preset_shares_cons. apply okf_bind; [|intros x _; apply okf_bind; [exact (IH _ Hks)|intros; exact I]].
  unfold share_ok in Hk. cbn [fst snd preset_share] in *. apply andb_true_iff in Hk. destruct Hk as [_ Hd].
  destruct (Grease.is_grease g); [destruct (boring_total sd Grease.ssl_grease_group Hs eq_refl) as (v & ->); exact I|].
  cbn [orb] in Hd. destruct (1 <? blen d); [exact I|]. destruct (key_size g); [|discriminate].
  destruct keys as [|k keys]; [reflexivity|]. destruct (blen k =? n); [exact I|reflexivity].
Qed.

Lemma ech_total su ci en pl d :
  forallb (fun x => (fst x <? 65536) && ech_aead_ok (snd x)) su = true -> okf (ech_init su ci en pl d).
Proof.
  intros Hsu. unfold ech_init.
  apply okf_bind. { destruct ci; [exact I|apply okf_of_opt]. }
  intros cfgid _. apply okf_bind. { destruct su; [exact I|apply okf_of_opt]. }
  intros [kdf aead] Es.
  assert (Ha : ech_aead_ok aead = true).
  { apply draw_inv in Es. destruct su; [inversion Es; reflexivity|].
    rewrite forallb_forall in Hsu. specialize (Hsu _ Es). cbn [fst snd] in Hsu. apply andb_true_iff in Hsu. tauto. }
  apply okf_bind. { destruct pl; [exact I|apply okf_of_opt]. }
  intros plen _. rewrite Ha. cbn [negb].
  destruct (negb (blen (ed_payload d) =? plen + ECH_TAG_LEN)); [reflexivity|].
  destruct (empty en && negb (blen (ed_enc d) =? 32)); [reflexivity|exact I].
Qed.

(* no third GREASE extension, no unsupported group, no unknown AEAD: one entry can only fail on the randomness *)
Lemma preset_ext_total sd c snimax omit seen keys echs s : seed5 sd ->
  sext_ok snimax omit s = true -> (seen_after seen s <= 2)%nat -> okf (preset_ext sd c seen keys echs s).
Proof.
  intros Hs5. unfold seen_after.
  destruct s as [e|su ci en pl]; [destruct e|]; cbn [preset_ext sext_ok is_sgrease]; intros Hs Hc; try exact I.
  - apply okf_bind; [apply regrease_total; [exact Hs5|reflexivity]|]. intros; exact I.
  - destruct seen as [|[|seen]]; [| |lia].
    + destruct (boring_total sd Grease.ssl_grease_extension1 Hs5 eq_refl) as (x & ->). exact I.
    + destruct (boring_total sd Grease.ssl_grease_extension2 Hs5 eq_refl) as (x & ->). exact I.
  - apply andb_true_iff in Hs. destruct Hs as [Hsh _].
    apply okf_bind; [exact (shares_total _ Hs5 _ _ Hsh)|]. intros; exact I.
  - apply okf_bind; [apply regrease_total; [exact Hs5|reflexivity]|]. intros; exact I.
  - destruct echs as [|d echs']; [reflexivity|]. rewrite !andb_true_iff in Hs. destruct Hs as [[Hsu _] _].
    apply okf_bind; [exact (ech_total _ _ _ _ _ Hsu)|]. intros; exact I.
Qed.

Lemma preset_exts_total sd c snimax omit : seed5 sd -> forall ss seen keys echs,
  forallb (sext_ok snimax omit) ss = true -> (seen + ngrease ss <= 2)%nat -> okf (preset_exts sd c seen keys echs ss).
Proof.
  intros Hs5. induction ss as [|s r IH]; intros seen keys echs Hok Hc; [exact I|].
  cbn [forallb] in Hok. apply andb_true_iff in Hok. destruct Hok as [Hs Hr].
  rewrite ngrease_cons in Hc.
  rewrite preset_exts_cons. apply okf_bind; [apply (preset_ext_total _ _ snimax omit); [assumption..|lia]|].
  intros [e [[seen' keys'] echs']] He. apply preset_ext_inv, preset_step_seen in He. rewrite He.
  apply okf_bind; [exact (IH _ _ _ Hr Hc)|]. intros; exact I.
Qed.

Lemma psk_only_last_ids es : psk_only_last es = psk_lastb (map (fun e => if is_psk e then ID_PSK else 0) es).
Proof.
  induction es as [|e r IH]; [reflexivity|]. cbn [psk_only_last map psk_lastb]. destruct r as [|e2 r']; [reflexivity|].
  cbn [map]. cbn [map] in IH. rewrite IH. destruct (is_psk e); reflexivity.
Qed.

Lemma filter_length_map {A B} (f : A -> bool) (g : B -> bool) : forall l l',
  map f l = map g l' -> length (filter f l) = length (filter g l').
Proof.
  induction l as [|x l IH]; intros [|y l'] H; try discriminate; [reflexivity|].
  cbn [map] in H. inversion H as [[H1 H2]]. cbn [filter]. rewrite H1. destruct (g y); cbn [length]; rewrite (IH _ H2); reflexivity.
Qed.

Lemma scan_versions_fails (P : N -> Prop) : P E_VERS_EXT -> forall es acc, fails_with P (scan_versions es acc).
Proof.
  intros HP. induction es as [|s r IH]; intros [[cnt a0] b0]; [exact I|]. cbn [scan_versions].
  destruct s as [e|]; [|apply IH]. destruct e; try apply IH.
  destruct (find_versions versions) as [m1 m2]. destruct ((m1 =? 0) && (m2 =? 0)); [exact HP|apply IH].
Qed.

Lemma set_tls_vers_fails (P : N -> Prop) sp : P E_VERS_EXT -> P E_VERS_RANGE -> fails_with P (set_tls_vers sp).
Proof.
  intros H1 H2. unfold set_tls_vers. apply fails_with_bind.
  - destruct ((sp_min sp =? 0) && (sp_max sp =? 0)); [|exact I].
    apply fails_with_bind; [exact (scan_versions_fails P H1 _ _)|]. intros [[cnt mn] mx] _.
    destruct cnt as [|[|cnt]]; [exact I|exact I|exact H1].
  - intros [mn mx] _. destruct ((mn <? VersionTLS10) || (VersionTLS13 <? mn)); [exact H2|].
    destruct ((mx <? VersionTLS10) || (VersionTLS13 <? mx)); [exact H2|exact I].
Qed.

Definition allowed_errors : list N :=
  [E_VERS_EXT; E_VERS_RANGE; E_NO_VERSIONS; E_SHORT_RAND; Grease.E_SHORT_RAND; E_FRESH].

(* ApplyPreset on a spec satisfying the static predicate: whatever set of error codes contains those of the version
   bounds, of short reads and of misshapen randomness contains every failure *)
Lemma apply_preset_fails (P : N -> Prop) sp c fr snimax omit :
  P E_VERS_EXT -> P E_VERS_RANGE -> P E_NO_VERSIONS -> P E_SHORT_RAND -> P Grease.E_SHORT_RAND -> P E_FRESH ->
  preset_ok sp snimax omit = true -> cfg_in_class c snimax omit -> fails_with P (apply_preset sp c fr).
Proof.
  intros Q1 Q2 Q3 Q4 Q5 Q6 Hok [Hsni Homit].
  assert (Hfresh : forall A (r : res A), okf r -> fails_with P r).
  { intros A r. apply fails_with_weaken. intros e ->. exact Q6. }
  unfold preset_ok in Hok. rewrite !andb_true_iff in Hok.
  destruct Hok as [[[[[[[[[Hsne Hs16] Hslen] Hexts] Hngr] Hnd] Hnog] Hpsk] Htk] Hsum].
  unfold apply_preset.
  apply fails_with_bind; [exact (set_tls_vers_fails P sp Q1 Q2)|]. intros [mn mx] _. cbn [fst snd].
  apply fails_with_bind; [unfold hello_vers; destruct (mx <? mn); [exact Q3|exact I]|]. intros v _.
  destruct (blen (f_random fr) =? 32); cbn [negb]; [|exact Q4].
  apply fails_with_bind; [unfold Grease.grease_seed; destruct (Nat.eqb _ _); [exact I|exact Q5]|]. intros sd Eg.
  destruct (GreaseP.grease_seed_shape _ _ Eg) as (c0 & g0 & e1 & e2 & v0 & -> & Hne).
  assert (Hs5 : seed5 [c0; g0; e1; e2; v0]) by (repeat eexists).
  apply fails_with_bind; [apply Hfresh, regrease_total; [exact Hs5|reflexivity]|]. intros su _.
  destruct (blen (f_sid fr) =? 32); cbn [negb]; [|exact Q4].
  apply fails_with_bind.
  { apply Hfresh, (preset_exts_total _ c snimax omit Hs5); [exact Hexts|]. unfold ngrease. clear - Hngr. lia. }
  intros es Ee. apply fails_with_bind; [|intros; exact I].
  (* syncSessionExts: tickets and pre_shared_key are where the spec has them *)
  destruct (preset_exts_ok_seeded _ _ _ _ _ _ _ _ _ Eg (conj Hsni Homit) Ee Hexts) as (x1 & x2 & _ & _ & _ & _ & _ & _ & L4 & L5).
  unfold sync_session_exts. rewrite (filter_length_map _ _ _ _ L5).
  assert (Hp : psk_only_last es = true).
  { rewrite psk_only_last_ids, (psk_positions _ _ _ L4); [exact Hpsk|].
    intros e _. change (is_psk e) with (is_psk_ext e). destruct (is_psk_ext e); reflexivity. }
  rewrite Hp. cbn [negb orb].
  destruct (1 <? N.of_nat (length (filter is_sticket (sp_exts sp)))) eqn:E1; [clear - E1 Htk; lia|exact I].
Qed.

Theorem preset_ok_failures sp c fr snimax omit :
  preset_ok sp snimax omit = true -> cfg_in_class c snimax omit ->
  match apply_preset sp c fr with
  | Ok _ => True
  | Err e => In e allowed_errors
  | Panic _ => False
  end.
Proof. apply (apply_preset_fails (fun e => In e allowed_errors)); cbn; tauto. Qed.
