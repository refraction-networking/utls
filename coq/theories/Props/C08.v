(* C08 — every extension's encoder and decoder agree. The model
   (Model/Ext.v) describes the code WITH fixes/C08-ech-grease-short-payload,
   fixes/C08-utls-psk-read-without-session, fixes/C08-one-byte-prefix-overflow and
   fixes/C08-psk-len-after-edit applied; the inputs on which the
   unfixed code violated the property are kept below as Examples and as corpus
   cases of the runner.

     ext_len e / ext_read e n / ext_write id body : Len(), Read(b) with len(b) = n, ExtensionFromID(id)+Write(body)
     state_ok e : FakePreSharedKeyExtension binders have a TLS 1.3 hash size (otherwise Read refuses them)
     wf_ext e   : state_ok and every field within its wire limit (Model/ExtSpec.v)
     rt_ok e    : wf_ext, present on the wire, the type has Write, vectors not below the RFC minimum sizes *)
From UV Require Import Base.Common Model.Wire Model.Varint Model.Ext Model.ExtSpec Model.ExtObj Proofs.WireP Proofs.ExtP.

(* Len() equals the number of bytes Read() writes — all 31 types, any field values. *)
Theorem C08_len_read : forall e n b, state_ok e = true -> ext_read e n = Ok b -> blen b = ext_len e.
Proof. exact len_read. Qed.
Print Assumptions C08_len_read.

(* ... with no premise at all: with fixes/C08-psk-len-after-edit UtlsPreSharedKeyExtension.Len() does not
   trust a cached length (without that fix a value measured once at 131 bytes and then edited refutes
   the statement: Len() 131, Read writes 69 bytes; the witness is C08_ex_formerly_stale_psk below). *)
Theorem C08_len_read_any_state : forall e n b, ext_read e n = Ok b -> blen b = ext_len e.
Proof. exact len_read_any. Qed.
Print Assumptions C08_len_read_any_state.
Example C08_ex_formerly_stale_psk :
  let e := EUtlsPreSharedKey true (Some 131) true [([126], 5)] [zbytes 64] in
  ext_len e = 80 /\ ext_read e 79 = Err E_SHORT /\ is_ok (ext_read e 80) = true.
Proof. repeat split; vm_compute; reflexivity. Qed.

(* Objects edited after they were encoded once (Model/ExtObj.v: what the object serves is
   obj_view first cur — QUIC transport parameters keep their first non-empty encoding):
   Len() and Read() still agree, and short buffers are still refused. *)
Theorem C08_len_read_after_edit : forall first cur n b, state_ok (obj_view first cur) = true ->
  obj_read first cur n = Ok b -> blen b = obj_len first cur.
Proof. exact (fun first cur => len_read (obj_view first cur)). Qed.
Theorem C08_read_short_after_edit : forall first cur n, state_ok (obj_view first cur) = true ->
  n < obj_len first cur -> obj_read first cur n = Err E_SHORT.
Proof. exact (fun first cur => read_short (obj_view first cur)). Qed.
Print Assumptions C08_read_short_after_edit.

(* Any shorter buffer: io.ErrShortBuffer, no bytes. *)
Theorem C08_read_short : forall e n, state_ok e = true -> n < ext_len e -> ext_read e n = Err E_SHORT.
Proof. exact read_short. Qed.
Print Assumptions C08_read_short.

(* Any buffer of at least Len() bytes gives the same result as one of exactly Len() bytes. *)
Theorem C08_read_enough : forall e n, state_ok e = true -> ext_len e <= n -> ext_read e n = ext_read e (ext_len e).
Proof. exact read_enough. Qed.
Print Assumptions C08_read_enough.

(* Within wire limits Read succeeds and writes either nothing (Len() = 0) or
   type || uint16 length || body, where body is the RFC layout written with length-prefix
   combinators: the header length is the body length and each inner prefix is the length of
   the vector it precedes. *)
Theorem C08_read_layout : forall e, wf_ext e = true ->
  if ext_absent e then ext_read e (ext_len e) = Ok [] /\ ext_len e = 0
  else ext_read e (ext_len e) = Ok (enc_u16 (ext_id e) ++ enc_u16lp (ext_body e))
       /\ blen (ext_body e) + 4 = ext_len e.
Proof. exact read_layout. Qed.
Print Assumptions C08_read_layout.

(* ... and the cryptobyte readers take it apart again: type, then exactly the body, nothing left. *)
Theorem C08_header_parses : forall e, wf_ext e = true -> ext_absent e = false ->
  exists b, ext_read e (ext_len e) = Ok b
    /\ read_u16 b = Some (ext_id e, enc_u16lp (ext_body e))
    /\ read_u16lp (enc_u16lp (ext_body e)) = Some (ext_body e, [])
    /\ blen (ext_body e) + 4 = ext_len e.
Proof.
  intros e Hwf Hab. pose proof (read_layout e Hwf) as HL. rewrite Hab in HL. destruct HL as [HR HB].
  destruct (wf_parts e Hwf) as (_ & Hf & Hl).
  exists (enc_u16 (ext_id e) ++ enc_u16lp (ext_body e)). repeat split; try assumption.
  - apply read_enc_u16. now apply ext_id_u16.
  - apply read_enc_u16lp_nil. lia.
Qed.
Print Assumptions C08_header_parses.

(* Write applied to the body Read produced yields the documented normal form (28 types with
   Write reachable through ExtensionFromID; Generic, Cookie, QUIC transport parameters have none). *)
Theorem C08_write_read : forall e, rt_ok e = true ->
  exists body, ext_read e (ext_len e) = Ok (enc_u16 (ext_id e) ++ enc_u16lp body)
    /\ blen body < 65536 /\ ext_write (ext_id e) body = Ok (ext_norm e).
Proof.
  intros e Hrt. destruct (rt_parts e Hrt) as (Hwf & Hab).
  pose proof (read_layout e Hwf) as HL. rewrite Hab in HL. destruct HL as [HR HB].
  destruct (wf_parts e Hwf) as (_ & _ & Hl).
  exists (ext_body e). repeat split; [exact HR|lia|now apply write_read].
Qed.
Print Assumptions C08_write_read.

(* The real-PSK writer ReadTLSExtensions may choose for id 41 ignores the body. *)
Theorem C08_write_read_realpsk : forall s c o ids bs b,
  ext_write_realpsk ID_PSK b = Ok (ext_norm (EUtlsPreSharedKey s c o ids bs)).
Proof. reflexivity. Qed.
Print Assumptions C08_write_read_realpsk.

(* Encoding the normal form and decoding again is a fixed point: read . write . read = read
   on normalised values, and normalising twice changes nothing. *)
Theorem C08_reencode_stable : forall e, rt_ok (ext_norm e) = true ->
  ext_write (ext_id (ext_norm e)) (ext_body (ext_norm e)) = Ok (ext_norm e).
Proof. intros e H. rewrite <- (norm_idem e) at 3. now apply write_read. Qed.
Print Assumptions C08_reencode_stable.
Theorem C08_norm_idempotent : forall e, ext_norm (ext_norm e) = ext_norm e.
Proof. exact norm_idem. Qed.
Print Assumptions C08_norm_idempotent.

(* Error branches outside the one-byte prefixes: refused, never truncated. *)
Theorem C08_too_many_compress : forall a n, 255 < 2 * blen a -> ext_len (ECompressCert a) <= n ->
  ext_read (ECompressCert a) n = Err E_MANY_COMPRESS.
Proof. intros * H Hn. apply read_over_limit; [exact Hn|lia]. Qed.
Theorem C08_too_many_versions : forall v n, 255 < 2 * blen v -> ext_len (ESupportedVersions v) <= n ->
  ext_read (ESupportedVersions v) n = Err E_MANY_VERSIONS.
Proof. intros * H Hn. apply read_over_limit; [exact Hn|lia]. Qed.
Theorem C08_too_many_pskmodes : forall m n, 255 < blen m -> ext_len (EPSKKeyExchangeModes m) <= n ->
  ext_read (EPSKKeyExchangeModes m) n = Err E_MANY_PSKMODES.
Proof. intros * H Hn. apply read_over_limit; [exact Hn|lia]. Qed.
Print Assumptions C08_too_many_pskmodes.
(* ... and, since fixes/C08-one-byte-prefix-overflow, the other five one-byte prefixes. *)
Theorem C08_too_many_points : forall p n, 255 < blen p -> ext_len (ESupportedPoints p) <= n ->
  ext_read (ESupportedPoints p) n = Err E_MANY_POINTS.
Proof. intros * H Hn. apply read_over_limit; [exact Hn|lia]. Qed.
Theorem C08_too_long_alps_name : forall ps n, Exists (fun s => 255 < blen s) ps ->
  ext_len (EApplicationSettings ps) <= n ->
  ext_read (EApplicationSettings ps) n = Err E_ALPS_NAME_LONG
  /\ ext_read (EApplicationSettingsNew ps) n = Err E_ALPS_NAME_LONG.
Proof.
  intros ps n H Hn.
  assert (L : existsb (fun s => 255 <? blen s) ps = true).
  { apply existsb_exists. apply Exists_exists in H. destruct H as (s & Hin & Hs). exists s. split; [exact Hin|lia]. }
  split; apply read_over_limit; assumption.
Qed.
Theorem C08_too_long_renegotiated_connection : forall r c n, 255 < blen c -> ext_len (ERenegotiationInfo r c) <= n ->
  ext_read (ERenegotiationInfo r c) n = Err E_RENEG_LONG.
Proof. intros * H Hn. apply read_over_limit; [exact Hn|lia]. Qed.
Theorem C08_too_many_token_binding_params : forall ma mi p n, 255 < blen p ->
  ext_len (EFakeTokenBinding ma mi p) <= n -> ext_read (EFakeTokenBinding ma mi p) n = Err E_MANY_TB_PARAMS.
Proof. intros * H Hn. apply read_over_limit; [exact Hn|lia]. Qed.
Print Assumptions C08_too_many_token_binding_params.

(* Read panics only where TransportParameters.Marshal does (C24). *)
Theorem C08_read_no_panic : forall e n, (forall tps, e <> EQUICTransportParameters tps) -> is_panic (ext_read e n) = false.
Proof. exact read_no_panic. Qed.
Print Assumptions C08_read_no_panic.

(* F-02a after the fix: a GREASE ECH payload shorter than the AEAD tag is refused. *)
Theorem C08_ech_short_payload_refused : forall kdf aead cfg enc p,
  kdf < 65536 -> aead < 65536 -> ech_kdf_ok kdf = true -> ech_aead_ok aead = true ->
  blen enc < 65536 -> blen p < ECH_TAG_LEN ->
  ech_write ([0] ++ enc_u16 kdf ++ enc_u16 aead ++ [cfg] ++ enc_u16lp enc ++ enc_u16lp p) = Err E_ECH_PAYLOAD_SHORT.
Proof.
  intros kdf aead cfg enc p Hk Ha Hkok Haok Hel Hpl.
  rewrite ech_write_layout by (assumption || (unfold ECH_TAG_LEN in Hpl; lia)).
  apply N.ltb_lt in Hpl. now rewrite Hpl.
Qed.
Print Assumptions C08_ech_short_payload_refused.

(* non-vacuity: concrete values meeting each hypothesis, one per shape *)
Example C08_ex_rt_keyshare : rt_ok (EKeyShare [(6682, [0]); (29, zbytes 32); (4588, zbytes 1216)]) = true
  /\ ext_norm (EKeyShare [(6682, [0]); (29, zbytes 32)]) = EKeyShare [(2570, [0]); (29, [])].
Proof. split; vm_compute; reflexivity. Qed.
Example C08_ex_rt_alpn : rt_ok (EALPN [[104; 50]; [104; 116; 116; 112; 47; 49; 46; 49]]) = true.
Proof. vm_compute. reflexivity. Qed.
Example C08_ex_rt_sni : rt_ok (ESNI [97; 46; 98]) = true /\ ext_absent (ESNI []) = true.
Proof. split; vm_compute; reflexivity. Qed.
Example C08_ex_rt_fakepsk : rt_ok (EFakePreSharedKey true [([1; 2; 3], 4294967295)] [zbytes 32; zbytes 48]) = true.
Proof. vm_compute. reflexivity. Qed.
Example C08_ex_rt_ech : rt_ok (EGREASEECH 1 3 77 (zbytes 32) (zbytes 16)) = true.
Proof. vm_compute. reflexivity. Qed.
Example C08_ex_wf_utlspsk : wf_ext (EUtlsPreSharedKey true None false [([9], 1)] [zbytes 32]) = true
  /\ ext_len (EUtlsPreSharedKey true None false [([9], 1)] [zbytes 32]) = 48.
Proof. split; vm_compute; reflexivity. Qed.
Example C08_ex_limits : wf_ext (ESupportedVersions (repeat 772 127)) = true
  /\ 255 < 2 * blen (repeat 772 128).
Proof. split; vm_compute; reflexivity. Qed.
(* the over-limit witnesses of the C02 boundary table: 256 entries used to give a length byte of 0 *)
Example C08_ex_over_one_byte :
  ext_read (ESupportedPoints (zbytes 256)) 261 = Err E_MANY_POINTS
  /\ ext_read (EApplicationSettings [zbytes 256]) 263 = Err E_ALPS_NAME_LONG
  /\ Exists (fun s => 255 < blen s) [[104; 50]; zbytes 256]
  /\ ext_read (ERenegotiationInfo 1 (zbytes 256)) 261 = Err E_RENEG_LONG
  /\ ext_read (EFakeTokenBinding 0 13 (zbytes 256)) 263 = Err E_MANY_TB_PARAMS
  /\ wf_ext (ESupportedPoints (zbytes 255)) = true /\ wf_ext (ESupportedPoints (zbytes 256)) = false.
Proof.
  repeat split; try (vm_compute; reflexivity).
  apply Exists_cons_tl, Exists_cons_hd. vm_compute. reflexivity.
Qed.

(* The inputs on which the unfixed code failed (kept as runner corpus): GREASE ECH body with a
   15-byte payload — the unfixed Write accepted it and the object then had Len() = 65566 instead
   of 30; UtlsPreSharedKeyExtension without session, OmitEmptyPsk set, identities present —
   Len() = 0 while Read wrote 50 bytes into a large buffer and failed on an empty one. *)
Example C08_ex_ech_witness :
  ext_write ID_ECH ([0; 0;1; 0;1; 42; 0;1; 7] ++ enc_u16 15 ++ zbytes 15) = Err E_ECH_PAYLOAD_SHORT.
Proof. vm_compute. reflexivity. Qed.
Example C08_ex_utlspsk_witness :
  let e := EUtlsPreSharedKey false None true [([1; 2; 3], 7)] [zbytes 32] in
  state_ok e = true /\ ext_len e = 0 /\ ext_read e 0 = Ok [] /\ ext_read e 100 = Ok [].
Proof. repeat split; vm_compute; reflexivity. Qed.
