(* C22 — application settings (ALPS) are exchanged consistently.
   Model/Alps.v describes the code AFTER fixes/C22-alps-local-key.diff ([fixed = true]); the code as found
   ([fixed = false]) is refuted below (F-22).
   Not modelled: the record layer, key schedule and the rest of the TLS 1.3 state machine; the Finished computation is the
   Section variable [fin] (any function of the bytes hashed so far).  Clients with QUIC, early data or ECH are outside the model. *)
From UV Require Import Base.Common Model.Alps Proofs.AlpsP.
From UV Require Model.Negotiate.
Open Scope N_scope.

(* alps_codec_roundtrip: the client's EncryptedExtensions, for every settings value the builder can encode, parses back (with the
   server-side parser utlsClientEncryptedExtensionsMsg.unmarshal) to the same code point and settings *)
Theorem C22_alps_codec_total : forall cp settings, blen settings + 4 < 65536 ->
  cee_marshal cp settings [] = Ok (typeEncryptedExtensions :: enc_u24lp (enc_u16lp (cee_exts cp settings []))).
Proof. exact cee_marshal_ok. Qed.
Print Assumptions C22_alps_codec_total.
Theorem C22_alps_codec_roundtrip : forall cp settings msg,
  cp = 0 \/ alps_cp cp -> cee_marshal cp settings [] = Ok msg ->
  cee_unmarshal msg = Ok (Some {| ee_codepoint := cp; ee_settings := if cp =? 0 then [] else settings |}).
Proof. exact cee_roundtrip. Qed.
Print Assumptions C22_alps_codec_roundtrip.
(* ... and the server's EncryptedExtensions, for every well-formed extension list, is handled extension by extension in order *)
Theorem C22_server_ee_decoding : forall exts, Forall ext_wf exts -> blen (enc_exts exts) < 65536 ->
  ee_unmarshal (enc_ee exts) = ee_fold exts ee_zero.
Proof.
  intros exts Hwf Hl. unfold ee_unmarshal, enc_ee, enc_u24lp. rewrite cb_skip4_hdr. cbn [bind].
  rewrite cb_lp2_enc_nil by exact Hl. cbn [bind is_empty negb]. apply ee_loop_enc; [exact Hwf|lia].
Qed.
Print Assumptions C22_server_ee_decoding.

(* alps_peer: the server's settings on either code point (the last such extension counts), for a negotiated protocol the client
   offered, under TLS 1.3, end up in PeerApplicationSettings *)
Theorem C22_alps_peer : forall c pre cp data post m,
  Forall ext_wf (pre ++ (cp, data) :: post) -> blen (enc_exts (pre ++ (cp, data) :: post)) < 65536 ->
  is_alps cp = true -> Forall (fun e => is_alps (fst e) = false) post ->
  ee_fold (pre ++ (cp, data) :: post) ee_zero = Ok (Some m) ->
  cl_vers c = V13 -> ee_alpn m <> [] -> Negotiate.check_alpn (cl_offered c) (ee_alpn m) = true ->
  ee_quic m = None -> ee_early m = false ->
  forall fixed, exists st, client_read_ee fixed c (enc_ee (pre ++ (cp, data) :: post)) = Ok st /\
    st_peer st = data /\ st_cp st = cp /\ st_proto st = ee_alpn m.
Proof.
  intros c pre cp data post m Hwf Hl Hcp Hpost Hf Hv Hp Ha Hq He fixed.
  unfold client_read_ee. rewrite (C22_server_ee_decoding _ Hwf Hl), Hf. cbn [bind].
  rewrite (rsp_accept fixed c m Hv Hp Ha Hq He). eexists; split; [reflexivity|].
  destruct (ee_fold_alps _ _ _ _ _ _ Hcp Hpost Hf) as [-> ->]. cbn [st_peer st_cp st_proto]. auto.
Qed.
Print Assumptions C22_alps_peer.

(* alps_reject: below TLS 1.3, or with no negotiated ALPN protocol, application settings abort the handshake *)
Theorem C22_alps_reject_utls : forall fixed c proto m, ee_cp m <> 0 -> cl_vers c < V13 \/ proto = [] ->
  utls_read_server_parameters fixed c proto m = Err a_unsupported_extension.
Proof.
  intros fixed c proto m Hcp H. unfold utls_read_server_parameters.
  destruct (N.eqb_spec (ee_cp m) 0) as [E|_]; [contradiction|]. cbn [negb].
  destruct (N.ltb_spec (cl_vers c) V13) as [Hv|Hv]; [reflexivity|].
  destruct H as [H | ->]; [lia|]. reflexivity.
Qed.
Print Assumptions C22_alps_reject_utls.
Theorem C22_alps_reject : forall fixed c data m,
  ee_unmarshal data = Ok (Some m) -> ee_cp m <> 0 -> cl_vers c < V13 \/ ee_alpn m = [] ->
  client_read_ee fixed c data = Err a_unsupported_extension \/ client_read_ee fixed c data = Err a_no_application_protocol.
Proof.
  intros fixed c data m Eu Hcp H. unfold client_read_ee. rewrite Eu. cbn [bind]. unfold read_server_parameters.
  (* no_application_protocol when checkALPN already refused the protocol *)
  destruct (Negotiate.check_alpn (cl_offered c) (ee_alpn m)); cbn [negb]; [|right; reflexivity].
  rewrite (C22_alps_reject_utls fixed c (ee_alpn m) m Hcp H). left; reflexivity.
Qed.
Print Assumptions C22_alps_reject.
(* TLS 1.0-1.2 handshakes never reach that function: an ALPS extension in a ServerHello is an unknown extension, ignored by
   serverHelloMsg.unmarshal; nothing is exposed and nothing is answered (definitional in the model; observed by the runner) *)
Theorem C22_alps_tls12_not_accepted : forall negotiated alps,
  st_peer (sh12_alps_state negotiated alps) = [] /\ send_client_ee (sh12_alps_state negotiated alps) = Ok [].
Proof. intros. split; reflexivity. Qed.
Print Assumptions C22_alps_tls12_not_accepted.

(* alps_in_transcript: the client's EncryptedExtensions is written into the transcript before the client Finished is computed,
   so a server that hashes what it reads, in order, computes the same Finished (transcripts equal up to the server Finished) *)
Theorem C22_alps_in_transcript : forall (fin : bytes -> bytes) tr st certs,
  st_cp st = 0 \/ alps_cp (st_cp st) -> blen (st_local st) + 4 < 65536 ->
  exists ee, send_client_ee st = Ok ee /\
    client_flight fin tr st certs = Ok (ee ++ certs ++ [finished_msg fin (tr ++ concat ee ++ concat certs)], tr ++ concat ee ++ concat certs) /\
    server_finish fin tr (negb (st_cp st =? 0)) (length certs) (ee ++ certs ++ [finished_msg fin (tr ++ concat ee ++ concat certs)])
      = Some (if st_cp st =? 0 then None else Some (st_cp st, st_local st)).
Proof.
  intros fin tr st certs Hcp Hl. unfold client_flight, server_finish. destruct Hcp as [H0 | Hcp].
  - rewrite (send_client_ee_none st H0). exists []. split; [reflexivity|]. cbn [bind concat app]. split; [reflexivity|].
    rewrite H0. cbn [N.eqb negb]. rewrite take_msgs_app. now rewrite bytes_eqb_refl.
  - destruct (send_client_ee_decodes st Hcp Hl) as (msg & Es & H8 & Ed). rewrite Es. exists [msg]. split; [reflexivity|].
    cbn [bind]. split; [reflexivity|].
    assert (Hne : (st_cp st =? 0) = false) by (destruct Hcp as [-> | ->]; reflexivity). rewrite Hne. cbn [negb app].
    rewrite H8, Ed. cbn [ee_codepoint ee_settings]. rewrite take_msgs_app.
    cbn [concat]. rewrite app_nil_r, <- app_assoc. now rewrite bytes_eqb_refl.
Qed.
Print Assumptions C22_alps_in_transcript.

(* ... and it is the first message of the client's second flight also when the server asked for a certificate: EncryptedExtensions,
   then Certificate / CertificateVerify, then Finished (an ALPS server reads it right after its own Finished) *)
Theorem C22_client_ee_first : forall (fin : bytes -> bytes) tr st certs m sent tr2,
  send_client_ee st = Ok [m] -> client_flight fin tr st certs = Ok (sent, tr2) ->
  sent = m :: certs ++ [finished_msg fin tr2] /\ tr2 = tr ++ m ++ concat certs.
Proof. exact client_ee_first. Qed.
Print Assumptions C22_client_ee_first.
(* a PSK-resumed connection negotiates application settings like a full handshake (the hook is not guarded by usingPSK) *)
Theorem C22_alps_resumed_same : forall using_psk fixed c data, client_read_ee_conn using_psk fixed c data = client_read_ee fixed c data.
Proof. reflexivity. Qed.
Print Assumptions C22_alps_resumed_same.

(* alps_local (FIXED code): from the bytes of the server's EncryptedExtensions to what the server decodes: the client's
   configured settings for the negotiated protocol, on the server's code point, inside the transcript, Finished accepted *)
Theorem C22_alps_local : forall (fin : bytes -> bytes) c data m st v tr certs,
  ee_unmarshal data = Ok (Some m) -> read_server_parameters true c m = Ok st -> ee_cp m <> 0 ->
  lookup (ee_alpn m) (cl_settings c) = Some v -> blen v + 4 < 65536 ->
  exists msg, send_client_ee st = Ok [msg] /\
    client_flight fin tr st certs =
      Ok ([msg] ++ certs ++ [finished_msg fin (tr ++ concat [msg] ++ concat certs)], tr ++ concat [msg] ++ concat certs) /\
    server_finish fin tr true (length certs) ([msg] ++ certs ++ [finished_msg fin (tr ++ concat [msg] ++ concat certs)])
      = Some (Some (ee_cp m, v)).
Proof.
  intros fin c data m st v tr certs Eu Er Hcp Hl Hv.
  destruct (alps_local_fixed c m st v Er Hcp Hl) as (Hloc & Hc & _).
  destruct (ee_unmarshal_cp data m Eu) as [H0|Hd]; [contradiction|].
  rewrite <- Hc in Hd. rewrite <- Hloc in Hv.
  destruct (send_client_ee_decodes st Hd Hv) as (msg & Es & _ & _).
  destruct (C22_alps_in_transcript fin tr st certs (or_intror Hd) Hv) as (ee & Es' & Ef & Ea).
  rewrite Es in Es'. injection Es' as <-. exists msg. split; [exact Es|]. split; [exact Ef|].
  assert (Hne : (st_cp st =? 0) = false) by (destruct Hd as [-> | ->]; reflexivity).
  rewrite Hne in Ea. cbn [negb] in Ea. rewrite Ea, Hc, Hloc. reflexivity.
Qed.
Print Assumptions C22_alps_local.

(* F-22, the code as found: the lookup key is ServerHello.alpnProtocol, empty in TLS 1.3, so the configured settings are not sent *)
Definition C22_alps_local_v0_full : Prop := forall c m st v,
  cl_sh_alpn c = [] -> read_server_parameters false c m = Ok st -> ee_cp m <> 0 ->
  lookup (ee_alpn m) (cl_settings c) = Some v -> st_local st = v.
Theorem C22_alps_local_v0_refuted : ~ C22_alps_local_v0_full.
Proof.
  intros H. destruct f22_witness as (st & E & Hl & Hs).
  specialize (H f22_client f22_ee st [1; 2; 3] eq_refl E ltac:(discriminate) Hl). rewrite Hs in H. discriminate.
Qed.
Print Assumptions C22_alps_local_v0_refuted.

(* EncryptedExtensions { ALPN "h2"; ALPS(17613) = 01 02 03 } *)
Definition ex_exts : list (N * bytes) := [(16, [0; 3; 2; 104; 50]); (17613, [1; 2; 3])].
Definition ex_client : client := mkClient V13 [[104; 50]; [104; 116; 116; 112; 47; 49; 46; 49]] [([104; 50], [7; 7])] [].
Definition ex_fin (tr : bytes) : bytes := [blen tr mod 256; 42].
Example C22_ex_wire : enc_ee ex_exts = [8; 0; 0; 18; 0; 16; 0; 16; 0; 5; 0; 3; 2; 104; 50; 68; 205; 0; 3; 1; 2; 3].
Proof. vm_compute. reflexivity. Qed.
Example C22_ex_peer : client_read_ee true ex_client (enc_ee ex_exts) = Ok (mkSt [104; 50] [1; 2; 3] 17613 [7; 7]).
Proof. vm_compute. reflexivity. Qed.
Example C22_ex_hyps : Forall ext_wf ex_exts /\ blen (enc_exts ex_exts) < 65536 /\
  ee_fold ex_exts ee_zero = Ok (Some (mkEE [104; 50] None false None 17613 [1; 2; 3])).
Proof. split; [repeat constructor|]. split; vm_compute; reflexivity. Qed.
Example C22_ex_answer : send_client_ee (mkSt [104; 50] [1; 2; 3] 17613 [7; 7]) = Ok [[8; 0; 0; 8; 0; 6; 68; 205; 0; 2; 7; 7]].
Proof. vm_compute. reflexivity. Qed.
Example C22_ex_finish :
  server_finish ex_fin [1; 1] true 0 [[8; 0; 0; 8; 0; 6; 68; 205; 0; 2; 7; 7]; finished_msg ex_fin ([1; 1] ++ [8; 0; 0; 8; 0; 6; 68; 205; 0; 2; 7; 7])]
  = Some (Some (17613, [7; 7])).
Proof. vm_compute. reflexivity. Qed.
(* a server that skips the client's EncryptedExtensions in its transcript refuses the Finished *)
Example C22_ex_finish_unhashed :
  server_finish ex_fin [1; 1] true 0 [[8; 0; 0; 8; 0; 6; 68; 205; 0; 2; 7; 7]; finished_msg ex_fin [1; 1]] = None.
Proof. vm_compute. reflexivity. Qed.
Example C22_ex_reject_no_alpn : client_read_ee true ex_client (enc_ee [(17513, [1])]) = Err a_unsupported_extension.
Proof. vm_compute. reflexivity. Qed.
Example C22_ex_reject_tls12 :
  read_server_parameters true (mkClient 771 [[104; 50]] [] []) (mkEE [104; 50] None false None 17513 [1]) = Err a_unsupported_extension.
Proof. vm_compute. reflexivity. Qed.
Example C22_ex_v0 : client_read_ee false ex_client (enc_ee ex_exts) = Ok (mkSt [104; 50] [1; 2; 3] 17613 []).
Proof. vm_compute. reflexivity. Qed.
