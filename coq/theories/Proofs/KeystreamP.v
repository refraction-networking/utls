(* GetOutKeystream returns the keystream of the next record (ks_next) and leaves the connection as it
   was (ks_pure). *)
From UV Require Import Base.Common Model.Record Model.Keystream Proofs.RecordP Proofs.RecordRT Proofs.RecordStream.
Open Scope N_scope.

Lemma bxor_zeros_l k n : (n <= length k)%nat -> bxor (zeros n) k = firstn n k.
Proof.
  revert k. induction n as [|n IH]; intros k Hk; [reflexivity|].
  destruct k as [|x k]; [cbn in Hk; lia|]. cbn [zeros repeat bxor firstn]. f_equal.
  apply IH. cbn in Hk. lia.
Qed.

Lemma firstn_bxor n a k : firstn n (bxor a k) = bxor (firstn n a) (firstn n k).
Proof.
  revert a k. induction n as [|n IH]; intros a k; [reflexivity|].
  destruct a as [|x a]; [reflexivity|]. destruct k as [|y k]; [reflexivity|].
  cbn [bxor firstn]. f_equal. apply IH.
Qed.

Lemma firstn_app_le {A} (a b : list A) n : (n <= length a)%nat -> firstn n (a ++ b) = firstn n a.
Proof. intros H. rewrite firstn_app. replace (n - length a)%nat with 0%nat by lia. cbn. apply app_nil_r. Qed.

(* the out half holds an AEAD whose nonce buffer has the length the constructors insist on *)
Definition aead_out (c : conn) (ci : cipher) : Prop :=
  h_cipher (cn_out c) = Some ci /\
  ((c_kind ci = KAeadPrefix) \/ (c_kind ci = KAeadXor /\ length (c_iv ci) = 12%nat)).

(* number of payload bytes in the next application data record when [b] is written *)
Definition next_record_payload (c : conn) (b : bytes) : N :=
  let mp := fst (max_payload_size_for_write c rtAppData) in
  if mp <? len b then mp else len b.

Section KS.
Variable P : prims.
Hypothesis HP : prims_ok P.

Lemma conn_eta c ci : h_cipher (cn_out c) = Some ci ->
  with_out c (set_cipher (cn_out c) (Some ci)) (cn_bytesSent c) (cn_packetsSent c) = c.
Proof.
  destruct c as [v u s i o inp hand r bs ps d]. destruct o as [ov oc om os onc onm osec].
  cbn. intros ->. reflexivity.
Qed.

Lemma gks_eq c ci n :
  aead_out c ci ->
  get_out_keystream P c n
  = Ok (aead_seal P (c_alg ci) (c_key ci) (aead_nonce ci (seq8 (h_seq (cn_out c)))) [] (zeros n), c).
Proof.
  intros [Hc Hk]. unfold get_out_keystream. rewrite Hc.
  destruct Hk as [Hk | [Hk Hl]]; rewrite Hk; unfold wrapper_seal, aead_nonce; rewrite Hk; cbv zeta.
  - rewrite (conn_eta c ci Hc). reflexivity.
  - assert (Hm : firstn 4 (firstn 4 (c_iv ci) ++ bxor (skipn 4 (c_iv ci)) (seq8 (h_seq (cn_out c))))
                 ++ bxor (skipn 4 (firstn 4 (c_iv ci) ++ bxor (skipn 4 (c_iv ci)) (seq8 (h_seq (cn_out c)))))
                         (seq8 (h_seq (cn_out c))) = c_iv ci).
    { assert (L4 : length (firstn 4 (c_iv ci)) = 4%nat) by (rewrite firstn_length; lia).
      rewrite firstn_app_exact by (symmetry; exact L4). rewrite skipn_app_exact by (symmetry; exact L4).
      rewrite bxor_invol by (rewrite skipn_length, seq8_length; lia). apply firstn_skipn. }
    rewrite Hm. rewrite <- Hk.
    replace (mkCipher (c_kind ci) (c_alg ci) (c_key ci) (c_iv ci) (c_read ci) (c_pos ci) (c_bs ci)) with ci
      by (destruct ci; reflexivity).
    rewrite (conn_eta c ci Hc). reflexivity.
Qed.

(* the XOR-nonce wrapper restores its nonce mask, so even the cipher state is the same *)
Theorem ks_pure c ci n out c' :
  aead_out c ci -> get_out_keystream P c n = Ok (out, c') -> c' = c.
Proof.
  intros Ha H. rewrite (gks_eq c ci n Ha) in H. injection H as _ Hc'. symmetry. exact Hc'.
Qed.

Lemma ks_value c ci n :
  aead_out c ci ->
  exists out, get_out_keystream P c n = Ok (out, c) /\
              firstn n out = aead_ks P (c_alg ci) (c_key ci) (aead_nonce ci (seq8 (h_seq (cn_out c)))) n.
Proof.
  intros Ha. eexists. split; [apply (gks_eq c ci n Ha)|].
  rewrite (aead_stream P HP). unfold zeros at 2. rewrite repeat_length.
  rewrite firstn_app_exact by (rewrite bxor_length, (aead_ks_len P HP); unfold zeros; rewrite repeat_length; lia).
  rewrite bxor_zeros_l by (rewrite (aead_ks_len P HP); lia).
  apply firstn_all2. rewrite (aead_ks_len P HP). lia.
Qed.

Lemma conn_write_first c d b rnd wire n c2 :
  is_block_mode (cn_out c) = false ->
  conn_write P c (d :: b) rnd = Ok (wire, n, c2) ->
  let m := next_record_payload c (d :: b) in
  exists r o rest,
    encrypt P (cn_out c) (hdr5 rtAppData (vb1 (cn_vers c)) (vb2 (cn_vers c)) m)
      (firstn (N.to_nat m) (d :: b)) (rnd (h_seq (cn_out c))) = Ok (r, o) /\
    wire = r ++ rest.
Proof.
  intros Hnb H. unfold conn_write in H. rewrite Hnb, !andb_false_r in H. unfold write_record_locked in H.
  destruct (write_loop P _ c rtAppData (d :: b) rnd [] 0) as [[[w nn] cc]| |] eqn:Ewl; try discriminate.
  injection H as <- _ _.
  cbn [length write_loop] in Ewl. unfold next_record_payload.
  destruct (max_payload_size_for_write c rtAppData) as [mp ps]. cbn [fst].
  match type of Ewl with context [encrypt P ?a ?h ?p ?e] => destruct (encrypt P a h p e) as [[r o]| |] eqn:He end;
    try discriminate.
  apply write_loop_frame in Ewl. destruct Ewl as ((rest & ->) & _). exists r, o, rest. split; [exact He|reflexivity].
Qed.

Theorem ks_next c rx ci b rnd n :
  wconn_ok c -> synced (cn_out c) rx -> aead_out c ci -> rnd_ok rnd ->
  h_seq (cn_out c) + len b < 18446744073709551616 ->
  (n <= N.to_nat (next_record_payload c b))%nat ->
  exists ks wire c2,
    get_out_keystream P c n = Ok (ks, c) /\
    conn_write P c b rnd = Ok (wire, len b, c2) /\
    firstn n (skipn (recordHeaderLen + explicit_nonce_len (cn_out c)) wire) = bxor (firstn n b) (firstn n ks).
Proof.
  intros Hw Hs Ha Hrnd Hseq Hn.
  destruct (ks_value c ci n Ha) as (ks & Hg & Hks).
  destruct (conn_write_ok P HP c b rnd rx Hw Hs Hrnd Hseq) as (recs & c2 & rx_end & Hcw & _).
  exists ks, (concat (map snd recs)), c2. split; [exact Hg|]. split; [exact Hcw|].
  pose proof (max_payload_bounds c rtAppData rx Hw Hs) as Hmp.
  unfold next_record_payload in Hn.
  destruct b as [|d0 b'].
  { change (len []) with 0 in Hn.
    rewrite (proj2 (N.ltb_ge _ 0) (N.le_0_l _)) in Hn. replace n with 0%nat by lia. reflexivity. }
  pose proof Ha as [Hc Hk].
  assert (Hk' : c_kind ci = KAeadPrefix \/ c_kind ci = KAeadXor) by tauto.
  assert (Hnb : is_block_mode (cn_out c) = false).
  { unfold is_block_mode. rewrite Hc. destruct Hk' as [-> | ->]; reflexivity. }
  destruct (conn_write_first c d0 b' rnd _ _ _ Hnb Hcw) as (r & o & rest & He & ->).
  unfold next_record_payload in He.
  set (b := d0 :: b') in *. assert (Lb : len b = N.of_nat (S (length b'))) by reflexivity.
  destruct (fragment b _ ltac:(discriminate) Hmp) as (Hm & Hmb & Lp & _).
  set (m := if _ <? len b then _ else len b) in *.
  set (payload := firstn (N.to_nat m) b) in *.
  rewrite <- Lp in He.
  destruct (encrypt_aead_form P HP (cn_out c) rx ci rtAppData (vb1 (cn_vers c)) (vb2 (cn_vers c)) payload
              (rnd (h_seq (cn_out c))) Hs Hc Hk') as (t' & L & ad & tx' & He'); [discriminate|lia|lia|].
  match type of He' with _ = Ok (?X, _) => replace r with X by congruence end.
  assert (Lex : length (firstn (explicit_nonce_len (cn_out c)) (seq8 (h_seq (cn_out c)))) = explicit_nonce_len (cn_out c)).
  { unfold explicit_nonce_len. rewrite Hc. destruct Hk' as [-> | ->]; reflexivity. }
  rewrite <- !app_assoc, (app_assoc (hdr5 _ _ _ _)), skipn_app_exact by (rewrite app_length, Lex; reflexivity).
  match goal with |- context [aead_seal P _ _ _ _ ?I] => set (inner := I) end.
  rewrite (aead_stream P HP), <- !app_assoc.
  assert (Hnp : (n <= length payload)%nat) by (unfold len in Lp; lia).
  assert (Hni : (n <= length inner)%nat) by (unfold inner; destruct (_ =? V13); rewrite ?app_length; lia).
  assert (Hfi : firstn n inner = firstn n b).
  { transitivity (firstn n payload); [|unfold payload; rewrite firstn_firstn; f_equal; lia].
    unfold inner. destruct (_ =? V13); [apply firstn_app_le; exact Hnp|reflexivity]. }
  rewrite firstn_app_le by (rewrite bxor_length, (aead_ks_len P HP), Nat.min_id; exact Hni).
  rewrite firstn_bxor, Hfi, (aead_ks_prefix P HP) by exact Hni.
  rewrite Hks. reflexivity.
Qed.

End KS.
