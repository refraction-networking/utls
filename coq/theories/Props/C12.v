(* C12 — the client rejects any server choice it did not offer on the wire.

   client_run_gen e v fl is the client's decision (Model/Negotiate.v) on an arbitrary server flight fl,
   given the view v its checks consult; synced v w says that view equals the offered sets parsed from
   the client's own wire hello w (checked on every run for every parrot by Corr/C12Corr.v, CSync).
   Every theorem: for EVERY environment, view, wire hello and server flight, if the client completes,
   the selected value was offered on the wire. Contrapositive = the property: an unoffered value makes
   the client abort (client_run returns Abort, i.e. an error before any application data).
   State of the files: they describe the tree WITH fixes/C12-tls12-unoffered-curve.diff applied
   (env_fixed); the pre-fix behaviour is kept as env_unfixed and refuted below. *)
From UV Require Import Base.Common Model.Negotiate Model.NegotiateSess Model.NegotiateKeys Model.NegotiateReport Proofs.NegotiateP Proofs.NegotiateSessP Proofs.NegotiateReportP Proofs.NegotiateKeysP.
From UV Require Model.KeyShare Model.Complete.

(* TLS 1.3 cipher suite (ServerHello and HelloRetryRequest) *)
Theorem C12_suite_tls13_core : forall e v w fl st,
  synced v w = true -> client_run_gen e v fl = Complete st -> cs_vers st = V13 ->
  cs_suite st = h_suite (f_sh fl) /\ In (cs_suite st) (w_suites w) /\ In (cs_suite st) tls13_suites
  /\ (forall h, f_hrr fl = Some h -> h_suite h = cs_suite st).
Proof. exact wire_suite13. Qed.
Print Assumptions C12_suite_tls13_core.

(* TLS <= 1.2 cipher suite: offered and an implemented TLS <= 1.2 suite ... *)
Theorem C12_suite_tls12_core : forall e v w fl st,
  synced v w = true -> client_run_gen e v fl = Complete st -> cs_vers st <> V13 ->
  cs_suite st = h_suite (first_hello fl) /\ In (cs_suite st) (w_suites w) /\ In (cs_suite st) (e_impl12 e).
Proof. exact wire_suite12. Qed.
Print Assumptions C12_suite_tls12_core.

(* ... hence never a TLS 1.3 suite in a TLS 1.2 ServerHello, even when that suite was offered for 1.3 *)
Theorem C12_no_suite_confusion : forall x, In x impl12_default -> ~ In x tls13_suites.
Proof.
  intros x Hx Hy. apply memN_In in Hx. destruct Hy as [H|[H|[H|[]]]]; subst x; vm_compute in Hx; discriminate.
Qed.
Print Assumptions C12_no_suite_confusion.

(* TLS 1.3 key-exchange group: a key_share group of the hello, or - after a HelloRetryRequest naming a group -
   that group, which was in supported_groups and not among the key shares *)
Theorem C12_group_tls13_core : forall e v w fl st,
  synced v w = true -> client_run_gen e v fl = Complete st -> cs_vers st = V13 ->
  cs_group st = h_share (f_sh fl)
  /\ match f_hrr fl with
     | None => In (cs_group st) (w_shares w)
     | Some h => (h_selgroup h = 0 /\ In (cs_group st) (w_shares w))
                 \/ (h_selgroup h <> 0 /\ cs_group st = h_selgroup h
                     /\ In (cs_group st) (w_groups w) /\ ~ In (cs_group st) (w_shares w))
     end.
Proof. exact wire_group13. Qed.
Print Assumptions C12_group_tls13_core.

(* ALPN (EncryptedExtensions in 1.3, ServerHello below): none, or one the hello listed *)
Theorem C12_alpn_core : forall e v w fl st,
  synced v w = true -> client_run_gen e v fl = Complete st ->
  cs_alpn st = [] \/ In (cs_alpn st) (w_alpn w).
Proof. exact wire_alpn. Qed.
Print Assumptions C12_alpn_core.

(* compression method of every hello acted on (HRR, ServerHello): null, which the hello listed *)
Theorem C12_compression_core : forall e v w fl st,
  synced v w = true -> client_run_gen e v fl = Complete st ->
  forall h, (f_hrr fl = Some h \/ (cs_vers st = V13 /\ h = f_sh fl) \/ (cs_vers st <> V13 /\ h = first_hello fl)) ->
            h_comp h = 0 /\ In (h_comp h) (w_comps w).
Proof.
  intros e v w fl st Hsync Hrun h Hh.
  destruct (synced_inv _ _ Hsync) as (_ & _ & _ & _ & _ & _ & _ & S8).
  assert (K : h_comp h = 0); [|rewrite K; auto].
  destruct (client_run_inv Hrun) as [_ [[E A]|[E A]]].
  - destruct Hh as [Hh|[[_ ->]|[Hh _]]]; [apply (a13_hrr A Hh) | exact (a13_comp A) | contradiction].
  - pose proof (a12_comp A) as K.
    destruct Hh as [Hh|[[Hh _]|[_ ->]]]; [|contradiction|exact K].
    unfold first_hello in K. rewrite Hh in K. exact K.
Qed.
Print Assumptions C12_compression_core.

(* PSK: a selected identity indexes an identity the hello carried *)
Theorem C12_psk_identity_core : forall e v w fl st,
  synced v w = true -> client_run_gen e v fl = Complete st -> cs_vers st = V13 ->
  forall i, h_psk (f_sh fl) = Some i -> i < w_psk w.
Proof. exact wire_psk. Qed.
Print Assumptions C12_psk_identity_core.

(* certificate compression: a CompressedCertificate is only accepted with an advertised algorithm *)
Theorem C12_cert_compression_core : forall e v w fl st,
  synced v w = true -> client_run_gen e v fl = Complete st -> cs_vers st = V13 -> cs_psk st = false ->
  forall a, f_ccert fl = Some a -> In a (w_ccalgs w).
Proof. exact wire_certcomp. Qed.
Print Assumptions C12_cert_compression_core.

(* TLS 1.3 legacy session id echoed (by the HRR too) *)
Theorem C12_session_id_echo_core : forall e v w fl st,
  synced v w = true -> client_run_gen e v fl = Complete st -> cs_vers st = V13 ->
  h_sid (f_sh fl) = w_sid w /\ (forall h, f_hrr fl = Some h -> h_sid h = w_sid w).
Proof. exact wire_sessionid. Qed.
Print Assumptions C12_session_id_echo_core.

(* TLS <= 1.2 ECDHE curve of the ServerKeyExchange: in supported_groups (with the repair) *)
Theorem C12_curve_tls12_core : forall v w fl st c,
  synced v w = true -> client_run v fl = Complete st -> cs_vers st <> V13 -> f_skx fl = Some c ->
  In c (w_groups w).
Proof. exact curve12_fixed. Qed.
Print Assumptions C12_curve_tls12_core.

(* the same statement about the code before the repair is false (F-12): P-521 accepted although the hello
   listed X25519, P-256, P-384. The runner replays this flight against every parrot (kind curve12/real). *)
Theorem C12_curve_tls12_before_fix_refuted : ~ curve12_statement env_unfixed.
Proof.
  intros H.
  specialize (H f12_view f12_wire f12_flight (mkState 771 49199 25 [] false false) 25).
  assert (K : In 25 (w_groups f12_wire)).
  { apply H; [vm_compute; reflexivity | vm_compute; reflexivity | vm_compute; discriminate | reflexivity]. }
  vm_compute in K. intuition discriminate.
Qed.
Print Assumptions C12_curve_tls12_before_fix_refuted.

(* resumption (Model/NegotiateSess.v): the hello offers a TLS <= 1.2 session - from the cache or injected with
   SetSessionState - and the server resumes it or not: the suite of a completed handshake was on the wire, and a
   resumed session is resumed with its own version/suite only *)
Theorem C12_suite_with_session_core : forall e v w sess ems fl st,
  synced v w = true -> client_run_sess e v sess ems fl = Complete st -> In (cs_suite st) (w_suites w).
Proof. exact wire_suite_sess. Qed.
Print Assumptions C12_suite_with_session_core.

Theorem C12_resumed_session_suite : forall e v vers h fl s ems st,
  resumes v (Some s) h = true -> run12_sess e v vers h fl (Some s) ems = Complete st ->
  s_vers s = vers /\ s_suite s = cs_suite st /\ In (cs_suite st) (cv_suites v) /\ s_ems s = ems.
Proof. exact run12_sess_resumed. Qed.
Print Assumptions C12_resumed_session_suite.

(* The same statements over the decision function with establishHandshakeKeys' key selection.
   The _core theorems above hold for every view. With fixes/C18-keyshare-private-keys.diff establishHandshakeKeys picks
   the private key by the server share's group (any retained classical key, not only the first): the client's decision
   is Complete.client_run10 fixed e v ks fl (Model/Complete.v; ks = curves of the retained keys, fixed = the tree has the
   repair), which is client_run_gen on the view whose cv_ecdhe is the curve of that key. This is the function the
   correspondence compares the Go client with (Corr/C12Corr.v). Same conclusions: *)
Theorem C12_suite_tls13 : forall fixed e v ks w fl st,
  synced v w = true -> Complete.client_run10 fixed e v ks fl = Complete st -> cs_vers st = V13 ->
  cs_suite st = h_suite (f_sh fl) /\ In (cs_suite st) (w_suites w) /\ In (cs_suite st) tls13_suites
  /\ (forall h, f_hrr fl = Some h -> h_suite h = cs_suite st).
Proof. intros fixed e v ks w fl. exact (C12_suite_tls13_core e (eff_view fixed v ks fl) w fl). Qed.
Print Assumptions C12_suite_tls13.

Theorem C12_suite_tls12 : forall fixed e v ks w fl st,
  synced v w = true -> Complete.client_run10 fixed e v ks fl = Complete st -> cs_vers st <> V13 ->
  cs_suite st = h_suite (first_hello fl) /\ In (cs_suite st) (w_suites w) /\ In (cs_suite st) (e_impl12 e).
Proof. intros fixed e v ks w fl. exact (C12_suite_tls12_core e (eff_view fixed v ks fl) w fl). Qed.
Print Assumptions C12_suite_tls12.

Theorem C12_group_tls13 : forall fixed e v ks w fl st,
  synced v w = true -> Complete.client_run10 fixed e v ks fl = Complete st -> cs_vers st = V13 ->
  cs_group st = h_share (f_sh fl)
  /\ match f_hrr fl with
     | None => In (cs_group st) (w_shares w)
     | Some h => (h_selgroup h = 0 /\ In (cs_group st) (w_shares w))
                 \/ (h_selgroup h <> 0 /\ cs_group st = h_selgroup h
                     /\ In (cs_group st) (w_groups w) /\ ~ In (cs_group st) (w_shares w))
     end.
Proof. intros fixed e v ks w fl. exact (C12_group_tls13_core e (eff_view fixed v ks fl) w fl). Qed.
Print Assumptions C12_group_tls13.

Theorem C12_alpn : forall fixed e v ks w fl st,
  synced v w = true -> Complete.client_run10 fixed e v ks fl = Complete st ->
  cs_alpn st = [] \/ In (cs_alpn st) (w_alpn w).
Proof. intros fixed e v ks w fl. exact (C12_alpn_core e (eff_view fixed v ks fl) w fl). Qed.
Print Assumptions C12_alpn.

Theorem C12_compression : forall fixed e v ks w fl st,
  synced v w = true -> Complete.client_run10 fixed e v ks fl = Complete st ->
  forall h, (f_hrr fl = Some h \/ (cs_vers st = V13 /\ h = f_sh fl) \/ (cs_vers st <> V13 /\ h = first_hello fl)) ->
            h_comp h = 0 /\ In (h_comp h) (w_comps w).
Proof. intros fixed e v ks w fl. exact (C12_compression_core e (eff_view fixed v ks fl) w fl). Qed.
Print Assumptions C12_compression.

Theorem C12_psk_identity : forall fixed e v ks w fl st,
  synced v w = true -> Complete.client_run10 fixed e v ks fl = Complete st -> cs_vers st = V13 ->
  forall i, h_psk (f_sh fl) = Some i -> i < w_psk w.
Proof. intros fixed e v ks w fl. exact (C12_psk_identity_core e (eff_view fixed v ks fl) w fl). Qed.
Print Assumptions C12_psk_identity.

Theorem C12_cert_compression : forall fixed e v ks w fl st,
  synced v w = true -> Complete.client_run10 fixed e v ks fl = Complete st -> cs_vers st = V13 -> cs_psk st = false ->
  forall a, f_ccert fl = Some a -> In a (w_ccalgs w).
Proof. intros fixed e v ks w fl. exact (C12_cert_compression_core e (eff_view fixed v ks fl) w fl). Qed.
Print Assumptions C12_cert_compression.

Theorem C12_session_id_echo : forall fixed e v ks w fl st,
  synced v w = true -> Complete.client_run10 fixed e v ks fl = Complete st -> cs_vers st = V13 ->
  h_sid (f_sh fl) = w_sid w /\ (forall h, f_hrr fl = Some h -> h_sid h = w_sid w).
Proof. intros fixed e v ks w fl. exact (C12_session_id_echo_core e (eff_view fixed v ks fl) w fl). Qed.
Print Assumptions C12_session_id_echo.

Theorem C12_curve_tls12 : forall fixed v ks w fl st c,
  synced v w = true -> Complete.client_run10 fixed env_fixed v ks fl = Complete st -> cs_vers st <> V13 ->
  f_skx fl = Some c -> In c (w_groups w).
Proof. exact curve12_fixed10. Qed.
Print Assumptions C12_curve_tls12.

Theorem C12_suite_with_session : forall fixed e v ks w sess ems fl st,
  synced v w = true -> client_run_sess10 fixed e v ks sess ems fl = Complete st -> In (cs_suite st) (w_suites w).
Proof. exact wire10_suite_sess. Qed.
Print Assumptions C12_suite_with_session.

(* what the repair changed: the second offered key share (Firefox-type hello, shares X25519 and P-256, server selects P-256)
   completes with it, aborted ("invalid server key share") before - in both cases on an OFFERED group *)
Example C12_ex_second_share :
  Complete.client_run10 true env_fixed ff_view (KeyShare.mkShape 29 [23] false 0) ff_flight
  = Complete (mkState 772 4865 23 [] false false)
  /\ Complete.client_run10 false env_fixed ff_view (KeyShare.mkShape 29 [] false 0) ff_flight = Abort a_illegal_parameter
  /\ client_run ff_view ff_flight = Abort a_illegal_parameter.
Proof. exact second_share_after_c18. Qed.

(* "The client never reports such an unoffered value in ConnectionState" - ALSO after an aborted handshake.
   report_gen (Model/NegotiateReport.v) = the cipher suite, key-exchange group and ALPN protocol the Conn holds when the handshake
   stops, completed or not (each is assigned right after its check passed; 0 / [] = never assigned). Whatever the server sent: *)
Theorem C12_reported_values_offered : forall fixed e v ks w fl,
  e_fix_curve12 e = true -> synced v w = true ->
  let r := report_gen e (eff_view fixed v ks fl) fl in
  (cs_suite r = 0 \/ In (cs_suite r) (w_suites w))
  /\ (cs_group r = 0 \/ In (cs_group r) (w_shares w) \/ In (cs_group r) (w_groups w))
  /\ (cs_alpn r = [] \/ In (cs_alpn r) (w_alpn w)).
Proof. intros fixed e v ks w fl. exact (report_offered_wire e (eff_view fixed v ks fl) w fl). Qed.
Print Assumptions C12_reported_values_offered.

(* and a completed handshake reports exactly the state it completed with *)
Theorem C12_report_of_completed : forall fixed e v ks fl st,
  Complete.client_run10 fixed e v ks fl = Complete st ->
  let r := report_gen e (eff_view fixed v ks fl) fl in
  cs_suite r = cs_suite st /\ cs_group r = cs_group st /\ cs_alpn r = cs_alpn st.
Proof. intros fixed e v ks fl. exact (report_of_complete e (eff_view fixed v ks fl) fl). Qed.
Print Assumptions C12_report_of_completed.

Example C12_ex_report_after_abort :
  (* EncryptedExtensions ALPN "h3" not offered: abort, suite and group reported (they passed), no protocol *)
  client_run f12_view (mkFlight None (mkHello 771 772 0 [1; 2; 3] 4865 0 29 0 false None []) [104; 51] None None true)
  = Abort a_no_application_protocol /\
  report_gen env_fixed f12_view (mkFlight None (mkHello 771 772 0 [1; 2; 3] 4865 0 29 0 false None []) [104; 51] None None true)
  = rep 4865 29 [] /\
  (* unoffered group: nothing but the suite *)
  report_gen env_fixed f12_view (mkFlight None (mkHello 771 772 0 [1; 2; 3] 4865 0 25 0 false None []) [] None None true)
  = rep 4865 0 [].
Proof. vm_compute. repeat split; reflexivity. Qed.

(* every hypothesis is satisfiable by concrete non-trivial inputs *)
Example C12_ex_complete13 :
  synced f12_view f12_wire = true /\
  client_run f12_view (mkFlight None (mkHello 771 772 0 [1; 2; 3] 4865 0 29 0 false None []) [104; 50] (Some 2) None true)
  = Complete (mkState 772 4865 29 [104; 50] false false).
Proof. vm_compute. split; reflexivity. Qed.

Example C12_ex_complete_after_hrr :
  client_run f12_view (mkFlight (Some (mkHello 771 772 0 [1; 2; 3] 4865 0 0 23 false None []))
                                (mkHello 771 772 0 [1; 2; 3] 4865 0 23 0 false None []) [] None None true)
  = Complete (mkState 772 4865 23 [] true false).
Proof. vm_compute. reflexivity. Qed.

Example C12_ex_complete12 :
  client_run f12_view (mkFlight None (mkHello 771 0 0 [9] 49199 0 0 0 false None [104; 50]) [] None (Some 24) true)
  = Complete (mkState 771 49199 24 [104; 50] false false).
Proof. vm_compute. reflexivity. Qed.

Example C12_ex_unoffered_abort :
  client_run f12_view f12_flight = Abort a_illegal_parameter /\
  client_run_gen env_unfixed f12_view f12_flight = Complete (mkState 771 49199 25 [] false false) /\
  client_run f12_view (mkFlight None (mkHello 771 0 0 [9] 4865 0 0 0 false None []) [] None (Some 29) true)
  = Abort a_handshake_failure /\
  client_run f12_view (mkFlight None (mkHello 771 772 0 [1; 2; 3] 4865 0 25 0 false None []) [] None None true)
  = Abort a_illegal_parameter /\
  client_run f12_view (mkFlight None (mkHello 771 772 0 [1; 2; 3] 4865 0 29 0 false None []) [] (Some 1) None true)
  = Abort a_bad_certificate.
Proof. vm_compute. repeat split; reflexivity. Qed.

Example C12_ex_resumption_unoffered_suite :
  (* a session with suite 0xc009, which f12_view does not list, is offered (SetSessionState) and the server resumes it *)
  client_run_sess env_fixed f12_view (Some (mkSess 771 49161 true)) true
    (mkFlight None (mkHello 771 0 0 [1; 2; 3] 49161 0 0 0 false None []) [] None None true) = Abort a_handshake_failure /\
  (* with a listed suite the resumption completes *)
  client_run_sess env_fixed f12_view (Some (mkSess 771 49199 true)) true
    (mkFlight None (mkHello 771 0 0 [1; 2; 3] 49199 0 0 0 false None []) [] None None true)
  = Complete (mkState 771 49199 0 [] false false).
Proof. vm_compute. split; reflexivity. Qed.

Example C12_ex_after_hrr :
  (* well-formed HRR, then a ServerHello that does not echo the session id / names another suite *)
  client_run f12_view (mkFlight (Some (mkHello 771 772 0 [1; 2; 3] 4865 0 0 23 false None []))
                                (mkHello 771 772 0 [1; 2; 4] 4865 0 23 0 false None []) [] None None true)
  = Abort a_illegal_parameter /\
  client_run f12_view (mkFlight (Some (mkHello 771 772 0 [1; 2; 3] 4865 0 0 23 false None []))
                                (mkHello 771 772 0 [1; 2; 3] 4865 1 23 0 false None []) [] None None true)
  = Abort a_illegal_parameter.
Proof. vm_compute. split; reflexivity. Qed.

(* Composition with the marshal model (Model/WriteToUConn.v, Proofs/ComposeP.v, Proofs/ComposeW.v): the premise
   [synced v w] of the theorems above (also evaluated per run, CSync) is a THEOREM for the view that
   UConn.ApplyConfig builds and the bytes MarshalClientHelloNoECH emits from the same header fields and
   extension list.

     s            the UConn before ApplyConfig: header fields WriteToUConn.us_hdr s, Config.MinVersion/MaxVersion,
                  whatever earlier calls left in the Hello fields (ANY state)
     es           uconn.Extensions (Model/Ext.v values), inside the precondition of C02 (ChMarshal.wf_specb: each
                  type at most once, wire limits, RFC minimum sizes, pre_shared_key last)
     apply_config UConn.ApplyConfig (clears ServerName / AlpnProtocols / SupportedCurves / KeyShares /
                  certCompressionAlgs, folds writeToUConn over es, recomputes SupportedVersions when no
                  SupportedVersionsExtension is present); finish load = + setPskToUConn when a session was loaded
     view_of      the client_view of that state (what hooks/verif_c12.go reads)
     wire_of raw  the wire_view of the marshalled bytes, through the strict parser of C02 (Model/Strict.v)
   Remaining premises (each discussed in notes/Compose.md):
     typed_ext    supported_groups, ALPN, compress_certificate, pre_shared_key, supported_versions and key_share
                  are sent through their typed extension, not through a GenericExtension / UtlsGREASEExtension
                  carrying the same extension_type (those have an empty writeToUConn)
     memN 0 comp  the hello lists the null compression method (ApplyPreset always writes [0]: C03_compression_fixed)
     psk_agree    len(Hello.PskIdentities) = number of identities the pre_shared_key extension serialises; NOT a
                  consequence of ApplyConfig (C12_psk_agree_* give the two situations where it holds;
                  C12_ex_fake_psk_view_smaller the one where it does not, in the harmless direction) *)
From UV Require Model.Ext Model.Marshal Model.ChMarshal Model.WriteToUConn Proofs.ComposeP Proofs.ComposeW.

Theorem C12_view_is_wire : forall env bbs padto s es raw s' load ecdhe mlkem sess,
  ChMarshal.wf_specb (WriteToUConn.us_hdr s) es = true ->
  forallb WriteToUConn.typed_ext es = true ->
  ChMarshal.marshal_hello bbs padto (WriteToUConn.us_hdr s) es = Ok raw ->
  WriteToUConn.apply_config env (ChMarshal.marshal_hello bbs padto (WriteToUConn.us_hdr s) es) s es = Ok s' ->
  memN 0 (Marshal.h_comp (WriteToUConn.us_hdr s)) = true ->
  WriteToUConn.psk_agree (WriteToUConn.finish load es s') es = true ->
  exists w, WriteToUConn.wire_of raw = Some w
            /\ synced (WriteToUConn.view_of (WriteToUConn.finish load es s') es ecdhe mlkem sess) w = true.
Proof. exact ComposeP.compose_synced. Qed.
Print Assumptions C12_view_is_wire.

(* for every header and extension list: if the hello marshals to raw and the client completes against a flight at
   TLS 1.3, the accepted suite was on the wire raw *)
Theorem C12_suite_tls13_from_spec : forall env bbs padto s es raw s' load ecdhe mlkem sess,
  ChMarshal.wf_specb (WriteToUConn.us_hdr s) es = true ->
  forallb WriteToUConn.typed_ext es = true ->
  ChMarshal.marshal_hello bbs padto (WriteToUConn.us_hdr s) es = Ok raw ->
  WriteToUConn.apply_config env (ChMarshal.marshal_hello bbs padto (WriteToUConn.us_hdr s) es) s es = Ok s' ->
  memN 0 (Marshal.h_comp (WriteToUConn.us_hdr s)) = true ->
  WriteToUConn.psk_agree (WriteToUConn.finish load es s') es = true ->
  forall e fl st,
  client_run_gen e (WriteToUConn.view_of (WriteToUConn.finish load es s') es ecdhe mlkem sess) fl = Complete st ->
  cs_vers st = V13 ->
  exists w, WriteToUConn.wire_of raw = Some w /\
    (cs_suite st = h_suite (f_sh fl) /\ In (cs_suite st) (w_suites w) /\ In (cs_suite st) tls13_suites
     /\ (forall h, f_hrr fl = Some h -> h_suite h = cs_suite st)).
Proof.
  intros * Hwf Hty Hraw Hcfg Hc0 Hpsk e fl st Hrun Hv13.
  destruct (C12_view_is_wire _ _ _ _ _ _ _ load ecdhe mlkem sess Hwf Hty Hraw Hcfg Hc0 Hpsk) as (w & Hw & Hs).
  exists w. split; [exact Hw | eapply wire_suite13; eassumption].
Qed.
Print Assumptions C12_suite_tls13_from_spec.

Theorem C12_suite_tls12_from_spec : forall env bbs padto s es raw s' load ecdhe mlkem sess,
  ChMarshal.wf_specb (WriteToUConn.us_hdr s) es = true ->
  forallb WriteToUConn.typed_ext es = true ->
  ChMarshal.marshal_hello bbs padto (WriteToUConn.us_hdr s) es = Ok raw ->
  WriteToUConn.apply_config env (ChMarshal.marshal_hello bbs padto (WriteToUConn.us_hdr s) es) s es = Ok s' ->
  memN 0 (Marshal.h_comp (WriteToUConn.us_hdr s)) = true ->
  WriteToUConn.psk_agree (WriteToUConn.finish load es s') es = true ->
  forall e fl st,
  client_run_gen e (WriteToUConn.view_of (WriteToUConn.finish load es s') es ecdhe mlkem sess) fl = Complete st ->
  cs_vers st <> V13 ->
  exists w, WriteToUConn.wire_of raw = Some w /\
    (cs_suite st = h_suite (first_hello fl) /\ In (cs_suite st) (w_suites w) /\ In (cs_suite st) (e_impl12 e)).
Proof.
  intros * Hwf Hty Hraw Hcfg Hc0 Hpsk e fl st Hrun Hv13.
  destruct (C12_view_is_wire _ _ _ _ _ _ _ load ecdhe mlkem sess Hwf Hty Hraw Hcfg Hc0 Hpsk) as (w & Hw & Hs).
  exists w. split; [exact Hw | eapply wire_suite12; eassumption].
Qed.
Print Assumptions C12_suite_tls12_from_spec.

Theorem C12_group_tls13_from_spec : forall env bbs padto s es raw s' load ecdhe mlkem sess,
  ChMarshal.wf_specb (WriteToUConn.us_hdr s) es = true ->
  forallb WriteToUConn.typed_ext es = true ->
  ChMarshal.marshal_hello bbs padto (WriteToUConn.us_hdr s) es = Ok raw ->
  WriteToUConn.apply_config env (ChMarshal.marshal_hello bbs padto (WriteToUConn.us_hdr s) es) s es = Ok s' ->
  memN 0 (Marshal.h_comp (WriteToUConn.us_hdr s)) = true ->
  WriteToUConn.psk_agree (WriteToUConn.finish load es s') es = true ->
  forall e fl st,
  client_run_gen e (WriteToUConn.view_of (WriteToUConn.finish load es s') es ecdhe mlkem sess) fl = Complete st ->
  cs_vers st = V13 ->
  exists w, WriteToUConn.wire_of raw = Some w /\
    (cs_group st = h_share (f_sh fl)
     /\ match f_hrr fl with
        | None => In (cs_group st) (w_shares w)
        | Some h => (h_selgroup h = 0 /\ In (cs_group st) (w_shares w))
                    \/ (h_selgroup h <> 0 /\ cs_group st = h_selgroup h
                        /\ In (cs_group st) (w_groups w) /\ ~ In (cs_group st) (w_shares w))
        end).
Proof.
  intros * Hwf Hty Hraw Hcfg Hc0 Hpsk e fl st Hrun Hv13.
  destruct (C12_view_is_wire _ _ _ _ _ _ _ load ecdhe mlkem sess Hwf Hty Hraw Hcfg Hc0 Hpsk) as (w & Hw & Hs).
  exists w. split; [exact Hw | eapply wire_group13; eassumption].
Qed.
Print Assumptions C12_group_tls13_from_spec.

Theorem C12_alpn_from_spec : forall env bbs padto s es raw s' load ecdhe mlkem sess,
  ChMarshal.wf_specb (WriteToUConn.us_hdr s) es = true ->
  forallb WriteToUConn.typed_ext es = true ->
  ChMarshal.marshal_hello bbs padto (WriteToUConn.us_hdr s) es = Ok raw ->
  WriteToUConn.apply_config env (ChMarshal.marshal_hello bbs padto (WriteToUConn.us_hdr s) es) s es = Ok s' ->
  memN 0 (Marshal.h_comp (WriteToUConn.us_hdr s)) = true ->
  WriteToUConn.psk_agree (WriteToUConn.finish load es s') es = true ->
  forall e fl st,
  client_run_gen e (WriteToUConn.view_of (WriteToUConn.finish load es s') es ecdhe mlkem sess) fl = Complete st ->
  exists w, WriteToUConn.wire_of raw = Some w /\ (cs_alpn st = [] \/ In (cs_alpn st) (w_alpn w)).
Proof.
  intros * Hwf Hty Hraw Hcfg Hc0 Hpsk e fl st Hrun.
  destruct (C12_view_is_wire _ _ _ _ _ _ _ load ecdhe mlkem sess Hwf Hty Hraw Hcfg Hc0 Hpsk) as (w & Hw & Hs).
  exists w. split; [exact Hw | eapply wire_alpn; eassumption].
Qed.
Print Assumptions C12_alpn_from_spec.

Theorem C12_psk_identity_from_spec : forall env bbs padto s es raw s' load ecdhe mlkem sess,
  ChMarshal.wf_specb (WriteToUConn.us_hdr s) es = true ->
  forallb WriteToUConn.typed_ext es = true ->
  ChMarshal.marshal_hello bbs padto (WriteToUConn.us_hdr s) es = Ok raw ->
  WriteToUConn.apply_config env (ChMarshal.marshal_hello bbs padto (WriteToUConn.us_hdr s) es) s es = Ok s' ->
  memN 0 (Marshal.h_comp (WriteToUConn.us_hdr s)) = true ->
  WriteToUConn.psk_agree (WriteToUConn.finish load es s') es = true ->
  forall e fl st,
  client_run_gen e (WriteToUConn.view_of (WriteToUConn.finish load es s') es ecdhe mlkem sess) fl = Complete st ->
  cs_vers st = V13 ->
  exists w, WriteToUConn.wire_of raw = Some w /\ (forall i, h_psk (f_sh fl) = Some i -> i < w_psk w).
Proof.
  intros * Hwf Hty Hraw Hcfg Hc0 Hpsk e fl st Hrun Hv13.
  destruct (C12_view_is_wire _ _ _ _ _ _ _ load ecdhe mlkem sess Hwf Hty Hraw Hcfg Hc0 Hpsk) as (w & Hw & Hs).
  exists w. split; [exact Hw | eapply wire_psk; eassumption].
Qed.
Print Assumptions C12_psk_identity_from_spec.

Theorem C12_cert_compression_from_spec : forall env bbs padto s es raw s' load ecdhe mlkem sess,
  ChMarshal.wf_specb (WriteToUConn.us_hdr s) es = true ->
  forallb WriteToUConn.typed_ext es = true ->
  ChMarshal.marshal_hello bbs padto (WriteToUConn.us_hdr s) es = Ok raw ->
  WriteToUConn.apply_config env (ChMarshal.marshal_hello bbs padto (WriteToUConn.us_hdr s) es) s es = Ok s' ->
  memN 0 (Marshal.h_comp (WriteToUConn.us_hdr s)) = true ->
  WriteToUConn.psk_agree (WriteToUConn.finish load es s') es = true ->
  forall e fl st,
  client_run_gen e (WriteToUConn.view_of (WriteToUConn.finish load es s') es ecdhe mlkem sess) fl = Complete st ->
  cs_vers st = V13 -> cs_psk st = false ->
  exists w, WriteToUConn.wire_of raw = Some w /\ (forall a, f_ccert fl = Some a -> In a (w_ccalgs w)).
Proof.
  intros * Hwf Hty Hraw Hcfg Hc0 Hpsk e fl st Hrun Hv13 Hp.
  destruct (C12_view_is_wire _ _ _ _ _ _ _ load ecdhe mlkem sess Hwf Hty Hraw Hcfg Hc0 Hpsk) as (w & Hw & Hs).
  exists w. split; [exact Hw | eapply wire_certcomp; eassumption].
Qed.
Print Assumptions C12_cert_compression_from_spec.

Theorem C12_session_id_echo_from_spec : forall env bbs padto s es raw s' load ecdhe mlkem sess,
  ChMarshal.wf_specb (WriteToUConn.us_hdr s) es = true ->
  forallb WriteToUConn.typed_ext es = true ->
  ChMarshal.marshal_hello bbs padto (WriteToUConn.us_hdr s) es = Ok raw ->
  WriteToUConn.apply_config env (ChMarshal.marshal_hello bbs padto (WriteToUConn.us_hdr s) es) s es = Ok s' ->
  memN 0 (Marshal.h_comp (WriteToUConn.us_hdr s)) = true ->
  WriteToUConn.psk_agree (WriteToUConn.finish load es s') es = true ->
  forall e fl st,
  client_run_gen e (WriteToUConn.view_of (WriteToUConn.finish load es s') es ecdhe mlkem sess) fl = Complete st ->
  cs_vers st = V13 ->
  exists w, WriteToUConn.wire_of raw = Some w /\
    (h_sid (f_sh fl) = w_sid w /\ (forall h, f_hrr fl = Some h -> h_sid h = w_sid w)).
Proof.
  intros * Hwf Hty Hraw Hcfg Hc0 Hpsk e fl st Hrun Hv13.
  destruct (C12_view_is_wire _ _ _ _ _ _ _ load ecdhe mlkem sess Hwf Hty Hraw Hcfg Hc0 Hpsk) as (w & Hw & Hs).
  exists w. split; [exact Hw | eapply wire_sessionid; eassumption].
Qed.
Print Assumptions C12_session_id_echo_from_spec.

Theorem C12_curve_tls12_from_spec : forall env bbs padto s es raw s' load ecdhe mlkem sess,
  ChMarshal.wf_specb (WriteToUConn.us_hdr s) es = true ->
  forallb WriteToUConn.typed_ext es = true ->
  ChMarshal.marshal_hello bbs padto (WriteToUConn.us_hdr s) es = Ok raw ->
  WriteToUConn.apply_config env (ChMarshal.marshal_hello bbs padto (WriteToUConn.us_hdr s) es) s es = Ok s' ->
  memN 0 (Marshal.h_comp (WriteToUConn.us_hdr s)) = true ->
  WriteToUConn.psk_agree (WriteToUConn.finish load es s') es = true ->
  forall fl st c,
  client_run (WriteToUConn.view_of (WriteToUConn.finish load es s') es ecdhe mlkem sess) fl = Complete st ->
  cs_vers st <> V13 -> f_skx fl = Some c ->
  exists w, WriteToUConn.wire_of raw = Some w /\ In c (w_groups w).
Proof.
  intros * Hwf Hty Hraw Hcfg Hc0 Hpsk fl st c Hrun Hv13 Hc.
  destruct (C12_view_is_wire _ _ _ _ _ _ _ load ecdhe mlkem sess Hwf Hty Hraw Hcfg Hc0 Hpsk) as (w & Hw & Hs).
  exists w. split; [exact Hw | eapply curve12_fixed; eassumption].
Qed.
Print Assumptions C12_curve_tls12_from_spec.

(* the pre_shared_key premise holds when no session is in play (fresh hello, no cached session, the extension - if any -
   serialises nothing: UtlsPreSharedKeyExtension without session under OmitEmptyPsk) ... *)
Theorem C12_psk_agree_no_session : forall env marsh s es s',
  WriteToUConn.apply_config env marsh s es = Ok s' -> WriteToUConn.we_cache_session env = false ->
  WriteToUConn.us_psk_ids s = [] -> WriteToUConn.psk_sent es = 0 ->
  WriteToUConn.psk_agree (WriteToUConn.finish false es s') es = true.
Proof. exact ComposeW.psk_agree_no_session. Qed.
Print Assumptions C12_psk_agree_no_session.

(* ... and when a session was loaded into an extension that serialises its identities (setPskToUConn) *)
Theorem C12_psk_agree_loaded : forall es s e,
  find ChMarshal.is_psk_ext es = Some e -> ExtSpec.ext_absent e = false ->
  WriteToUConn.psk_agree (WriteToUConn.finish true es s) es = true.
Proof. exact ComposeW.psk_agree_loaded. Qed.
Print Assumptions C12_psk_agree_loaded.

(* for a spec: the compression premise is discharged by ApplyPreset itself *)
Theorem C12_view_is_wire_preset : forall sp c fr h es mn mx env bbs padto raw s' load ecdhe mlkem sess,
  Preset.apply_preset sp c fr = Ok (h, es) ->
  ChMarshal.wf_specb h es = true -> forallb WriteToUConn.typed_ext es = true ->
  ChMarshal.marshal_hello bbs padto h es = Ok raw ->
  WriteToUConn.apply_config env (ChMarshal.marshal_hello bbs padto h es) (ComposeW.preset_state h mn mx) es = Ok s' ->
  WriteToUConn.psk_agree (WriteToUConn.finish load es s') es = true ->
  exists w, WriteToUConn.wire_of raw = Some w
            /\ synced (WriteToUConn.view_of (WriteToUConn.finish load es s') es ecdhe mlkem sess) w = true.
Proof. exact ComposeW.synced_preset. Qed.
Print Assumptions C12_view_is_wire_preset.

(* Chrome_133 from the regenerated table with concrete randomness: ApplyPreset, marshal (1.7 kB with Boring padding and
   GREASE ECH), ApplyConfig, strict parse: every premise above holds, view = wire, the client completes a TLS 1.3
   handshake on X25519 / 0x1301 / h2 with a brotli-compressed certificate *)
Example C12_ex_chrome133_composed : ComposeW.ex_chrome133 = true.
Proof. vm_compute. reflexivity. Qed.

(* FakePreSharedKeyExtension without a cached session: one identity on the wire, none in Hello.PskIdentities (observed on
   the real code as well: notes/Compose.md). psk_agree is false; the client then refuses every selected identity. *)
Example C12_ex_fake_psk_view_smaller :
  let es := [Ext.EFakePreSharedKey true [([1; 2; 3], 7)] [repeat 0 32]] in
  let h := {| Marshal.h_vers := 771; Marshal.h_random := repeat 1 32; Marshal.h_sid := []; Marshal.h_suites := [4865]; Marshal.h_comp := [0] |} in
  let s := WriteToUConn.mkUS h [] false [] [] false [] false false [] false [771] [] [] [] [] false [] false [] [] 0 771 771 false in
  match WriteToUConn.apply_config (WriteToUConn.mkEnvW false) (Ok []) s es with
  | Ok s' => WriteToUConn.psk_agree s' es = false /\ WriteToUConn.us_psk_ids s' = [] /\ WriteToUConn.psk_sent es = 1
  | _ => False
  end.
Proof. exact ComposeW.psk_disagree_fake. Qed.

(* for every shipped parrot (Gen/Parrots.v), every rearrangement the shuffle can produce, every Config with an SNI name of
   at most 255 bytes and OmitEmptyPsk, every randomness: wf_specb of ApplyPreset's output follows from the static predicate
   on the spec (Model/PresetOk.v; see "From a ClientHelloSpec" in Props/C02.v) *)
From UV Require Model.PresetOk Model.Shuffle Model.ParrotSpec Gen.Parrots Proofs.PresetOkC.
Theorem C12_view_is_wire_from_parrot : forall p swaps exts', In p Parrots.all ->
  Shuffle.shuffle ParrotSpec.fixedb swaps (Preset.sp_exts (Preset.p_spec p)) = Ok exts' ->
  forall c fr h es, PresetOkC.parrot_class c ->
  Preset.apply_preset (PresetOk.with_exts (Preset.p_spec p) exts') c fr = Ok (h, es) ->
  forall mn mx env bbs padto raw s' load ecdhe mlkem sess,
  ChMarshal.marshal_hello bbs padto h es = Ok raw ->
  WriteToUConn.apply_config env (ChMarshal.marshal_hello bbs padto h es) (ComposeW.preset_state h mn mx) es = Ok s' ->
  WriteToUConn.psk_agree (WriteToUConn.finish load es s') es = true ->
  exists w, WriteToUConn.wire_of raw = Some w
            /\ synced (WriteToUConn.view_of (WriteToUConn.finish load es s') es ecdhe mlkem sess) w = true.
Proof. exact PresetOkC.parrot_synced. Qed.
Print Assumptions C12_view_is_wire_from_parrot.

(* Imported LAST and only so that the driver's closure scan (lib/vcheck.py follows "Require Import" lines) covers the
   composition files; nothing follows, so no name of this file is shadowed. *)
From UV Require Import Model.WriteToUConn Proofs.ComposeP Proofs.ComposeW.
From UV Require Import Model.PresetOk Proofs.PresetOkP Proofs.PresetOkS Proofs.PresetOkT Proofs.PresetOkC.
