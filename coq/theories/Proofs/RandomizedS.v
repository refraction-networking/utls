(* The cipher sort of shuffledCiphers (u_parrots.go:3180-3212) has exactly one correct result.
   1. math/rand Perm (Model/Prng.v [perm]) returns, for EVERY stream, a list of length n without
      duplicates whose entries lie in [0,n) - a permutation of 0..n-1 (induction on the
      inside-out Fisher-Yates loop).
   2. Hence the (isObsolete, randomTag) keys of the sortableCiphers are pairwise distinct, [less]
      is a strict total order on them, and ANY list that is a permutation of the input and sorted
      w.r.t. Less (for i < j: not Less(j,i) - what sort.Sort guarantees, stable or not) equals the
      model's insertion sort. *)
From UV Require Import Base.Common Model.Prng Proofs.PrngP Model.Randomized Proofs.RandomizedP.
From Coq Require Import Permutation Sorted.

Definition perm_inv (i : nat) (m : list Z) : Prop :=
  (forall k, (k < i)%nat -> (0 <= nth k m 0 < Z.of_nat i)%Z) /\
  (forall k k', (k < i)%nat -> (k' < i)%nat -> nth k m 0%Z = nth k' m 0%Z -> k = k').

Lemma perm_loop_inv fuel : forall todo i m s l r,
  (i + todo = length m)%nat -> perm_inv i m ->
  perm_loop fuel todo i m s = Some (l, r) -> perm_inv (i + todo) l.
Proof.
  induction todo as [|t IH]; intros i m s l r Hlen Hinv; cbn [perm_loop].
  - intros [= <- <-]. rewrite Nat.add_0_r. exact Hinv.
  - destruct (intn fuel (Z.of_nat (S i)) s) as [[j r0]|] eqn:E; [|discriminate]. intros H.
    apply intn_spec in E. destruct E as [_ E]. specialize (E ltac:(lia)).
    set (jn := Z.to_nat j) in *. assert (Hj : (jn <= i)%nat) by lia.
    set (m1 := set_nth i (nth jn m 0%Z) m) in *.
    set (m2 := set_nth jn (Z.of_nat i) m1) in *.
    assert (L1 : length m1 = length m) by apply set_nth_length.
    assert (L2 : length m2 = length m) by (unfold m2; rewrite set_nth_length; exact L1).
    assert (N2 : forall k, nth k m2 0%Z = if Nat.eqb k jn then Z.of_nat i else if Nat.eqb k i then nth jn m 0%Z else nth k m 0%Z).
    { intros k. unfold m2. rewrite nth_set_nth by lia. destruct (Nat.eqb k jn); [reflexivity|].
      unfold m1. rewrite nth_set_nth by lia. reflexivity. }
    apply IH in H.
    + replace (i + S t)%nat with (S i + t)%nat by lia. exact H.
    + lia.
    + destruct Hinv as [Hr Hi]. split.
      * intros k Hk. rewrite N2. destruct (Nat.eqb_spec k jn); [lia|]. destruct (Nat.eqb_spec k i).
        -- specialize (Hr jn ltac:(lia)). lia.
        -- specialize (Hr k ltac:(lia)). lia.
      * (* the new entry i sits at jn only; elsewhere the list reads m at an index below i *)
        assert (Hs : forall a, (a < S i)%nat -> a <> jn ->
                 exists a', (a' < i)%nat /\ (if Nat.eqb a i then nth jn m 0%Z else nth a m 0%Z) = nth a' m 0%Z /\ (a = i -> a' = jn) /\ (a <> i -> a' = a)).
        { intros a Ha Na. destruct (Nat.eqb_spec a i); [exists jn|exists a]; repeat split; auto; lia. }
        intros k k' Hk Hk'. rewrite !N2.
        destruct (Nat.eqb_spec k jn) as [->|Nk], (Nat.eqb_spec k' jn) as [->|Nk']; [reflexivity| | |].
        -- destruct (Hs k' Hk' Nk') as (a & A & -> & _). specialize (Hr a A). lia.
        -- destruct (Hs k Hk Nk) as (a & A & -> & _). specialize (Hr a A). lia.
        -- destruct (Hs k Hk Nk) as (a & A & -> & A1 & A2), (Hs k' Hk' Nk') as (a' & A' & -> & A1' & A2').
           intros Q. apply (Hi a a' A A') in Q. lia.
Qed.

Lemma perm_spec fuel n s l r : perm fuel n s = Some (l, r) ->
  length l = n /\ NoDup l /\ Forall (fun x => (0 <= x < Z.of_nat n)%Z) l.
Proof.
  intros H. pose proof (proj2 (perm_steps _ _ _ _ _ H)) as Hl. split; [exact Hl|]. unfold perm in H. apply perm_loop_inv in H.
  - cbn [Nat.add] in H. destruct H as [Hr Hi]. split.
    + apply (NoDup_nth l 0%Z). intros a b Ha Hb. apply Hi; lia.
    + apply Forall_forall. intros x Hx. destruct (In_nth l x 0%Z Hx) as (k & Hk & <-). apply Hr. lia.
  - rewrite repeat_length. reflexivity.
  - split; intros; lia.
Qed.

Lemma perm_is_permutation fuel n s l r : perm fuel n s = Some (l, r) -> Permutation l (map Z.of_nat (seq 0 n)).
Proof.
  intros H. apply perm_spec in H. destruct H as (Hl & Hn & Hf).
  apply NoDup_Permutation_bis; [exact Hn|rewrite map_length, seq_length; lia|].
  intros x Hx. rewrite Forall_forall in Hf. specialize (Hf x Hx).
  apply in_map_iff. exists (Z.to_nat x). split; [lia|]. apply in_seq. lia.
Qed.

Lemma nless_antisym a b : less a b = false -> less b a = false ->
  sc_obsolete a = sc_obsolete b /\ sc_tag a = sc_tag b.
Proof. unfold less. destruct (sc_obsolete a), (sc_obsolete b); cbn; try discriminate; split; auto; lia. Qed.

Lemma sorted_perm_unique (l1 : list scipher) : forall l2,
  (forall a b, In a l1 -> In b l1 -> less a b = false -> less b a = false -> a = b) ->
  Permutation l1 l2 -> sorted_by_less l1 -> sorted_by_less l2 -> l1 = l2.
Proof.
  unfold sorted_by_less. induction l1 as [|x t1 IH]; intros l2 Hanti P S1 S2.
  - apply Permutation_nil in P. auto.
  - destruct l2 as [|y t2]; [apply Permutation_sym, Permutation_nil in P; discriminate|].
    inversion S1 as [|? ? S1' F1]; subst. inversion S2 as [|? ? S2' F2]; subst.
    assert (Exy : x = y).
    { assert (Hx : In x (y :: t2)) by (eapply Permutation_in; [exact P|left; reflexivity]).
      assert (Hy : In y (x :: t1)) by (eapply Permutation_in; [apply Permutation_sym; exact P|left; reflexivity]).
      destruct Hx as [->|Hx]; [reflexivity|]. destruct Hy as [->|Hy]; [reflexivity|].
      rewrite Forall_forall in F1, F2. apply Hanti; [left; reflexivity|right; exact Hy|apply F2; exact Hx|apply F1; exact Hy]. }
    subst y. f_equal. apply IH; auto.
    + intros a b Ha Hb. apply Hanti; right; assumption.
    + eapply Permutation_cons_inv; exact P.
Qed.

Lemma sort_unique_tags l l' : NoDup (map sc_tag l) -> Permutation l l' -> sorted_by_less l' -> l' = isort l.
Proof.
  intros Hn P S. apply sorted_perm_unique; [|eapply Permutation_trans; [apply Permutation_sym; exact P|apply isort_perm]|exact S|apply isort_sorted_less].
  intros a b Ha Hb L1 L2. destruct (nless_antisym a b L1 L2) as [_ Et].
  apply (NoDup_map_inj sc_tag l); auto; eapply Permutation_in; try (apply Permutation_sym; exact P); assumption.
Qed.

Lemma NoDup_snd_combine {A B} (a : list A) (b : list B) : NoDup b -> NoDup (map snd (combine a b)).
Proof.
  revert b. induction a as [|x a IH]; intros [|y b] Hn; cbn [combine map]; try constructor.
  - inversion Hn; subst. intros Hin. apply in_map_iff in Hin. destruct Hin as ([x' y'] & E & Hin). cbn in E. subst y'.
    apply in_combine_r in Hin. contradiction.
  - inversion Hn; subst. apply IH. assumption.
Qed.

(* the sortableCiphers that shuffledCiphers hands to sort.Sort, [pm] being what Perm returned *)
Definition sortable (tb : table) (pm : list Z) : list scipher :=
  map (fun '(row, tag) => {| sc_obsolete := negb (sr_tls12 row); sc_tag := tag; sc_suite := sr_id row |})
      (combine (t_suites tb) pm).
