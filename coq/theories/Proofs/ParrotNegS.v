(* (1) The shape of the private keys ApplyPreset retains (KeyShare.v, repaired code) is ParrotNeg.static_shape of the share
       list - for EVERY crypto instance, stream and cursor (no law needed).
   (2) Everything Model/ParrotNeg.v reads off a spec is invariant under the rearrangements the Chrome shuffle can produce,
       provided each consulted extension type occurs at most once.
   (3) The sweeps over the regenerated table Gen/Parrots.v (finite: by computation), naming the exception classes. *)
From Coq Require Import Permutation.
From UV Require Import Base.Common Model.Wire Model.Ext.
From UV Require Model.Grease Model.Negotiate Model.KeyShare Model.Complete Model.ParrotSpec Model.Shuffle.
From UV Require Proofs.KeyShareP Proofs.PresetP Gen.Parrots.
From UV Require Import Model.Preset Model.PresetOk Model.ParrotNeg Proofs.PresetOkS.

Section Shape.
  Variables (priv dkey : Type) (rnd : N -> N) (ecdh_gen : N -> N -> priv * N) (pub : N -> priv -> bytes)
            (kem_new : bytes -> dkey) (kem_ek : dkey -> bytes).
  Notation stepK := (KeyShare.step priv dkey rnd ecdh_gen pub kem_new kem_ek).
  Notation loopK := (KeyShare.loop priv dkey rnd ecdh_gen pub kem_new kem_ek).

  Definition pair_of (k : KeyShare.kshare) : N * bytes := (KeyShare.ks_group k, KeyShare.ks_data k).

  (* the retained keys have the shape of t; a present Ecdhe key has a non-zero curve *)
  Definition shape_inv (s : KeyShare.st priv dkey) (t : shst) : Prop :=
    KeyShare.shape_of (KeyShare.s_keys s) = ss_shape t /\ KeyShare.s_pref s = ss_pref t
    /\ (KeyShare.k_ecdhe (KeyShare.s_keys s) = None <-> KeyShare.sh_ecdhe (ss_shape t) = 0).

  Lemma step_shape gv i k s k' s1 t : stepK true gv i k s = Ok (k', s1) -> shape_inv s t -> shape_inv s1 (shape_step t (pair_of k)).
  Proof.
    (* the four cases of KeyShareP.step_spec - GREASE entry, entry whose data the spec gives, generated hybrid share,
       generated classical share: the first two leave the keys alone, in the last two the new key record is compared
       with shape_step field by field *)
    intros H (I1 & I2 & I3). apply KeyShareP.step_inv in H. unfold shape_step, pair_of. cbn [fst snd].
    inversion H as [Hg|Hg Hd|xk n d Hgen Hhy Heg Hd|ck n Hgen Hhy Hcl Heg]; try subst k'; try subst s1.
    - rewrite Hg. repeat split; tauto.
    - rewrite Hg. change (blen (KeyShare.ks_data k)) with (KeyShare.lenN (KeyShare.ks_data k)). rewrite Hd. repeat split; tauto.
    - unfold KeyShare.generated in Hgen. apply andb_true_iff in Hgen. destruct Hgen as [G1 G2]. apply negb_true_iff in G1, G2.
      rewrite G1. change (blen (KeyShare.ks_data k)) with (KeyShare.lenN (KeyShare.ks_data k)). rewrite G2, Hhy.
      unfold shape_inv, KeyShare.shape_of in *. cbn [KeyShare.s_keys KeyShare.s_pref KeyShare.k_ecdhe KeyShare.k_mlkem KeyShare.k_mlkem_ecdhe KeyShare.k_extra ss_shape ss_pref
        KeyShare.sh_ecdhe KeyShare.sh_extra KeyShare.sh_mlkem KeyShare.sh_mlkem_ecdhe KeyShare.curve_of KeyShare.ek_curve] in *.
      rewrite <- I1. cbn [KeyShare.sh_ecdhe KeyShare.sh_extra]. destruct (KeyShare.k_ecdhe (KeyShare.s_keys s)) as [e0|] eqn:Ee.
      + assert (Hnz : KeyShare.ek_curve e0 <> 0).
        { intros Hz. destruct I3 as [_ I3]. rewrite <- I1 in I3. cbn [KeyShare.sh_ecdhe KeyShare.curve_of] in I3. specialize (I3 Hz). discriminate. }
        cbn [KeyShare.curve_of]. destruct (KeyShare.ek_curve e0 =? 0) eqn:E0; [lia|]. repeat split; try reflexivity; try assumption.
        * discriminate.
        * cbn [KeyShare.sh_ecdhe]. intros Hz. lia.
      + cbn [KeyShare.curve_of KeyShare.ek_curve]. repeat split; try reflexivity; try assumption; [discriminate|]. cbn [KeyShare.sh_ecdhe]. intros Hz; discriminate.
    - unfold KeyShare.generated in Hgen. apply andb_true_iff in Hgen. destruct Hgen as [G1 G2]. apply negb_true_iff in G1, G2.
      rewrite G1. change (blen (KeyShare.ks_data k)) with (KeyShare.lenN (KeyShare.ks_data k)). rewrite G2, Hhy, <- I2.
      assert (Hgz : KeyShare.ks_group k <> 0) by (intros Hz; rewrite Hz in Hcl; discriminate).
      unfold shape_inv, KeyShare.shape_of in *. destruct (KeyShare.s_pref s); cbn [negb];
      cbn [KeyShare.s_keys KeyShare.s_pref KeyShare.k_ecdhe KeyShare.k_mlkem KeyShare.k_mlkem_ecdhe KeyShare.k_extra ss_shape ss_pref
        KeyShare.sh_ecdhe KeyShare.sh_extra KeyShare.sh_mlkem KeyShare.sh_mlkem_ecdhe KeyShare.curve_of KeyShare.ek_curve] in *;
      rewrite <- I1; cbn [KeyShare.sh_ecdhe KeyShare.sh_extra KeyShare.sh_mlkem KeyShare.sh_mlkem_ecdhe].
      + rewrite map_app. cbn [map KeyShare.ek_curve]. repeat split; try reflexivity; rewrite <- I1 in I3; cbn [KeyShare.sh_ecdhe] in I3; tauto.
      + repeat split; try reflexivity; [discriminate | intros Hz; contradiction].
  Qed.

  Lemma loop_shape gv : forall l i s out s' t, loopK true gv i l s = Ok (out, s') -> shape_inv s t ->
    shape_inv s' (fold_left shape_step (map pair_of l) t).
  Proof.
    induction l as [|k tl IH]; intros i s out s' t H Hi.
    - cbn in H. inversion H; subst. exact Hi.
    - apply KeyShareP.loop_cons in H. destruct H as (k' & s1 & tl' & Hs & Hl & _). cbn [map fold_left].
      eapply IH; [exact Hl | eapply step_shape; eassumption].
  Qed.

  (* for every crypto instance: the retained keys of the repaired ApplyPreset have the static shape *)
  Theorem retained_shape quic gv shares p0 a :
    KeyShare.apply_preset priv dkey rnd ecdh_gen pub kem_new kem_ek true quic gv shares p0 = Ok a ->
    KeyShare.shape_of (KeyShare.a_keys a) = static_shape (map pair_of shares).
  Proof.
    intros H. apply KeyShareP.apply_inv in H. destruct H as (s0 & s & Hl & K0 & P0 & KA & _).
    assert (Hi : shape_inv s0 (mkShSt (KeyShare.mkShape 0 [] false 0) false)).
    { unfold shape_inv. rewrite K0, P0. repeat split; reflexivity. }
    destruct (loop_shape gv _ _ _ _ _ _ Hl Hi) as (A & _). rewrite KA. exact A.
  Qed.
End Shape.

Lemma pair_of_kshares sp : map pair_of (kshares_of sp) = lastS s_shares (sp_exts sp) [].
Proof. unfold kshares_of. rewrite map_map. rewrite <- (map_id (lastS s_shares (sp_exts sp) [])) at 2. apply map_ext. intros [g d]. reflexivity. Qed.

Definition vals {A} (get : sext -> option A) (l : list sext) : list A :=
  flat_map (fun s => match get s with Some a => [a] | None => [] end) l.

Lemma vals_length {A} (get : sext -> option A) l : length (vals get l) = writers get l.
Proof.
  unfold vals, writers. induction l as [|s r IH]; [reflexivity|]. cbn [flat_map filter]. destruct (get s); cbn [app length]; rewrite IH; reflexivity.
Qed.

Lemma lastS_char {A} (get : sext -> option A) l : forall init, (writers get l <= 1)%nat ->
  lastS get l init = match vals get l with [] => init | a :: _ => a end.
Proof.
  unfold lastS. induction l as [|s r IH]; intros init H; [reflexivity|].
  unfold writers in *. cbn [filter fold_left] in *. unfold vals. cbn [flat_map]. fold (vals get r).
  destruct (get s) as [a|] eqn:E; cbn [length app] in *.
  - rewrite IH by lia. pose proof (vals_length get r) as Hl. unfold writers in Hl. destruct (vals get r); [reflexivity|cbn [length] in Hl; lia].
  - apply IH. exact H.
Qed.

Lemma perm_short {A} (a b : list A) : Permutation a b -> (length a <= 1)%nat -> a = b.
Proof.
  intros P H. destruct a as [|x [|y a]]; cbn [length] in H; try lia.
  - symmetry. apply Permutation_nil. exact P.
  - symmetry. apply Permutation_length_1_inv. exact P.
Qed.

Lemma vals_perm {A} (get : sext -> option A) l l' : Permutation l l' -> Permutation (vals get l) (vals get l').
Proof.
  induction 1 as [|x l l' _ IH|x y l|l1 l2 l3 _ IH1 _ IH2]; unfold vals in *; cbn [flat_map].
  - constructor.
  - apply Permutation_app_head. exact IH.
  - rewrite !app_assoc. apply Permutation_app_tail. apply Permutation_app_comm.
  - eapply Permutation_trans; eassumption.
Qed.

Lemma writers_perm {A} (get : sext -> option A) l l' : Permutation l l' -> writers get l = writers get l'.
Proof. intros P. rewrite <- !vals_length. apply Permutation_length. apply vals_perm. exact P. Qed.

Lemma lastS_perm {A} (get : sext -> option A) l l' init : Permutation l l' -> (writers get l <= 1)%nat ->
  lastS get l init = lastS get l' init.
Proof.
  intros P H. rewrite (lastS_char get l init H). rewrite (lastS_char get l' init) by (rewrite <- (writers_perm get l l' P); exact H).
  rewrite (perm_short _ _ (vals_perm get l l' P)) by (rewrite vals_length; exact H). reflexivity.
Qed.

Lemma forallb_ext {A} (f g : A -> bool) l : (forall x, f x = g x) -> forallb f l = forallb g l.
Proof. intros H. induction l as [|x l IH]; [reflexivity|]. cbn [forallb]. rewrite H, IH. reflexivity. Qed.

Lemma existsb_perm {A} (f : A -> bool) l l' : Permutation l l' -> existsb f l = existsb f l'.
Proof.
  induction 1 as [|x l l' _ IH|x y l|l1 l2 l3 _ IH1 _ IH2]; cbn [existsb]; try reflexivity.
  - rewrite IH. reflexivity.
  - destruct (f x), (f y); reflexivity.
  - congruence.
Qed.

(* SetTLSVers' scan sees the (at most one) supported_versions extension wherever it is *)
Lemma scan_char l : forall cnt a b, (writers s_versions l <= 1)%nat ->
  scan_versions l (cnt, a, b) =
  match vals s_versions l with
  | [] => Ok (cnt, a, b)
  | vs :: _ => let '(mn, mx) := find_versions vs in if (mn =? 0) && (mx =? 0) then Err E_VERS_EXT else Ok (S cnt, mn, mx)
  end.
Proof.
  induction l as [|s r IH]; intros cnt a b H; [reflexivity|].
  unfold writers in H. cbn [filter] in H. unfold vals. cbn [flat_map scan_versions]. fold (vals s_versions r).
  destruct s as [e|]; [|cbn [s_versions app] in *; apply IH; exact H].
  destruct e; cbn [s_versions app length] in *; try (apply IH; exact H).
  destruct (find_versions versions) as [m1 m2]. destruct ((m1 =? 0) && (m2 =? 0)); [reflexivity|].
  rewrite IH by (unfold writers; lia). pose proof (vals_length s_versions r) as Hl. unfold writers in Hl.
  destruct (vals s_versions r); [reflexivity|cbn [length] in Hl; lia].
Qed.

Lemma set_tls_vers_perm sp exts' : Permutation (sp_exts sp) exts' -> (writers s_versions (sp_exts sp) <= 1)%nat ->
  set_tls_vers (with_exts sp exts') = set_tls_vers sp.
Proof.
  intros P H. unfold set_tls_vers. cbn [with_exts sp_min sp_max sp_exts].
  rewrite (scan_char (sp_exts sp) O 0 0 H). rewrite (scan_char exts' O 0 0) by (rewrite <- (writers_perm s_versions _ _ P); exact H).
  rewrite (perm_short _ _ (vals_perm s_versions _ _ P)) by (rewrite vals_length; exact H). reflexivity.
Qed.

Theorem neg_static_shuffle sp swaps exts' :
  neg_static sp = true -> Shuffle.shuffle ParrotSpec.fixedb swaps (sp_exts sp) = Ok exts' ->
  neg_static (with_exts sp exts') = true /\ hybrid_static (with_exts sp exts') = hybrid_static sp
  /\ set_tls_vers (with_exts sp exts') = set_tls_vers sp
  /\ lastS s_shares exts' [] = lastS s_shares (sp_exts sp) [].
Proof.
  intros Hn Hs. destruct (PresetP.shuffle_ok _ _ _ _ Hs) as [P _].
  unfold neg_static in Hn. destruct (set_tls_vers sp) as [[mn mx]|?|?] eqn:Ev; try discriminate.
  rewrite !andb_true_iff in Hn. destruct Hn as [[[[[H0 H1] H2] H3] H4] H5].
  apply Nat.leb_le in H1, H2, H3, H4.
  assert (E1 : lastS s_curves exts' [] = lastS s_curves (sp_exts sp) []) by (symmetry; apply lastS_perm; assumption).
  assert (E2 : lastS s_shares exts' [] = lastS s_shares (sp_exts sp) []) by (symmetry; apply lastS_perm; assumption).
  assert (E4 : lastS s_ccalgs exts' [] = lastS s_ccalgs (sp_exts sp) []) by (symmetry; apply lastS_perm; assumption).
  assert (E3 : opt_versions (with_exts sp exts') = opt_versions sp).
  { unfold opt_versions. cbn [with_exts sp_exts]. symmetry. apply lastS_perm; [exact P|].
    assert (W : writers (fun s => option_map Some (s_versions s)) (sp_exts sp) = writers s_versions (sp_exts sp)).
    { unfold writers. f_equal. apply filter_ext. intros s. destruct (s_versions s); reflexivity. }
    rewrite W. exact H3. }
  assert (E5 : has_sccert (with_exts sp exts') = has_sccert sp) by (unfold has_sccert; cbn [with_exts sp_exts]; symmetry; apply existsb_perm; exact P).
  assert (Ev' : set_tls_vers (with_exts sp exts') = set_tls_vers sp) by (apply set_tls_vers_perm; assumption).
  assert (Ec : forall gg, abs_curves (with_exts sp exts') gg = abs_curves sp gg) by (intros; unfold abs_curves; cbn [with_exts sp_exts]; rewrite E1; reflexivity).
  assert (Es : forall gg, abs_shares (with_exts sp exts') gg = abs_shares sp gg) by (intros; unfold abs_shares; cbn [with_exts sp_exts]; rewrite E2; reflexivity).
  split; [|split; [|split; [congruence|exact E2]]].
  - unfold neg_static. rewrite Ev', Ev. cbn [with_exts sp_exts].
    rewrite <- (writers_perm s_curves _ _ P), <- (writers_perm s_shares _ _ P), <- (writers_perm s_versions _ _ P), <- (writers_perm s_ccalgs _ _ P).
    rewrite !andb_true_iff. repeat split; try (apply Nat.leb_le; assumption); try assumption.
    rewrite E2. erewrite forallb_ext; [exact H5|]. intros gg. apply forallb_ext. intros gv.
    unfold abs_view, abs_wire, abs_sv. rewrite Ec, Es, E3, E5. cbn [with_exts sp_exts]. rewrite E4. reflexivity.
  - unfold hybrid_static. apply forallb_ext. intros gg. rewrite Ec, Es. reflexivity.
Qed.

(* The GREASE group value reaches spec_rest through cv_shares only (keys_ok, and whether the list is empty), the GREASE
   version value through cv_sv / w_sv only: the 16 x 16 grid holds as soon as one row and one column do. *)
Lemma spec_rest_cross sp mn mx ks gg gv gg0 gv0 :
  spec_rest true Negotiate.env_fixed (abs_view sp mn mx gg gv0 ks) ks mn (abs_wire sp mn mx gg gv0) = true ->
  spec_rest true Negotiate.env_fixed (abs_view sp mn mx gg0 gv ks) ks mn (abs_wire sp mn mx gg0 gv) = true ->
  spec_rest true Negotiate.env_fixed (abs_view sp mn mx gg gv ks) ks mn (abs_wire sp mn mx gg gv) = true.
Proof.
  unfold spec_rest. rewrite !andb_true_iff. intros [[[[[_ K] _] _] _] _] [[[[[V _] M] E] S] O].
  assert (Hnil : forall g, Complete.is_nil (Negotiate.cv_shares (abs_view sp mn mx g gv ks))
                           = Complete.is_nil (lastS s_shares (sp_exts sp) [])).
  { intros g. cbn [abs_view Negotiate.cv_shares]. unfold abs_shares. destruct (lastS s_shares (sp_exts sp) []); reflexivity. }
  rewrite Hnil in *. repeat split; assumption.
Qed.

Definition neg_static_cross (sp : spec) : bool :=
  match set_tls_vers sp with
  | Ok (mn, mx) =>
      (mn <=? mx)
      && (writers s_curves (sp_exts sp) <=? 1)%nat && (writers s_shares (sp_exts sp) <=? 1)%nat
      && (writers s_versions (sp_exts sp) <=? 1)%nat && (writers s_ccalgs (sp_exts sp) <=? 1)%nat
      && let ks := static_shape (lastS s_shares (sp_exts sp) []) in
         forallb (fun g => spec_rest true Negotiate.env_fixed (abs_view sp mn mx g 2570 ks) ks mn (abs_wire sp mn mx g 2570)
                           && spec_rest true Negotiate.env_fixed (abs_view sp mn mx 2570 g ks) ks mn (abs_wire sp mn mx 2570 g))
                 grease16
  | _ => false
  end.

Lemma neg_static_cross_sound sp : neg_static_cross sp = true -> neg_static sp = true.
Proof.
  unfold neg_static_cross, neg_static. destruct (set_tls_vers sp) as [[mn mx]|?|?]; try discriminate.
  rewrite !andb_true_iff. intros [H G]. split; [exact H|]. rewrite forallb_forall in G.
  apply forallb_forall. intros gg Hgg. apply forallb_forall. intros gv Hgv.
  pose proof (G gg Hgg) as Ggg. pose proof (G gv Hgv) as Ggv. apply andb_true_iff in Ggg, Ggv.
  exact (spec_rest_cross sp mn mx _ gg gv 2570 2570 (proj1 Ggg) (proj2 Ggv)).
Qed.

(* every shipped parrot: spec-dependent part of Complete.spec_ok, for all 16 x 16 GREASE (group, version) values *)
Theorem parrots_neg_static : forallb (fun p => neg_static (p_spec p)) Parrots.all = true.
Proof.
  apply forallb_forall. intros p Hp. apply neg_static_cross_sound. revert p Hp. apply forallb_forall.
  vm_compute. reflexivity.
Qed.

Lemma filter_negb_nil {A} (f : A -> bool) l : forallb f l = true -> filter (fun x => negb (f x)) l = [].
Proof.
  induction l as [|x l IH]; [reflexivity|]. cbn [forallb filter]. intros H. apply andb_true_iff in H. destruct H as [Hx Hl].
  rewrite Hx. exact (IH Hl).
Qed.

Theorem parrots_hybrid_static : forallb (fun p => hybrid_static (p_spec p)) Parrots.all = true.
Proof. vm_compute. reflexivity. Qed.

(* exception class hrr-hybrid (a hybrid group listed in supported_groups without its key share): no shipped parrot *)
Definition hrr_hybrid_exceptions : list parrot := filter (fun p => negb (hybrid_static (p_spec p))) Parrots.all.

(* exception class psk-hrr (a hello carrying pre_shared_key identities cannot answer a HelloRetryRequest): only reachable when a
   session is offered; the parrots that CAN offer one are those with a pre_shared_key extension *)
Definition psk_hrr_class : list parrot := filter has_psk Parrots.all.

(* the premise of C18_keys_retained: one share per classical group, at most one hybrid share - no exception *)
Definition keyshares_ok (p : parrot) : bool := KeyShareP.wf_shares (kshares_of (p_spec p)).
Theorem parrots_keyshares_ok : forallb keyshares_ok Parrots.all = true.
Proof. vm_compute. reflexivity. Qed.
Theorem parrots_two_hybrid_exceptions : map p_name (filter (fun p => negb (keyshares_ok p)) Parrots.all) = [].
Proof. exact (f_equal (map p_name) (filter_negb_nil _ _ parrots_keyshares_ok)). Qed.
