(* C35 — Session tickets are authenticated and round-trip.
   HMAC-SHA256 (hmac), AES-128-CTR (ctr), SHA-512 (sha512) and x509.ParseCertificate (x509ok) are
   universally quantified functions constrained only by the premises below (crypto_laws): CTR is an
   involution that preserves length, tags are 32 bytes, SHA-512 outputs 64 bytes.  MAC acceptance is the
   code's explicit equality test, NOT idealised: "ANY modification of a ticket yields no state" beyond
   C35_ticket_mac_covers_all / C35_ticket_tag_flip / C35_rotated_out is existential unforgeability
   (EUF-CMA) of HMAC-SHA256 — named here, not proved. *)
From UV Require Import Base.Common Model.Ticket Proofs.TicketP.

Definition crypto_laws (hmac : bytes -> bytes -> bytes) (ctr : bytes -> bytes -> bytes -> bytes) : Prop :=
  (forall k iv x, ctr k iv (ctr k iv x) = x) /\
  (forall k iv x, length (ctr k iv x) = length x) /\
  (forall k m, length (hmac k m) = 32%nat).

(* SessionState.Bytes / ParseSessionState: every well-formed state that Bytes() can encode parses back to itself. *)
Theorem C35_state_codec_roundtrip : forall x509ok s b,
  wf_state x509ok s -> state_bytes s = Ok b -> parse_state x509ok b = Ok s.
Proof. exact state_codec_roundtrip. Qed.
Print Assumptions C35_state_codec_roundtrip.

(* DecryptTicket(EncryptTicket(state)) = state when the sealing key (first of the sealing list) is anywhere in
   the opening list, provided no configured key validating the same tag has a different AES key. *)
Theorem C35_ticket_roundtrip : forall hmac ctr x509ok, crypto_laws hmac ctr ->
  forall k restE keysD iv s t,
  In k keysD -> length iv = ivLen -> wf_state x509ok s ->
  (forall k', In k' keysD -> hmac (k_hmac k') (t_auth t) = t_tag t -> k_aes k' = k_aes k) ->
  EncryptTicket hmac ctr (k :: restE) iv s = Ok t -> DecryptTicket hmac ctr x509ok keysD t = Some s.
Proof.
  intros hmac ctr x509ok (A & B & C) k restE keysD iv s t Hin Hiv Hwf Hconf H.
  exact (ticket_roundtrip hmac ctr (fun x => x) x509ok A B C (k :: restE) restE keysD k iv s t eq_refl Hin Hiv Hwf Hconf H).
Qed.
Print Assumptions C35_ticket_roundtrip.

(* ... and with no side condition when the same key heads both lists (same keys, the statement of the property). *)
Theorem C35_ticket_roundtrip_same_keys : forall hmac ctr x509ok, crypto_laws hmac ctr ->
  forall keys iv s t, length iv = ivLen -> wf_state x509ok s ->
  EncryptTicket hmac ctr keys iv s = Ok t -> DecryptTicket hmac ctr x509ok keys t = Some s.
Proof.
  intros hmac ctr x509ok (A & B & C) keys iv s t Hiv Hwf H. destruct keys as [|k rest].
  - unfold EncryptTicket in H. destruct (state_bytes s); discriminate.
  - exact (ticket_roundtrip_head hmac ctr x509ok A C k rest rest iv s t Hiv Hwf H).
Qed.
Print Assumptions C35_ticket_roundtrip_same_keys.

(* public API level: SetSessionTicketKeys; EncryptTicket; DecryptTicket on one Config *)
Theorem C35_config_roundtrip : forall hmac ctr sha512 x509ok, crypto_laws hmac ctr ->
  forall c now now' rnd b bs c1 s t c2 rnd2,
  c_disabled c = false -> wf_state x509ok s ->
  set_session_ticket_keys sha512 c now (b :: bs) = Ok c1 ->
  cfg_encrypt hmac ctr sha512 c1 now rnd s = Ok (Ok t, c2, rnd2) ->
  exists c3, cfg_decrypt hmac ctr sha512 x509ok c2 now' rnd2 t = Ok (Some s, c3, rnd2).
Proof.
  intros hmac ctr sha512 x509ok (Hinv & _ & Hlen) c now now' rnd b bs c1 s t c2 rnd2 Hd Hwf Hset Henc.
  destruct (set_keys_ok _ _ _ _ _ Hset) as (K1 & _ & D1 & _). rewrite Hd in D1.
  unfold cfg_encrypt in Henc.
  destruct (ticket_keys sha512 c1 now rnd) as [[[keys cA] rA]| |] eqn:TK; cbn [bind] in Henc; try discriminate.
  destruct (state_bytes s) as [st| |] eqn:Hst; try discriminate.
  destruct keys as [|k0 keys]; [discriminate|].
  destruct (take_rand ivLen rA) as [[iv rB]|] eqn:TR; [|discriminate].
  assert (Ht : encrypt_ticket hmac ctr (k0 :: keys) iv st = Ok t) by congruence.
  assert (cA = c2 /\ rB = rnd2) as (-> & ->) by (split; congruence).
  assert (Hiv : length iv = ivLen).
  { unfold take_rand in TR. destruct (ivLen <=? length rA)%nat eqn:E; [|discriminate].
    apply Nat.leb_le in E. assert (Eiv : iv = firstn ivLen rA) by congruence. rewrite Eiv. apply firstn_length_le. exact E. }
  (* ticket_keys succeeded, so the legacy key could be drawn if it had to be *)
  assert (Hcase : bytes_eqb (c_stk c1) zero32 = false \/ (32 <= length rnd)%nat).
  { destruct (bytes_eqb (c_stk c1) zero32) eqn:Ez; [right | left; reflexivity].
    unfold ticket_keys in TK. rewrite D1 in TK. unfold init_legacy in TK. rewrite Ez in TK.
    cbn [negb andb] in TK. unfold take_rand in TK.
    destruct (32 <=? length rnd)%nat eqn:E; [apply Nat.leb_le in E; exact E | cbn [bind] in TK; discriminate]. }
  destruct (ticket_keys_explicit sha512 c1 now rnd D1 K1 Hcase) as (cA' & rA' & TK' & Kk & Kd & Kz & _).
  rewrite TK in TK'. injection TK' as Ekeys <- <-. rewrite <- Kk in K1.
  destruct (ticket_keys_explicit sha512 c2 now' rnd2 Kd K1 (or_introl Kz)) as (c3 & r3 & TK3 & _ & _ & _ & Hr3).
  unfold cfg_decrypt. rewrite TK3, (Hr3 Kz), Kk, <- Ekeys. cbn [bind]. exists c3.
  rewrite (ticket_roundtrip_head hmac ctr x509ok Hinv Hlen k0 keys keys iv s t Hiv Hwf); [reflexivity|].
  unfold EncryptTicket. rewrite Hst. exact Ht.
Qed.
Print Assumptions C35_config_roundtrip.

(* Acceptance implies: the ticket has at least iv+tag bytes, and some CONFIGURED key's HMAC over every byte
   except the tag equals the tag; the state is the parse of the CTR decryption under that key. *)
Theorem C35_ticket_mac_covers_all : forall hmac ctr x509ok, crypto_laws hmac ctr ->
  forall keys t s, DecryptTicket hmac ctr x509ok keys t = Some s ->
  (ivLen + macLen <= length t)%nat /\
  exists k, In k keys /\ hmac (k_hmac k) (t_auth t) = t_tag t /\
            parse_state x509ok (ctr (k_aes k) (t_iv t) (t_ct t)) = Ok s.
Proof. intros hmac ctr x509ok (A & B & C). exact (ticket_mac_covers_all hmac ctr (fun x => x) x509ok A B C). Qed.
Print Assumptions C35_ticket_mac_covers_all.

(* Any change confined to the tag is rejected (unless it hits the tag of another configured key). *)
Theorem C35_ticket_tag_flip : forall hmac ctr x509ok, crypto_laws hmac ctr ->
  forall k others iv s t tag',
  length iv = ivLen -> EncryptTicket hmac ctr (k :: others) iv s = Ok t ->
  length tag' = macLen -> tag' <> t_tag t ->
  (forall k', In k' others -> hmac (k_hmac k') (t_auth t) <> tag') ->
  DecryptTicket hmac ctr x509ok (k :: others) (t_auth t ++ tag') = None.
Proof. intros hmac ctr x509ok (A & B & C). exact (ticket_tag_flip hmac ctr (fun x => x) x509ok A B C). Qed.
Print Assumptions C35_ticket_tag_flip.

(* Truncation below iv+tag yields no state. *)
Theorem C35_ticket_short : forall hmac ctr x509ok keys t,
  (length t < ivLen + macLen)%nat -> DecryptTicket hmac ctr x509ok keys t = None.
Proof. exact ticket_short. Qed.
Print Assumptions C35_ticket_short.

(* A ticket whose tag no currently configured key validates (sealing key rotated out) yields no state. *)
Theorem C35_rotated_out : forall hmac ctr x509ok, crypto_laws hmac ctr ->
  forall keys t, (forall k, In k keys -> hmac (k_hmac k) (t_auth t) <> t_tag t) ->
  DecryptTicket hmac ctr x509ok keys t = None.
Proof. intros hmac ctr x509ok (A & B & C). exact (rotated_out hmac ctr (fun x => x) x509ok A B C). Qed.
Print Assumptions C35_rotated_out.

(* Rotation by SetSessionTicketKeys: after any history, exactly the keys of the last call are in force. *)
Theorem C35_rotation_last_call : forall sha512 c now hist ks c',
  Forall (fun l => l <> []) hist -> ks <> [] -> rotate sha512 c now (hist ++ [ks]) = Ok c' ->
  map fst (c_keys c') = map (ticket_key_from_bytes sha512) ks /\ c_disabled c' = c_disabled c /\ c_stk c' = c_stk c.
Proof. intros sha512 c now hist ks c' _ _. apply rotate_last. Qed.
Print Assumptions C35_rotation_last_call.

Theorem C35_ticket_keys_explicit : forall sha512 c now rnd,
  c_disabled c = false -> c_keys c <> [] -> (bytes_eqb (c_stk c) zero32 = false \/ (32 <= length rnd)%nat) ->
  exists c' rnd', ticket_keys sha512 c now rnd = Ok (map fst (c_keys c), c', rnd') /\
    c_keys c' = c_keys c /\ c_disabled c' = false /\ bytes_eqb (c_stk c') zero32 = false /\
    (bytes_eqb (c_stk c) zero32 = false -> rnd' = rnd).
Proof. exact ticket_keys_explicit. Qed.
Print Assumptions C35_ticket_keys_explicit.

(* Whole-input framing: an accepted ticket IS  iv(16 bytes) || ct || HMAC_k(iv || ct)  of the ENTIRE input for a
   configured key k — no byte may precede the iv, follow the tag, or sit between the parts (a ticket with a
   prefix, a suffix, an insertion, or two tickets glued together is accepted only if that whole string has this shape). *)
Theorem C35_ticket_whole_input : forall hmac ctr x509ok, crypto_laws hmac ctr ->
  forall keys t s, DecryptTicket hmac ctr x509ok keys t = Some s ->
  exists k, In k keys /\ length (t_iv t) = ivLen /\
    t = t_iv t ++ t_ct t ++ hmac (k_hmac k) (t_iv t ++ t_ct t) /\
    parse_state x509ok (ctr (k_aes k) (t_iv t) (t_ct t)) = Ok s.
Proof.
  intros hmac ctr x509ok _ keys t s H.
  apply ticket_accepted_iff in H. destruct H as (L & pre & k & post & -> & _ & Hm & Hp).
  assert (Ha : t_auth t = t_iv t ++ t_ct t).
  { unfold t_ct. rewrite <- (firstn_skipn ivLen (t_auth t)) at 1. f_equal.
    unfold t_iv, t_auth. rewrite firstn_firstn. f_equal. clear -L. unfold ivLen, macLen in *. lia. }
  exists k. split; [apply in_elt|]. split.
  - unfold t_iv. apply firstn_length_le. clear -L. unfold ivLen, macLen in *. lia.
  - split; [|exact Hp]. rewrite <- Ha, Hm, app_assoc. rewrite <- Ha. apply t_split.
Qed.
Print Assumptions C35_ticket_whole_input.

(* A family of Configs (Config.Clone): in any history of SetSessionTicketKeys on any member and Clone of any member,
   exactly the last list set on THIS config is in force on it; a clone starts as a copy of its source, changes no
   existing config, and keeps what it inherited until it is itself set. *)
Theorem C35_family_last_set : forall sha512 now st pre j ks suf st',
  ks <> [] -> srun sha512 now st (pre ++ SSet j ks :: suf) = Ok st' ->
  Forall (fun op => ~ touches j op) suf ->
  exists c, nth_error st' j = Some c /\ map fst (c_keys c) = map (ticket_key_from_bytes sha512) ks.
Proof. intros sha512 now st pre j ks suf st' _. apply family_last_set. Qed.
Print Assumptions C35_family_last_set.
Theorem C35_clone_is_copy : forall sha512 now st i st', sstep sha512 now st (SClone i) = Ok st' ->
  nth_error st' (length st) = nth_error st i /\ forall j, (j < length st)%nat -> nth_error st' j = nth_error st j.
Proof.
  intros sha512 now st i st'. cbn [sstep]. destruct (nth_error st i) as [ci|] eqn:Ei; [|discriminate].
  intros H. apply ok_inj in H as <-. split.
  - rewrite nth_error_app2, Nat.sub_diag by lia. reflexivity.
  - intros j Hj. apply nth_error_app1. exact Hj.
Qed.
Theorem C35_family_clone_inherits : forall sha512 now st i st1 suf st' c,
  sstep sha512 now st (SClone i) = Ok st1 -> nth_error st i = Some c -> srun sha512 now st1 suf = Ok st' ->
  Forall (fun op => ~ touches (length st) op) suf -> nth_error st' (length st) = Some c.
Proof.
  intros sha512 now st i st1 suf st' c Hc Hi H Hsuf. destruct (C35_clone_is_copy _ _ _ _ _ Hc) as [Hnew _].
  apply (srun_frame _ _ _ _ _ _ _ H Hsuf). rewrite Hnew. exact Hi.
Qed.
Print Assumptions C35_family_clone_inherits.
Example C35_ex_family :
  match srun (fun b => b ++ b ++ b) 0%Z [new_config] [SSet 0 [[1];[2]]; SClone 0; SSet 0 [[3]]; SClone 1; SSet 1 [[4]]] with
  | Ok st => map (fun c => length (c_keys c)) st = [1; 1; 2]%nat
  | _ => False
  end.
Proof. vm_compute. reflexivity. Qed.

(* SetSessionTicketKeys overrides EVERY other key source (user-set SessionTicketKey field, automatically rotated keys,
   an earlier list): c is an arbitrary Config state; afterwards ticketKeys returns exactly the keys TicketKeyFromBytes
   derives from the new list, on this and on every later call. *)
Theorem C35_set_keys_overrides : forall sha512 c now b bs c1,
  c_disabled c = false -> set_session_ticket_keys sha512 c now (b :: bs) = Ok c1 ->
  forall now1 rnd1, (bytes_eqb (c_stk c) zero32 = false \/ (32 <= length rnd1)%nat) ->
  exists c2 rnd2, ticket_keys sha512 c1 now1 rnd1 = Ok (map (ticket_key_from_bytes sha512) (b :: bs), c2, rnd2) /\
    forall now2 rnd3, exists c3, ticket_keys sha512 c2 now2 rnd3 = Ok (map (ticket_key_from_bytes sha512) (b :: bs), c3, rnd3).
Proof.
  intros sha512 c now b bs c1 Hd Hset now1 rnd1 Hr. destruct (set_keys_ok _ _ _ _ _ Hset) as (K1 & M1 & D1 & S1).
  rewrite <- S1 in Hr. rewrite Hd in D1.
  destruct (ticket_keys_explicit sha512 c1 now1 rnd1 D1 K1 Hr) as (c2 & rnd2 & T1 & Kk & Kd & Kz & _).
  exists c2, rnd2. split; [rewrite T1, M1; reflexivity|].
  intros now2 rnd3. rewrite <- Kk in K1.
  destruct (ticket_keys_explicit sha512 c2 now2 rnd3 Kd K1 (or_introl Kz)) as (c3 & r3 & T2 & _ & _ & _ & Hr3).
  rewrite (Hr3 Kz) in T2. exists c3. rewrite T2, Kk, M1. reflexivity.
Qed.
Print Assumptions C35_set_keys_overrides.

(* TicketKeyFromBytes derives the keys SetSessionTicketKeys installs: SHA-512 bytes 16..31 and 32..47. *)
Theorem C35_keys_same_derivation : forall sha512 c now b bs c',
  set_session_ticket_keys sha512 c now (b :: bs) = Ok c' ->
  map fst (c_keys c') = map (fun x => to_private (TicketKeyFromBytes sha512 x)) (b :: bs) /\
  to_private (TicketKeyFromBytes sha512 b) = ticket_key_from_bytes sha512 b.
Proof. exact keys_same_derivation. Qed.
Print Assumptions C35_keys_same_derivation.

Theorem C35_key_slices : forall sha512 b h, sha512 b = h ->
  ticket_key_from_bytes sha512 b = mkKey (firstn 16 (skipn 16 h)) (firstn 16 (skipn 32 h)).
Proof. intros sha512 b h <-. reflexivity. Qed.
Theorem C35_key_lengths : forall sha512, (forall b, length (sha512 b) = 64%nat) -> forall b,
  length (k_aes (ticket_key_from_bytes sha512 b)) = 16%nat /\ length (k_hmac (ticket_key_from_bytes sha512 b)) = 16%nat.
Proof.
  intros sha512 Hlen b. unfold ticket_key_from_bytes. cbn [k_aes k_hmac].
  rewrite !firstn_length, !skipn_length, Hlen. split; reflexivity.
Qed.
Print Assumptions C35_key_lengths.

(* MakeClientSessionState and the setters store exactly what they are given (the resumed connection carrying
   these values is observed by the runner, not proved). *)
Theorem C35_forged_state_fields : forall vers suite secret certs chains v' su' ms',
  let s0 := make_client_session_state vers suite secret certs chains in
  s_version s0 = vers /\ s_suite s0 = suite /\ s_secret s0 = secret /\ s_certs s0 = certs /\ s_chains s0 = chains /\
  let s1 := set_master_secret (set_cipher_suite (set_vers s0 v') su') ms' in
  s_version s1 = v' /\ s_suite s1 = su' /\ s_secret s1 = ms' /\ s_certs s1 = certs /\ s_chains s1 = chains.
Proof. exact forged_state_fields. Qed.
Print Assumptions C35_forged_state_fields.

Definition toy_hmac (k m : bytes) : bytes := firstn 32 (k ++ m ++ repeat 0 32).
Definition toy_ctr (k iv x : bytes) : bytes := map (fun b => N.lxor b 90) x.
Example C35_ex_laws : crypto_laws toy_hmac toy_ctr.
Proof.
  unfold crypto_laws, toy_hmac, toy_ctr. repeat split.
  - intros _ _ x. rewrite map_map. rewrite <- (map_id x) at 2. apply map_ext. intros a.
    rewrite N.lxor_assoc, N.lxor_nilpotent, N.lxor_0_r. reflexivity.
  - intros. apply map_length.
  - intros k m. rewrite firstn_length, !app_length, repeat_length. lia.
Qed.

Definition ex_state : state :=
  mkState 772 true 4865 1700000000 [1;2;3] [[9;9]; []] true true [[48;1]; [48;2]] (Some [7]) (Some [[5;5]; [6]])
          [[[48;1]; [48;2]]; [[48;1]]] [104;50] 1700600000 305419896.
Example C35_ex_wf : wf_state (fun _ => true) ex_state /\ is_ok (state_bytes ex_state) = true.
Proof. split; vm_compute; reflexivity. Qed.
Example C35_ex_roundtrip :
  let keys := [mkKey (repeat 1 16) (repeat 2 16); mkKey (repeat 3 16) (repeat 4 16)] in
  match EncryptTicket toy_hmac toy_ctr keys (repeat 7 16) ex_state with
  | Ok t => DecryptTicket toy_hmac toy_ctr (fun _ => true) keys t = Some ex_state /\
            DecryptTicket toy_hmac toy_ctr (fun _ => true) (tl keys) t = None
  | _ => False
  end.
Proof. vm_compute. split; reflexivity. Qed.
