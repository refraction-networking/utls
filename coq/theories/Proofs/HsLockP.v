(* C26, the handshake lock (Model/HsLock.v): the boolean invariant [invb] (lock fields and interrupter fields
   as functions of the caller's pc, the result field against the flags), the list [inv_states] of the states
   that can satisfy it, and one evaluation over that list for preservation and every one-state fact of C26. *)
From UV Require Import Base.Common Model.HsLock.

Inductive reach (s0 : state) : state -> Prop :=
| reach_init : reach s0 s0
| reach_step s l s' : reach s0 s -> step s l = Some s' -> reach s0 s'.

Definition in_mu (q : pc) : bool := match q with P3 | P4 | P5 | P6 | PUnlIn | PUnlMu => true | _ => false end.
Definition in_il (q : pc) : bool := match q with P5 | P6 | PUnlIn => true | _ => false end.
Definition is_mine (o : owner) : bool := match o with Mine => true | _ => false end.
Definition pre_spawn (q : pc) : bool := match q with P0 | P1 => true | _ => false end.
Definition is_inone (i : intr) : bool := match i with INone => true | _ => false end.
Definition is_iwait (i : intr) : bool := match i with IWait => true | _ => false end.
Definition is_ifired (i : intr) : bool := match i with IFired => true | _ => false end.
Definition after_done (q : pc) : bool := match q with PWaitI | PRet => true | _ => false end.
Definition is_pwait (q : pc) : bool := match q with PWaitI => true | _ => false end.
Definition is_pret (q : pc) : bool := match q with PRet => true | _ => false end.
Definition ret_set (q : pc) : bool := match q with PUnlIn | PUnlMu | PDefer | PWaitI | PRet => true | _ => false end.

Definition invb (s : state) : bool :=
  negb (complete s && hs_err s)
  && negb (owner_eqb (mutex s) Parked)
  && (negb (owner_eqb (inl s) Parked) || complete s)
  && eqb (is_mine (mutex s)) (in_mu (p s))
  && eqb (is_mine (inl s)) (in_il (p s))
  && match ret s with
     | Some RNil => complete s || reneg s
     | Some RHsErr => hs_err s
     | Some RCtx => conn_closed s && cancelled s && is_pret (p s) && is_ifired (it s)
     | Some RBuildErr => true
     | None => negb (ret_set (p s)) || (match p s with PUnlMu => false | _ => false end)
     end
  && (match ret s with None => true | Some _ => ret_set (p s) || is_pret (p s) end)
  && (is_inone (it s) || cancellable s && negb (pre_spawn (p s)))
  && (negb (cancellable s) || pre_spawn (p s) || is_pret (p s) || negb (is_inone (it s)))
  && (negb (is_pwait (p s)) || done_closed s && negb (is_inone (it s)))
  && (negb (done_closed s) || negb (is_inone (it s)))
  && (negb (is_pret (p s)) || negb (is_iwait (it s)))
  && (negb (done_closed s) || after_done (p s))
  && (negb (is_ifired (it s)) || conn_closed s && cancelled s)
  && (negb (cancelled s) || cancellable s)
  && (negb (is_pret (p s) && is_ifired (it s)) || match ret s with Some RCtx => true | _ => false end)
  && (negb (match p s with P4 | P5 | P6 => true | _ => false end) || negb (complete s) && negb (hs_err s)).

Definition owners := [Free; Mine; Others; Parked].
Definition bools := [true; false].
Definition intrs := [INone; IWait; IFired; INil].
Definition pcs := [P0; P1; P2; P3; P4; P5; P6; PUnlIn; PUnlMu; PDefer; PWaitI; PRet].
Definition rets := [None; Some RNil; Some RHsErr; Some RBuildErr; Some RCtx].
Definition all_states : list state :=
  flat_map (fun mu => flat_map (fun il => flat_map (fun co => flat_map (fun he => flat_map (fun cl =>
  flat_map (fun cn => flat_map (fun ca => flat_map (fun dc => flat_map (fun i => flat_map (fun q =>
  flat_map (fun r => map (fun rn => mkState mu il co he cl cn ca dc i q r rn) bools) rets) pcs) intrs) bools) bools) bools) bools) bools) bools) owners) owners.

Lemma owners_all o : In o owners. Proof. destruct o; cbn; auto. Qed.
Lemma bools_all b : In b bools. Proof. destruct b; cbn; auto. Qed.
Lemma intrs_all i : In i intrs. Proof. destruct i; cbn; auto. Qed.
Lemma pcs_all q : In q pcs. Proof. destruct q; cbn; auto 20. Qed.
Lemma rets_all r : In r rets. Proof. destruct r as [[]|]; cbn; auto 10. Qed.
#[local] Hint Resolve owners_all bools_all intrs_all pcs_all rets_all : core.

Lemma all_states_complete s : In s all_states.
Proof.
  destruct s. unfold all_states. repeat (apply in_flat_map_all; [auto | eexists]).
  apply in_map_iff. eexists. split; [reflexivity | auto].
Qed.

Lemma sweep (P : state -> bool) : forallb P all_states = true -> forall s, P s = true.
Proof. intros H s. rewrite forallb_forall in H. apply H. apply all_states_complete. Qed.

(* Two groups of conjuncts of [invb] tie the lock fields and the interrupter's fields to the pc alone. Solving each
   group for every pc and pairing the solutions lists all states that satisfy [invb] (and about twice as many that
   do not) without forming the half million of [all_states]. *)
Definition lock_ok (q : pc) '(mu, il, co, he) : bool :=
  negb (co && he) && negb (owner_eqb mu Parked) && (negb (owner_eqb il Parked) || co)
  && eqb (is_mine mu) (in_mu q) && eqb (is_mine il) (in_il q)
  && (negb (match q with P4 | P5 | P6 => true | _ => false end) || negb co && negb he).
Definition intr_ok (q : pc) '(i, cn, ca, dc, cl) : bool :=
  (is_inone i || cn && negb (pre_spawn q))
  && (negb cn || pre_spawn q || is_pret q || negb (is_inone i))
  && (negb (is_pwait q) || dc && negb (is_inone i))
  && (negb dc || negb (is_inone i))
  && (negb (is_pret q) || negb (is_iwait i))
  && (negb dc || after_done q)
  && (negb (is_ifired i) || cl && ca)
  && (negb ca || cn).
Definition inv_states : list state :=
  flat_map (fun q =>
    flat_map (fun '(mu, il, co, he) =>
      flat_map (fun '(i, cn, ca, dc, cl) =>
        flat_map (fun r => map (fun rn => mkState mu il co he cl cn ca dc i q r rn) bools) rets)
        (filter (intr_ok q) (list_prod (list_prod (list_prod (list_prod intrs bools) bools) bools) bools)))
      (filter (lock_ok q) (list_prod (list_prod (list_prod owners owners) bools) bools))) pcs.

Lemma inv_states_complete s : invb s = true -> In s inv_states.
Proof.
  destruct s as [mu il co he cl cn ca dc i q r rn]. cbv [invb mutex inl complete hs_err conn_closed cancellable cancelled done_closed it p ret reneg]. intros H.
  assert (L : lock_ok q (mu, il, co, he) = true /\ intr_ok q (i, cn, ca, dc, cl) = true).
  { repeat (apply andb_true_iff in H as [H ?]). split; repeat (apply andb_true_iff; split); assumption. }
  unfold inv_states. apply in_flat_map_all; [auto|]. exists q.
  apply in_flat_map. exists (mu, il, co, he). split; [apply filter_In; split; [repeat apply in_prod; auto | apply L]|].
  apply in_flat_map. exists (i, cn, ca, dc, cl). split; [apply filter_In; split; [repeat apply in_prod; auto | apply L]|].
  apply in_flat_map_all; [auto|]. exists r. apply in_map. auto.
Qed.

(* Facts about one state or one step that hold wherever the invariant does; the control space is finite, so one
   evaluation over [inv_states] decides them all. *)
Definition step_preserves (s : state) : bool :=
  forallb (fun l => match step s l with Some s' => invb s' | None => true end) all_labels.

Definition outcome_p (s : state) : bool :=
  implb (returned s)
        (match ret s with Some r => outcome_ok r (complete s) (hs_err s) (conn_closed s) (cancelled s) (reneg s) | None => false end).

Definition progress_p (s : state) : bool := returned s || can_progress s.

Definition shared_eqb (a b : state) : bool :=
  owner_eqb (mutex a) (mutex b) && owner_eqb (inl a) (inl b) && eqb (complete a) (complete b)
  && eqb (hs_err a) (hs_err b) && eqb (conn_closed a) (conn_closed b).
Definition late_p (s : state) : bool :=
  implb (returned s)
        (negb (enabledb s LIFire) && negb (enabledb s LIDone) && negb (enabledb s LC)
         && match step s LCancel with Some s' => shared_eqb s s' && returned s' | None => true end
         && forallb (fun l => match step s l with Some s' => returned s' | None => true end) all_labels).

Definition lockset_p (s : state) : bool :=
  (negb (touches_hs (p s)) || is_mine (mutex s)) && (negb (touches_in (p s)) || is_mine (inl s))
  && (negb (is_mine (mutex s)) || negb (enabledb s EBodyOk) && negb (enabledb s EBodyErr) && negb (enabledb s EAcquire)).

(* the caller waits for the input lock only while no result exists, hence never behind a parked reader *)
Definition inwait_p (s : state) : bool :=
  match p s with
  | P4 => negb (complete s) && negb (hs_err s) && negb (owner_eqb (inl s) Parked)
  | _ => true end.

(* queued on handshakeMutex (or anywhere before its deferred epilogue) a cancellable caller has a live interrupter:
   once its ctx is cancelled the interrupter can fire, whoever holds the mutex, and that closes the connection *)
Definition queued_p (s : state) : bool :=
  implb (cancellable s && (match p s with P2 | P3 | P4 | P5 | P6 | PUnlIn | PUnlMu | PDefer => true | _ => false end))
        (negb (is_inone (it s))
         && (negb (is_iwait (it s) && cancelled s)
             || match step s LIFire with Some s' => conn_closed s' && is_ifired (it s') | None => false end)
         && (negb (is_iwait (it s)) || cancelled s || negb (enabledb s LIFire))).

(* a returned caller whose own interrupter closed the connection reports its ctx error, and only such a caller does *)
Definition interrupted_p (s : state) : bool :=
  implb (returned s) (eqb (is_ifired (it s)) (match ret s with Some RCtx => true | _ => false end)).

(* guarantee: what the caller and its interrupter do to the shared state is something the environment may do *)
Definition own_label (l : label) : bool := match l with LC | LBodyOk | LBodyErr | LBuildErr | LIFire | LIDone => true | _ => false end.
Definition view_eqb (a b : owner * owner * bool * bool * bool) : bool :=
  let '(mu, il, co, he, cl) := a in let '(mu', il', co', he', cl') := b in
  owner_eqb mu mu' && owner_eqb il il' && eqb co co' && eqb he he' && eqb cl cl'.
Definition guarantee_p (s : state) : bool :=
  forallb (fun l => negb (own_label l) ||
             match step s l with
             | Some s' => view_eqb (view s) (view s') || env_allows (view s) (view s')
             | None => true end) all_labels.

Definition inv_facts : list (state -> bool) :=
  [step_preserves; outcome_p; progress_p; late_p; lockset_p; inwait_p; queued_p; interrupted_p; guarantee_p].

Lemma inv_facts_all : forallb (fun s => implb (invb s) (forallb (fun f => f s) inv_facts)) inv_states = true.
Proof. vm_compute. reflexivity. Qed.

Lemma inv_fact f s : In f inv_facts -> invb s = true -> f s = true.
Proof.
  intros F I. pose proof inv_facts_all as H. rewrite forallb_forall in H. specialize (H s (inv_states_complete s I)).
  cbv beta in H. rewrite I in H. exact (proj1 (forallb_forall _ _) H f F).
Qed.

Lemma labels_all l : In l all_labels.
Proof. destruct l; cbn; auto 20. Qed.

Lemma inv_step s l s' : invb s = true -> step s l = Some s' -> invb s' = true.
Proof.
  intros I S. pose proof (inv_fact step_preserves s (or_introl eq_refl) I) as H.
  unfold step_preserves in H. rewrite forallb_forall in H. specialize (H l (labels_all l)). rewrite S in H. exact H.
Qed.

Lemma inv_reach s0 s : invb s0 = true -> reach s0 s -> invb s = true.
Proof. intros I R. induction R as [|s l s' R IH S]; [exact I|]. eapply inv_step; eauto. Qed.
