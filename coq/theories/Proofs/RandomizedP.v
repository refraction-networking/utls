(* Model/Randomized.v: what each helper returns for every stream, then [generate_inv]: every spec
   generateRandomizedSpec can return is [spec_of d] for a record d of the run's random choices, and
   what the lists of that spec contain is a boolean function of d ([in_*], [has_*]). *)
From UV Require Import Base.Common Model.Prng Proofs.PrngP Model.Randomized.
From Coq Require Import QArith Lqa Permutation Sorted.
Open Scope N_scope.

Lemma bindM_Ok {A B} (m : M A) (k : A -> M B) s r :
  bindM m k s = Ok r -> exists a s', m s = Ok (a, s') /\ k a s' = Ok r.
Proof.
  unfold bindM. destruct (m s) as [[a s']|c|c]; try discriminate. intros H. eauto.
Qed.
Lemma ret_Ok {A} (a : A) s r : ret a s = Ok r -> r = (a, s).
Proof. unfold ret. congruence. Qed.
Lemma liftO_Ok {A} (f : stream -> option (A * stream)) s r : liftO f s = Ok r -> f s = Some r.
Proof. unfold liftO. destruct (f s); congruence. Qed.

Lemma set_nth_length {A} i (x : A) l : length (set_nth i x l) = length l.
Proof. revert i; induction l as [|h t IH]; intros [|i]; cbn [set_nth length]; auto. Qed.
Lemma nth_set_nth {A} (d : A) i k x l : (i < length l)%nat ->
  nth k (set_nth i x l) d = if Nat.eqb k i then x else nth k l d.
Proof.
  revert i k; induction l as [|h t IH]; intros i k Hi; cbn [length] in Hi; [lia|].
  destruct i as [|i], k as [|k]; cbn [set_nth nth Nat.eqb]; auto. apply IH. lia.
Qed.
Lemma swap_perm {A} (d : A) i j l : (i < length l)%nat -> (j < length l)%nat -> Permutation l (swap d i j l).
Proof.
  intros Hi Hj. apply (Permutation_nth l (swap d i j l) d). split.
  - unfold swap. rewrite !set_nth_length. reflexivity.
  - exists (fun k => if Nat.eqb k i then j else if Nat.eqb k j then i else k). split; [|split].
    + intros k Hk. destruct (Nat.eqb_spec k i); [lia|]. destruct (Nat.eqb_spec k j); lia.
    + intros a b Ha Hb. destruct (Nat.eqb_spec a i), (Nat.eqb_spec a j), (Nat.eqb_spec b i), (Nat.eqb_spec b j); lia.
    + intros k Hk. unfold swap. rewrite nth_set_nth by (rewrite set_nth_length; lia).
      destruct (Nat.eqb_spec k i) as [->|Hki]; [reflexivity|].
      rewrite nth_set_nth by lia. destruct (Nat.eqb_spec k j) as [->|Hkj]; reflexivity.
Qed.
Lemma swap_length {A} (d : A) i j l : length (swap d i j l) = length l.
Proof. unfold swap. rewrite !set_nth_length. reflexivity. Qed.

(* every draw is an 8-byte word: r is s after some whole words *)
Definition steps (s r : stream) : Prop := exists h, s = h ++ r /\ (length h mod 8 = 0)%nat.
Lemma steps_refl s : steps s s.
Proof. exists []. split; reflexivity. Qed.
Lemma steps_trans a b c : steps a b -> steps b c -> steps a c.
Proof.
  intros (h1 & -> & H1) (h2 & -> & H2). exists (h1 ++ h2). split; [apply app_assoc|].
  rewrite app_length. rewrite Nat.add_mod, H1, H2 by lia. reflexivity.
Qed.
Lemma uint64_steps s u r : uint64 s = Some (u, r) -> steps s r.
Proof.
  unfold uint64. destruct s as [|b0 [|b1 [|b2 [|b3 [|b4 [|b5 [|b6 [|b7 t]]]]]]]]; try discriminate.
  intros [= <- <-]. exists [b0; b1; b2; b3; b4; b5; b6; b7]. split; reflexivity.
Qed.
Lemma int63_steps s u r : int63 s = Some (u, r) -> steps s r.
Proof. unfold int63. destruct (uint64 s) as [[u0 r0]|] eqn:E; [|discriminate]. intros [= <- <-]. eapply uint64_steps; eauto. Qed.
Local Opaque N.shiftr.
Lemma int31_steps s u r : int31 s = Some (u, r) -> steps s r.
Proof. unfold int31. destruct (int63 s) as [[u0 r0]|] eqn:E; [|discriminate]. intros [= <- <-]. eapply int63_steps; eauto. Qed.
Lemma uint32_steps s u r : uint32 s = Some (u, r) -> steps s r.
Proof. unfold uint32. destruct (int63 s) as [[u0 r0]|] eqn:E; [|discriminate]. intros [= <- <-]. eapply int63_steps; eauto. Qed.
Local Transparent N.shiftr.
Lemma uint32_lt s u r : uint32 s = Some (u, r) -> u < two32.
Proof.
  unfold uint32. destruct (int63 s) as [[u0 r0]|] eqn:E; [|discriminate]. intros H.
  assert (Hu : u = N.shiftr u0 31) by congruence. subst u. clear H.
  apply int63_lt in E. rewrite N.shiftr_div_pow2. apply N.div_lt_upper_bound; [discriminate|].
  unfold two32. change (2 ^ 31 * 4294967296) with 9223372036854775808. exact E.
Qed.

Lemma reject_steps fuel next mx v s v' s' :
  (forall a b c, next a = Some (b, c) -> steps a c) ->
  reject fuel next mx v s = Some (v', s') -> steps s s'.
Proof.
  intros Hn. revert v s. induction fuel as [|k IH]; intros v s; cbn [reject].
  - destruct (v <=? mx); [intros [= <- <-]; apply steps_refl|discriminate].
  - destruct (v <=? mx); [intros [= <- <-]; apply steps_refl|].
    destruct (next s) as [[v1 s1]|] eqn:E; [|discriminate]. intros H.
    eapply steps_trans; [eapply Hn; eauto|eapply IH; eauto].
Qed.
Lemma randn_steps next top fuel n s v r : (forall a b c, next a = Some (b, c) -> steps a c) ->
  randn next top fuel n s = Some (v, r) -> steps s r.
Proof.
  intros Hn. unfold randn. destruct (N.land n (n - 1) =? 0).
  - destruct (next s) as [[v0 r0]|] eqn:E; [|discriminate]. intros [= <- <-]. eapply Hn; eauto.
  - destruct (next s) as [[v0 r0]|] eqn:E; [|discriminate].
    destruct (reject _ _ _ _ _) as [[v1 r1]|] eqn:R; [|discriminate]. intros [= <- <-].
    eapply steps_trans; [eapply Hn; eauto|eapply reject_steps; eauto].
Qed.
Lemma intn_steps fuel n s v r : intn fuel n s = Some (v, r) -> steps s r.
Proof.
  unfold intn. destruct (n <=? 0)%Z; [intros [= <- <-]; apply steps_refl|].
  destruct (rand_intn fuel (Z.to_N n) s) as [[v0 r0]|] eqn:E; [|discriminate]. intros [= <- <-].
  unfold rand_intn in E. rewrite int31n_randn, int63n_randn in E.
  destruct (Z.to_N n <=? 2147483647); eapply randn_steps; [apply int31_steps| |apply int63_steps|]; eauto.
Qed.
Lemma perm_loop_steps fuel todo : forall i m s l r, perm_loop fuel todo i m s = Some (l, r) -> steps s r /\ length l = length m.
Proof.
  induction todo as [|k IH]; intros i m s l r; cbn [perm_loop].
  - intros [= <- <-]. split; [apply steps_refl|reflexivity].
  - destruct (intn fuel (Z.of_nat (S i)) s) as [[j r0]|] eqn:E; [|discriminate]. intros H.
    apply IH in H. destruct H as [H1 H2]. rewrite !set_nth_length in H2.
    split; [eapply steps_trans; [eapply intn_steps; eauto|exact H1]|exact H2].
Qed.
Lemma perm_steps fuel n s l r : perm fuel n s = Some (l, r) -> steps s r /\ length l = n.
Proof. intros H. apply perm_loop_steps in H. rewrite repeat_length in H. exact H. Qed.

Lemma lemire_loop_spec fuel n thresh : forall prod s p r,
  prod < two32 * n -> lemire_loop fuel n thresh prod s = Some (p, r) -> steps s r /\ p < two32 * n.
Proof.
  induction fuel as [|k IH]; intros prod s p r Hp; cbn [lemire_loop].
  - destruct (prod mod two32 <? thresh); [discriminate|]. intros [= <- <-]. split; [apply steps_refl|exact Hp].
  - destruct (prod mod two32 <? thresh).
    + destruct (uint32 s) as [[v r0]|] eqn:E; [|discriminate]. intros H.
      assert (Hv := uint32_lt _ _ _ E).
      destruct (N.eq_dec n 0) as [->|Hn]; [lia|].
      apply IH in H; [|nia]. destruct H as [H1 H2]. split; [|exact H2].
      eapply steps_trans; [eapply uint32_steps; eauto|exact H1].
    + intros [= <- <-]. split; [apply steps_refl|exact Hp].
Qed.
Lemma shiftr32_lt p n : p < two32 * n -> N.shiftr p 32 < n.
Proof.
  intros H. rewrite N.shiftr_div_pow2. change (2 ^ 32) with two32.
  apply N.div_lt_upper_bound; [discriminate|exact H].
Qed.
Local Opaque N.shiftr.
Lemma int31n_l_spec fuel n s v r : 0 < n -> int31n_l fuel n s = Some (v, r) -> steps s r /\ v < n.
Proof.
  intros Hn. unfold int31n_l. destruct (uint32 s) as [[u r0]|] eqn:E; [|discriminate].
  assert (Hu := uint32_lt _ _ _ E). assert (Hp : u * n < two32 * n) by nia.
  destruct (_ <? n).
  - destruct (lemire_loop _ _ _ _ _) as [[p r1]|] eqn:L; [|discriminate]. intros [= <- <-].
    apply lemire_loop_spec in L; [|exact Hp]. destruct L as [L1 L2]. split; [|apply shiftr32_lt; exact L2].
    eapply steps_trans; [eapply uint32_steps; eauto|exact L1].
  - intros [= <- <-]. split; [eapply uint32_steps; eauto|apply shiftr32_lt; exact Hp].
Qed.

Local Transparent N.shiftr.

Lemma shuffle_loop_spec {A} (d : A) fuel : forall i l s l' r, (i < length l)%nat \/ (i = 0)%nat ->
  shuffle_loop d fuel i l s = Some (l', r) -> steps s r /\ Permutation l l'.
Proof.
  induction i as [|k IH]; intros l s l' r Hi; cbn [shuffle_loop].
  - intros [= <- <-]. split; [apply steps_refl|apply Permutation_refl].
  - destruct (int31n_l fuel (N.of_nat (S (S k))) s) as [[j r0]|] eqn:E; [|discriminate]. intros H.
    apply int31n_l_spec in E; [|lia]. destruct E as [E1 E2].
    apply IH in H; [|rewrite swap_length; lia]. destruct H as [H1 H2]. split.
    + eapply steps_trans; eauto.
    + eapply Permutation_trans; [|exact H2]. apply swap_perm; lia.
Qed.
Lemma shuffle_spec {A} (d : A) fuel l s l' r : shuffle d fuel l s = Some (l', r) -> steps s r /\ Permutation l l'.
Proof. unfold shuffle. apply shuffle_loop_spec. destruct l; cbn [length]; lia. Qed.

Inductive subseq {A} : list A -> list A -> Prop :=
| sub_nil : subseq [] []
| sub_keep x a b : subseq a b -> subseq (x :: a) (x :: b)
| sub_drop x a b : subseq a b -> subseq a (x :: b).
Lemma subseq_refl {A} (l : list A) : subseq l l.
Proof. induction l; constructor; auto. Qed.
Lemma subseq_nil {A} (l : list A) : subseq [] l.
Proof. induction l; constructor; auto. Qed.
Lemma subseq_Forall {A} (P : A -> Prop) a b : subseq a b -> Forall P b -> Forall P a.
Proof. induction 1 as [|x a b Hs IH|x a b Hs IH]; intros HF; auto; inversion HF; subst; auto. Qed.
Lemma subseq_In {A} (a b : list A) x : subseq a b -> In x a -> In x b.
Proof. induction 1 as [|y a b Hs IH|y a b Hs IH]; cbn [In]; intuition. Qed.
Lemma subseq_app_inv {A} (l b c : list A) : subseq l (b ++ c) -> exists l1 l2, l = l1 ++ l2 /\ subseq l1 b /\ subseq l2 c.
Proof.
  revert l. induction b as [|x b IH]; intros l H; cbn [app] in H.
  - exists [], l. repeat split; [constructor|exact H].
  - inversion H as [|y a0 b0 H1|y a0 b0 H1]; subst.
    + destruct (IH _ H1) as (l1 & l2 & -> & S1 & S2). exists (x :: l1), l2. repeat split; [constructor; auto|auto].
    + destruct (IH _ H1) as (l1 & l2 & -> & S1 & S2). exists l1, l2. repeat split; [constructor; auto|auto].
Qed.
Lemma filter_subseq {A} (f : A -> bool) l : subseq (filter f l) l.
Proof. induction l as [|x l IH]; cbn [filter]; [constructor|]. destruct (f x); constructor; auto. Qed.
Lemma subseq_trans {A} (a b c : list A) : subseq a b -> subseq b c -> subseq a c.
Proof.
  intros H1 H2. revert a H1. induction H2; intros a0 H1; auto.
  - inversion H1; subst; constructor; auto.
  - constructor; auto.
Qed.

Lemma insert_perm x l : Permutation (x :: l) (insert x l).
Proof.
  induction l as [|y t IH]; cbn [insert]; [apply Permutation_refl|].
  destruct (less y x); [|apply Permutation_refl].
  eapply Permutation_trans; [apply perm_swap|]. apply perm_skip. exact IH.
Qed.
Lemma isort_perm l : Permutation l (isort l).
Proof.
  induction l as [|x t IH]; cbn [isort]; [constructor|].
  eapply Permutation_trans; [apply perm_skip; exact IH|apply insert_perm].
Qed.
(* what a correct sort guarantees about its output: for i < j, not Less(j, i) *)
Definition sorted_by_less (l : list scipher) : Prop := StronglySorted (fun a b => less b a = false) l.
Lemma less_asym a b : less a b = true -> less b a = false.
Proof. unfold less. destruct (sc_obsolete a), (sc_obsolete b); cbn; try discriminate; auto; lia. Qed.
Lemma nless_trans a b c : less b a = false -> less c b = false -> less c a = false.
Proof. unfold less. destruct (sc_obsolete a), (sc_obsolete b), (sc_obsolete c); cbn; try discriminate; auto; lia. Qed.
Lemma insert_sorted_less x l : sorted_by_less l -> sorted_by_less (insert x l).
Proof.
  unfold sorted_by_less. induction 1 as [|y t Hs IH Hf]; cbn [insert]; [repeat constructor|].
  destruct (less y x) eqn:L.
  - constructor; [exact IH|]. apply Forall_forall. intros z Hz. apply (Permutation_in _ (Permutation_sym (insert_perm x t))) in Hz. destruct Hz as [<-|Hz].
    + apply less_asym. exact L.
    + rewrite Forall_forall in Hf. auto.
  - constructor; [constructor; auto|]. constructor; [exact L|].
    apply Forall_forall. intros z Hz. rewrite Forall_forall in Hf. eapply nless_trans; [exact L|auto].
Qed.
Lemma isort_sorted_less l : sorted_by_less (isort l).
Proof. induction l; cbn [isort]; [constructor|apply insert_sorted_less; auto]. Qed.
Lemma sorted_split l : sorted_by_less l ->
  exists b c, l = b ++ c /\ Forall (fun x => sc_obsolete x = false) b /\ Forall (fun x => sc_obsolete x = true) c.
Proof.
  induction 1 as [|h t Hs IH Hf]; [exists [], []; repeat split; constructor|].
  destruct (sc_obsolete h) eqn:O.
  - exists [], (h :: t). repeat split; [constructor|]. constructor; [exact O|].
    eapply Forall_impl; [|exact Hf]. intros y. unfold less. rewrite O. destruct (sc_obsolete y); [reflexivity|discriminate].
  - destruct IH as (b & c & -> & Hb & Hc). exists (h :: b), c. repeat split; [constructor; auto|auto].
Qed.
Definition ieee_laws (rnd : Q -> Q) : Prop :=
  (forall x y, (x <= y)%Q -> (rnd x <= rnd y)%Q) /\ (rnd 0 == 0)%Q /\ (rnd 1 == 1)%Q /\
  (rnd (inject_Z 9223372036854775808) == inject_Z 9223372036854775808)%Q /\
  (rnd (1 / inject_Z 9223372036854775808) == 1 / inject_Z 9223372036854775808)%Q /\
  (forall x y, (x == y)%Q -> (rnd x == rnd y)%Q).

Section WithRnd.
  Variable rnd : Q -> Q.
  Hypothesis rnd_mono : forall x y, (x <= y)%Q -> (rnd x <= rnd y)%Q.
  Hypothesis rnd_1 : (rnd 1 == 1)%Q.
  Hypothesis rnd_two63 : (rnd (inject_Z 9223372036854775808) == inject_Z 9223372036854775808)%Q.

  Definition Flip (st : stream) (w : fw) (b : bool) : Prop :=
    exists i r, int63 st = Some (i, r) /\ b = flip_with rnd w i.
  Definition FlipIn (s : stream) (w : fw) (b : bool) : Prop := exists st, steps s st /\ Flip st w b.

  Definition w_le0 (w : fw) : Prop := match w with WFin q => (q <= 0)%Q | WInf neg => neg = true | WNaN => False end.
  Definition w_ge1 (w : fw) : Prop := match w with WFin q => (1 <= q)%Q | WInf neg => neg = false | WNaN => False end.
  (* no 63-bit draw of the stream is zero (each has probability 2^-63) *)
  Definition nz (s : stream) : Prop := forall st i r, steps s st -> int63 st = Some (i, r) -> i <> 0.

  Lemma FlipIn_le0 s w b : FlipIn s w b -> w_le0 w -> b = false.
  (* the hypotheses are named: [eauto] must not decide which of them the closed statement takes *)
  Proof using rnd_mono rnd_1 rnd_two63.
    intros (st & _ & i & r & E & ->) Hw. eapply flip_le0; eauto. eapply int63_lt; eauto.
  Qed.
  Lemma FlipIn_steps s s' w b : steps s s' -> FlipIn s' w b -> FlipIn s w b.
  Proof. intros H (st & H1 & F). exists st. split; [eapply steps_trans; eauto|exact F]. Qed.

  Definition row_in (tb : table) (t12 : bool) (c : N) : Prop := In {| sr_id := c; sr_tls12 := t12 |} (t_suites tb).
End WithRnd.

Lemma FlipIn_false rnd s w b : ieee_laws rnd -> FlipIn rnd s w b -> w_le0 w -> b = false.
Proof. intros (A & _ & C & D & _). exact (FlipIn_le0 rnd A C D s w b). Qed.
Lemma FlipIn_true rnd s w b : ieee_laws rnd -> FlipIn rnd s w b -> w_ge1 w -> nz s -> b = true.
Proof.
  intros (A & B & C & _ & E & F) (st & Hs & i & r & Ei & ->) Hw Hz. rewrite (flip_ge1 rnd A B C E F) by exact Hw.
  specialize (Hz st i r Hs Ei). destruct (N.eqb_spec i 0); [contradiction|reflexivity].
Qed.

(* Postconditions speak of the root stream s0 ([FlipIn rnd s0]), not of the stream at the call, so they
   survive the binds that follow. *)
Definition sound {A} (s0 : stream) (m : M A) (P : A -> Prop) : Prop :=
  forall s a s', steps s0 s -> m s = Ok (a, s') -> steps s0 s' /\ P a.

Lemma sound_bind {A B} s0 (m : M A) (k : A -> M B) P Q :
  sound s0 m P -> (forall a, P a -> sound s0 (k a) Q) -> sound s0 (bindM m k) Q.
Proof.
  intros Hm Hk s b s' S H. apply bindM_Ok in H. destruct H as (a & s1 & H1 & H2).
  destruct (Hm _ _ _ S H1) as [S1 Pa]. exact (Hk a Pa _ _ _ S1 H2).
Qed.
Lemma sound_ret {A} s0 (a : A) (P : A -> Prop) : P a -> sound s0 (ret a) P.
Proof. intros Pa s b s' S H. apply ret_Ok in H. injection H as <- <-. auto. Qed.
Lemma sound_weaken {A} s0 (m : M A) (P Q : A -> Prop) : sound s0 m P -> (forall a, P a -> Q a) -> sound s0 m Q.
Proof. intros Hm HPQ s a s' S H. destruct (Hm _ _ _ S H). auto. Qed.
Lemma sound_if {A} s0 (c : bool) (m1 m2 : M A) P :
  (c = true -> sound s0 m1 P) -> (c = false -> sound s0 m2 P) -> sound s0 (if c then m1 else m2) P.
Proof. destruct c; auto. Qed.
Lemma sound_liftO {A} s0 (f : stream -> option (A * stream)) (P : A -> Prop) :
  (forall s a r, f s = Some (a, r) -> steps s r /\ P a) -> sound s0 (liftO f) P.
Proof. intros Hf s a s' S H. apply liftO_Ok, Hf in H. destruct H as [S1 Pa]. split; [eapply steps_trans; eauto|exact Pa]. Qed.

Lemma sound_flip rnd s0 w : sound s0 (flipM rnd w) (FlipIn rnd s0 w).
Proof.
  intros s b s' S H. unfold flipM in H. apply liftO_Ok in H. destruct (int63 s) as [[i r]|] eqn:E; [|discriminate]. injection H as <- <-.
  split; [eapply steps_trans; [exact S|eapply int63_steps; eauto]|exists s; split; [exact S|exists i, r; auto]].
Qed.
(* u_parrots.go:3141: the ALPS coin is the first draw of a second PRNG; the main stream does not move *)
Lemma sound_salted {A} rnd s0 salted w (f : bool -> A) :
  sound s0 (fun s => match flipM rnd w salted with Ok (a, _) => Ok (f a, s) | Err c => Err c | Panic c => Panic c end)
        (fun x => exists a, x = f a /\ FlipIn rnd salted w a).
Proof.
  intros s x s' S H. destruct (flipM rnd w salted) as [[a r]|c|c] eqn:E; try discriminate H. injection H as <- <-.
  apply (sound_flip rnd salted w _ _ _ (steps_refl _)) in E. split; [exact S|exists a; split; [reflexivity|apply E]].
Qed.
Lemma sound_shuffle {A} fuel s0 (d : A) l : sound s0 (shuffleM fuel d l) (Permutation l).
Proof. apply sound_liftO, shuffle_spec. Qed.
Lemma sound_intn fuel s0 n : (0 < n)%Z -> sound s0 (intnM fuel n) (fun k => (0 <= k < n)%Z).
Proof.
  intros Hn. apply sound_liftO. intros s k r H. split; [eapply intn_steps; eauto|apply intn_spec in H; tauto].
Qed.

Tactic Notation "step" uconstr(L) := eapply sound_bind; [eapply L|].

Lemma ovf_le0 q : (q <= 0)%Q -> w_le0 (ovf q).
Proof.
  intros H. unfold ovf. destruct (Qlt_le_dec q two1024) as [H1|H1].
  - destruct (Qlt_le_dec (- two1024) q); cbn [w_le0]; auto.
  - exfalso. assert (0 < two1024)%Q by reflexivity. lra.
Qed.
Lemma removal_weight_le0 rnd w (i : N) flen : ieee_laws rnd -> w_le0 w -> (0 < flen)%Q ->
  w_le0 (fdiv_pos rnd (fmul_pos rnd w (inject_Z (Z.of_N i))) flen).
Proof.
  intros (rnd_mono & rnd_0 & _) Hw Hl. destruct w as [|neg|q]; cbn [w_le0 fmul_pos fdiv_pos] in *; auto.
  assert (Hi : (0 <= inject_Z (Z.of_N i))%Q) by (change 0%Q with (inject_Z 0); rewrite <- Zle_Qle; lia).
  assert (Hp : (rnd (q * inject_Z (Z.of_N i)) <= 0)%Q).
  { rewrite <- rnd_0. apply rnd_mono. nra. }
  pose proof (ovf_le0 _ Hp) as Ho. destruct (ovf _) as [|neg|q']; cbn [w_le0 fdiv_pos] in *; auto.
  rewrite <- rnd_0. apply rnd_mono. apply Qle_shift_div_r; [exact Hl|]. lra.
Qed.

Lemma rm_loop_spec rnd w flen s0 : forall rest i,
  sound s0 (rm_loop rnd w flen i rest)
        (fun out => subseq out rest /\ (ieee_laws rnd -> w_le0 w -> (0 < flen)%Q -> out = rest)).
Proof.
  induction rest as [|x t IH]; intros i; cbn [rm_loop].
  - apply sound_ret. split; [constructor|reflexivity].
  - step sound_flip. intros [|] F.
    + eapply sound_weaken; [apply IH|]. intros r [Sub _]. split; [constructor; exact Sub|].
      intros L Hw Hl. discriminate (FlipIn_false _ _ _ _ L F (removal_weight_le0 _ _ _ _ L Hw Hl)).
    + step IH. intros r [Sub Eq]. apply sound_ret. split; [constructor; exact Sub|]. intros L Hw Hl. f_equal. auto.
Qed.

Definition removed rnd (w : fw) (s0 out : list N) : Prop :=
  subseq out s0 /\ (ieee_laws rnd -> w_le0 w -> out = s0) /\ match s0 with x :: _ => exists t, out = x :: t | [] => out = [] end.
Lemma removeRandomCiphers_spec rnd s0 w st : sound st (removeRandomCiphers rnd s0 w) (removed rnd w s0).
Proof.
  unfold removeRandomCiphers, removed. destruct s0 as [|x [|y t]].
  - apply sound_ret. repeat split; constructor.
  - apply sound_ret. repeat split; [apply subseq_refl|eauto].
  - step rm_loop_spec. intros r [Sub Eq]. apply sound_ret. repeat split; [constructor; exact Sub| |eauto].
    intros L Hw. f_equal. apply Eq; [exact L|exact Hw|]. cbn [length]. change 0%Q with (inject_Z 0). rewrite <- Zlt_Qlt. lia.
Qed.

Lemma map_combine_fst {A B C} (f : A -> C) (a : list A) : forall (b : list B), (length a <= length b)%nat ->
  map (fun x : A * B => f (fst x)) (combine a b) = map f a.
Proof.
  induction a as [|x a IH]; intros [|y b] Hl; cbn [combine map length] in *; try reflexivity; try lia.
  f_equal. apply IH. lia.
Qed.
Definition shuffled (tb : table) (out : list N) : Prop :=
  Permutation out (map sr_id (t_suites tb)) /\
  exists b c, out = b ++ c /\ Forall (row_in tb true) b /\ Forall (row_in tb false) c.
Lemma shuffledCiphers_spec fuel tb s0 : sound s0 (shuffledCiphers fuel tb) (shuffled tb).
Proof.
  unfold shuffledCiphers. eapply sound_bind; [apply sound_liftO, perm_steps|]. intros pm Hl. cbv beta in Hl. apply sound_ret.
  set (cs := map _ (combine (t_suites tb) pm)). split.
  - eapply Permutation_trans; [apply Permutation_map, Permutation_sym, isort_perm|]. subst cs. rewrite map_map.
    rewrite <- (map_combine_fst sr_id (t_suites tb) pm) by lia. erewrite map_ext; [apply Permutation_refl|]. intros [row tag]. reflexivity.
  - destruct (sorted_split _ (isort_sorted_less cs)) as (b & c & E & Hb & Hc).
    assert (Hin : forall x, In x (isort cs) -> row_in tb (negb (sc_obsolete x)) (sc_suite x)).
    { intros x Hx. apply (Permutation_in _ (Permutation_sym (isort_perm cs))) in Hx. subst cs. apply in_map_iff in Hx. destruct Hx as ([row tag] & <- & Hx).
      apply in_combine_l in Hx. cbn [sc_obsolete sc_suite]. rewrite negb_involutive. unfold row_in. destruct row; exact Hx. }
    exists (map sc_suite b), (map sc_suite c). rewrite E, map_app. split; [reflexivity|].
    rewrite E in Hin. split; apply Forall_forall; intros y Hy; apply in_map_iff in Hy; destruct Hy as (x & <- & Hx).
    + rewrite Forall_forall in Hb. specialize (Hin x (in_or_app _ _ _ (or_introl Hx))). rewrite (Hb x Hx) in Hin. exact Hin.
    + rewrite Forall_forall in Hc. specialize (Hin x (in_or_app _ _ _ (or_intror Hx))). rewrite (Hc x Hx) in Hin. exact Hin.
Qed.

(* generateRandomizedSpec as an explicit function of what it drew: [draws] names every random choice of one run (coin outcomes in source order, the permutations
   and the two lists that come from loops); [spec_of] is the ClientHelloSpec built from them, and
   [draws_ok] says where each choice came from. A coin that a run does not flip is unconstrained. *)
Definition vmax_of (b13 : bool) : N := if b13 then VersionTLS13 else VersionTLS12.
Lemma vmax_is13 b : (vmax_of b =? VersionTLS13) = b.
Proof. destruct b; reflexivity. Qed.
Definition vmin_of (b13 : bool) (k : Z) : N := if b13 then nth (Z.to_nat k) [VersionTLS10; VersionTLS12] 0 else VersionTLS10.
Definition suites_of (b13 : bool) (t13 su : list N) : list N := if b13 then removeRC4Ciphers (t13 ++ su) else su.
Definition sig_fixed : list N :=
  [ECDSAWithP256AndSHA256; PKCS1WithSHA256; ECDSAWithP384AndSHA384; PKCS1WithSHA384; PKCS1WithSHA1; PKCS1WithSHA512].
Definition sig_base (b1 b2 pss b4 : bool) : list N :=
  sig_fixed ++ opt b1 ECDSAWithSHA1 ++ opt b2 ECDSAWithP521AndSHA512
  ++ (if pss then PSSWithSHA256 :: (if b4 then [PSSWithSHA384; PSSWithSHA512] else []) else []).
Definition curves (c1 c2 c3 b13 : bool) : list N :=
  opt (c1 && b13) X25519MLKEM768 ++ opt (c2 || b13) X25519 ++ [CurveP256; CurveP384] ++ opt c3 CurveP521.
Definition shares (k1 k2 k3 : bool) : list N :=
  if k1 then [CurveP256] else opt k3 X25519MLKEM768 ++ [X25519] ++ opt k2 CurveP256.
Definition ks_tail (b13 alpn : bool) (vmin : N) (sh : list N) (al : bool) : list ext :=
  opt b13 (EKeyShare sh) ++ opt b13 (EPSKModes [pskModeDHE])
  ++ opt b13 (ESupportedVersions (makeSupportedVersions vmin (vmax_of b13))) ++ opt (b13 && (alpn && al)) (EALPS [proto_h2]).

Record draws := {
  d_alpn : bool; d_suites : list N; d_13 : bool; d_k : Z; d_t13 : list N; d_ciphers : list N;
  d_sha1 : bool; d_p521sig : bool; d_pss256 : bool; d_pss384 : bool; d_sigalgs : list N;
  d_mlkem : bool; d_x25519 : bool; d_p521 : bool;
  d_pad : bool; d_status : bool; d_sct : bool; d_reneg : bool; d_ems : bool;
  d_ksp256 : bool; d_ksextra : bool; d_ksmlkem : bool; d_alps : bool; d_exts : list ext }.

Section Spec.
  Variables (sn : bytes) (np : list bytes) (d : draws).
  Definition d_min : N := vmin_of (d_13 d) (d_k d).
  Definition pss_on : bool := d_pss256 d || d_13 d.
  Definition d_sig_base : list N := sig_base (d_sha1 d) (d_p521sig d) pss_on (d_pss384 d).
  Definition d_curves : list N := curves (d_mlkem d) (d_x25519 d) (d_p521 d) (d_13 d).
  Definition d_shares : list N := shares (d_ksp256 d) (d_ksextra d) (d_ksmlkem d).
  Definition protos : list bytes := match np with [] => [proto_h2; proto_http11] | _ => np end.
  Definition exts_base : list ext :=
    [ESNI sn; ESessionTicket; ESigAlgs (d_sigalgs d); EPoints [pointFormatUncompressed]; ECurves d_curves]
    ++ opt (d_alpn d) (EALPN protos) ++ opt (d_pad d || d_13 d) EPadding ++ opt (d_status d) EStatus
    ++ opt (d_sct d) ESCT ++ opt (d_reneg d) (EReneg RenegotiateOnceAsClient) ++ opt (d_ems d) EEMS
    ++ ks_tail (d_13 d) (d_alpn d) d_min d_shares (d_alps d).
  Definition spec_of : spec :=
    {| sp_min := d_min; sp_max := vmax_of (d_13 d); sp_ciphers := d_ciphers d; sp_exts := d_exts d |}.
End Spec.

Section Generate.
  Context {rnd : Q -> Q} {fuel : nat} {tb : table} {v : variant} {w : weights} {sn : bytes} {np : list bytes} {s salted : stream}.

  Record draws_ok (d : draws) : Prop := {
    ok_alpn : match v with VALPN => d_alpn d = true | VNoALPN => d_alpn d = false | _ => FlipIn rnd s (w_alpn w) (d_alpn d) end;
    ok_suites : shuffled tb (d_suites d);
    ok_13 : FlipIn rnd s (w_tls13 w) (d_13 d);
    ok_k : (0 <= d_k d < 2)%Z;
    ok_t13 : Permutation (t_tls13 tb) (d_t13 d);
    ok_ciphers : removed rnd (w_rmciphers w) (suites_of (d_13 d) (d_t13 d) (d_suites d)) (d_ciphers d);
    ok_sha1 : FlipIn rnd s (w_ecdsa_sha1 w) (d_sha1 d);
    ok_p521sig : FlipIn rnd s (w_p521_sha512 w) (d_p521sig d);
    ok_pss256 : FlipIn rnd s (w_pss256 w) (d_pss256 d);
    ok_pss384 : pss_on d = true -> FlipIn rnd s (w_pss384_512 w) (d_pss384 d);
    ok_sigalgs : Permutation (d_sig_base d) (d_sigalgs d);
    ok_mlkem : FlipIn rnd s (w_x25519 w) (d_mlkem d);
    ok_x25519 : FlipIn rnd s (w_x25519 w) (d_x25519 d);
    ok_p521 : FlipIn rnd s (w_p521 w) (d_p521 d);
    ok_pad : FlipIn rnd s (w_padding w) (d_pad d);
    ok_status : FlipIn rnd s (w_status w) (d_status d);
    ok_sct : FlipIn rnd s (w_sct w) (d_sct d);
    ok_reneg : FlipIn rnd s (w_reneg w) (d_reneg d);
    ok_ems : FlipIn rnd s (w_ems w) (d_ems d);
    ok_ksp256 : d_13 d = true -> FlipIn rnd s (w_ks_p256 w) (d_ksp256 d);
    ok_ksextra : d_13 d = true -> d_ksp256 d = false -> FlipIn rnd s (w_ks_random w) (d_ksextra d);
    ok_ksmlkem : d_13 d = true -> d_ksp256 d = false -> FlipIn rnd s (w_ks_random w) (d_ksmlkem d);
    ok_alps : d_13 d = true -> d_alpn d = true -> FlipIn rnd salted (w_alps w) (d_alps d);
    ok_exts : Permutation (exts_base sn np d) (d_exts d) }.

  (* One pass over the bind chain. Each branching stage is closed with a postcondition that has the
     same shape in both branches, so the cases do not multiply. *)
  Theorem generate_inv p : generate rnd fuel tb v w sn np s salted = Ok p ->
    exists d, p = spec_of d /\ draws_ok d.
  Proof.
    intros H. unfold generate in H. set (body := bindM _ _) in H.
    assert (B : sound s body (fun p => exists d, p = spec_of d /\ draws_ok d)).
    { subst body.
      eapply sound_bind.
      { instantiate (1 := fun a => match v with VALPN => a = true | VNoALPN => a = false | _ => FlipIn rnd s (w_alpn w) a end).
        destruct v; first [apply sound_flip | apply sound_ret; reflexivity]. }
      intros a Ha.
      step shuffledCiphers_spec. intros su Hsu.
      step sound_flip. intros b13 H13.
      eapply sound_bind. (* 2995-3013: versions, TLS 1.3 suites *)
      { apply sound_if with (P := fun x => exists k t13, x = (vmin_of b13 k, vmax_of b13, suites_of b13 t13 su) /\
                                          (0 <= k < 2)%Z /\ Permutation (t_tls13 tb) t13); intros ->.
        - step sound_intn. { reflexivity. } intros k Hk. step sound_shuffle. intros t13 Ht.
          apply sound_ret. exists k, t13. auto.
        - apply sound_ret. exists 0%Z, (t_tls13 tb). split; [reflexivity|]. split; [lia|apply Permutation_refl]. }
      intros ? (k & t13 & -> & Hk & Ht). cbv beta iota. rewrite !vmax_is13.
      step removeRandomCiphers_spec. intros ci Hci.
      step sound_flip. intros b1 Hb1. step sound_flip. intros b2 Hb2. step sound_flip. intros b3 Hb3.
      eapply sound_bind. (* 3035-3048: the RSA-PSS algorithms *)
      { apply sound_if with (P := fun x => exists b4, x = sig_base b1 b2 (b3 || b13) b4 /\
                                          (b3 || b13 = true -> FlipIn rnd s (w_pss384_512 w) b4)); intros E.
        - step sound_flip. intros b4 Hb4. apply sound_ret. exists b4. rewrite E. auto.
        - apply sound_ret. exists false. rewrite E. split; [unfold sig_base; rewrite !app_nil_r; reflexivity|discriminate]. }
      intros ? (b4 & -> & Hb4).
      step sound_shuffle. intros sg Hsg.
      step sound_flip. intros c1 Hc1. step sound_flip. intros c2 Hc2. step sound_flip. intros c3 Hc3.
      step sound_flip. intros e1 He1. step sound_flip. intros e2 He2. step sound_flip. intros e3 He3.
      step sound_flip. intros e4 He4. step sound_flip. intros e5 He5.
      eapply sound_bind. (* 3106-3151: key shares, psk modes, supported_versions, ALPS; e is the extension list so far *)
      { match goal with |- sound _ (if _ then _ else ret ?e) _ =>
          apply sound_if with (P := fun x => exists k1 k2 k3 al, x = e ++ ks_tail b13 a (vmin_of b13 k) (shares k1 k2 k3) al /\
            (b13 = true -> FlipIn rnd s (w_ks_p256 w) k1) /\
            (b13 = true -> k1 = false -> FlipIn rnd s (w_ks_random w) k2 /\ FlipIn rnd s (w_ks_random w) k3) /\
            (b13 = true -> a = true -> FlipIn rnd salted (w_alps w) al)) end; intros ->.
        - step sound_flip. intros k1 Hk1.
          eapply sound_bind.
          { apply sound_if with (P := fun x => exists k2 k3, x = shares k1 k2 k3 /\
              (k1 = false -> FlipIn rnd s (w_ks_random w) k2 /\ FlipIn rnd s (w_ks_random w) k3)); intros ->.
            - apply sound_ret. exists false, false. split; [reflexivity|discriminate].
            - step sound_flip. intros k2 Hk2. step sound_flip. intros k3 Hk3. apply sound_ret. exists k2, k3. auto. }
          intros ? (k2 & k3 & -> & Hk23). cbv zeta.
          destruct a.
          + eapply sound_weaken; [apply sound_salted|]. cbv beta.
            intros ? (al & -> & Hal). exists k1, k2, k3, al. rewrite <- app_assoc. auto.
          + apply sound_ret. exists k1, k2, k3, false. split; [reflexivity|]. split; [auto|]. split; [auto|easy].
        - apply sound_ret. exists false, false, false, false. split; [symmetry; apply app_nil_r|]. repeat split; easy. }
      intros ? (k1 & k2 & k3 & al & -> & Hk1 & Hk23 & Hal).
      step sound_shuffle. intros ex Hex.
      apply sound_ret.
      exists {| d_alpn := a; d_suites := su; d_13 := b13; d_k := k; d_t13 := t13; d_ciphers := ci;
                d_sha1 := b1; d_p521sig := b2; d_pss256 := b3; d_pss384 := b4; d_sigalgs := sg;
                d_mlkem := c1; d_x25519 := c2; d_p521 := c3;
                d_pad := e1; d_status := e2; d_sct := e3; d_reneg := e4; d_ems := e5;
                d_ksp256 := k1; d_ksextra := k2; d_ksmlkem := k3; d_alps := al; d_exts := ex |}.
      split; [reflexivity|].
      rewrite <- !app_assoc in Hex. (* each field of draws_ok is one of the hypotheses *)
      constructor; cbn; auto; intros; apply Hk23; auto. }
    destruct v; try discriminate H; destruct (body s) as [[p0 s1]|c|c] eqn:E; try discriminate H;
      injection H as <-; exact (proj2 (B _ _ _ (steps_refl s) E)).
  Qed.
End Generate.
Arguments draws_ok : clear implicits.

Lemma in_opt {A} (b : bool) (x y : A) : In y (opt b x) <-> b = true /\ y = x.
Proof. destruct b; cbn [opt In]; intuition congruence. Qed.
Lemma perm_in {A} (a b : list A) x : Permutation a b -> (In x b <-> In x a).
Proof. intros P. split; apply Permutation_in; [apply Permutation_sym|]; exact P. Qed.

Lemma in_sig_base x b1 b2 pss b4 : In x (sig_base b1 b2 pss b4) <->
  In x sig_fixed \/ (b1 = true /\ x = ECDSAWithSHA1) \/ (b2 = true /\ x = ECDSAWithP521AndSHA512)
  \/ (pss = true /\ (x = PSSWithSHA256 \/ (b4 = true /\ (x = PSSWithSHA384 \/ x = PSSWithSHA512)))).
Proof. unfold sig_base. rewrite !in_app_iff, !in_opt. destruct pss, b4; cbn [In]; intuition congruence. Qed.
Lemma in_curves x c1 c2 c3 b13 : In x (curves c1 c2 c3 b13) <->
  (c1 && b13 = true /\ x = X25519MLKEM768) \/ (c2 || b13 = true /\ x = X25519) \/ x = CurveP256 \/ x = CurveP384
  \/ (c3 = true /\ x = CurveP521).
Proof. unfold curves. rewrite !in_app_iff, !in_opt. cbn [In]. intuition congruence. Qed.
Lemma in_shares x k1 k2 k3 : In x (shares k1 k2 k3) <->
  if k1 then x = CurveP256 else (k3 = true /\ x = X25519MLKEM768) \/ x = X25519 \/ (k2 = true /\ x = CurveP256).
Proof. unfold shares. destruct k1; [|rewrite !in_app_iff, !in_opt]; cbn [In]; intuition congruence. Qed.

Section Features.
  Context {rnd : Q -> Q} {tb : table} {v : variant} {w : weights} {sn : bytes} {np : list bytes} {s salted : stream}.
  Context {d : draws}.
  Hypothesis Hok : draws_ok rnd tb v w sn np s salted d.

  Lemma in_exts x : In x (d_exts d) <->
    match x with
    | ESNI n => n = sn | ESessionTicket => True | ESigAlgs a => a = d_sigalgs d
    | EPoints f => f = [pointFormatUncompressed] | ECurves g => g = d_curves d
    | EALPN q => d_alpn d = true /\ q = protos np | EPadding => d_pad d || d_13 d = true
    | EStatus => d_status d = true | ESCT => d_sct d = true
    | EReneg m => d_reneg d = true /\ m = RenegotiateOnceAsClient | EEMS => d_ems d = true
    | EKeyShare k => d_13 d = true /\ k = d_shares d | EPSKModes l => d_13 d = true /\ l = [pskModeDHE]
    | ESupportedVersions l => d_13 d = true /\ l = makeSupportedVersions (d_min d) (vmax_of (d_13 d))
    | EALPS q => d_13 d = true /\ d_alpn d && d_alps d = true /\ q = [proto_h2]
    end.
  Proof.
    rewrite (perm_in _ _ _ (ok_exts d Hok)). unfold exts_base, ks_tail. rewrite !in_app_iff, !in_opt, (andb_true_iff (d_13 d)).
    cbn [In]. destruct x; intuition congruence.
  Qed.
  Lemma has_alpn : (exists q, In (EALPN q) (d_exts d)) <-> d_alpn d = true.
  Proof.
    split; [intros (q & Hq); apply in_exts in Hq; tauto|intros E; exists (protos np); apply in_exts; auto].
  Qed.
  Lemma has_sig x : (exists a, In (ESigAlgs a) (d_exts d) /\ In x a) <-> In x (d_sig_base d).
  Proof.
    rewrite <- (perm_in _ _ _ (ok_sigalgs d Hok)). split.
    - intros (a & Ha & Hx). apply in_exts in Ha. subst a. exact Hx.
    - intros Hx. exists (d_sigalgs d). split; [apply in_exts; reflexivity|exact Hx].
  Qed.
  Lemma has_group x : (exists g, In (ECurves g) (d_exts d) /\ In x g) <-> In x (d_curves d).
  Proof.
    split.
    - intros (g & Hg & Hx). apply in_exts in Hg. subst g. exact Hx.
    - intros Hx. exists (d_curves d). split; [apply in_exts; reflexivity|exact Hx].
  Qed.
  Lemma has_share (P : list N -> Prop) : (exists k, In (EKeyShare k) (d_exts d) /\ P k) <-> d_13 d = true /\ P (d_shares d).
  Proof.
    split.
    - intros (k & Hk & Hx). apply in_exts in Hk. destruct Hk as [E ->]. auto.
    - intros [E Hx]. exists (d_shares d). split; [apply in_exts; auto|exact Hx].
  Qed.
End Features.

Lemma is13_true b : vmax_of b = VersionTLS13 <-> b = true.
Proof. destruct b; split; try reflexivity; discriminate. Qed.

Lemma alps_needs_alpn rnd fuel tb v w sn np s salted p q :
  generate rnd fuel tb v w sn np s salted = Ok p -> In (EALPS q) (sp_exts p) ->
  (exists q', In (EALPN q') (sp_exts p)) /\ sp_max p = VersionTLS13.
Proof.
  intros H Hin. apply generate_inv in H. destruct H as (d & -> & Hok). cbn [spec_of sp_exts sp_max] in *.
  apply (in_exts Hok) in Hin. destruct Hin as (E13 & Ea & _). apply andb_true_iff in Ea.
  split; [apply (has_alpn Hok); tauto|rewrite E13; reflexivity].
Qed.

Lemma first_suite_kept rnd s0 w s out s' x t :
  removeRandomCiphers rnd s0 w s = Ok (out, s') -> s0 = x :: t -> exists t', out = x :: t'.
Proof. intros H ->. exact (proj2 (proj2 (proj2 (removeRandomCiphers_spec rnd (x :: t) w s s out s' (steps_refl s) H)))). Qed.

Lemma removeRC4_norc4 l : Forall (fun c => is_rc4 c = false) (removeRC4Ciphers l).
Proof.
  unfold removeRC4Ciphers. apply Forall_forall. intros c Hc. apply filter_In in Hc. destruct Hc as [_ Hc].
  destruct (is_rc4 c); [discriminate|reflexivity].
Qed.

Lemma suite_order rnd fuel tb v w sn np s salted p :
  generate rnd fuel tb v w sn np s salted = Ok p ->
  exists a b c, sp_ciphers p = a ++ b ++ c /\
    Forall (fun x => In x (t_tls13 tb)) a /\ Forall (row_in tb true) b /\ Forall (row_in tb false) c /\
    (sp_max p <> VersionTLS13 -> a = []).
Proof.
  intros H. apply generate_inv in H. destruct H as (d & -> & Hok). cbn [spec_of sp_ciphers sp_max].
  destruct (ok_suites d Hok) as (_ & b & c & Esu & Hb & Hc). destruct (ok_ciphers d Hok) as (Sub & _).
  rewrite Esu in Sub. unfold suites_of in Sub. destruct (d_13 d).
  - apply (fun S => subseq_trans _ _ _ S (filter_subseq _ _)), subseq_app_inv in Sub. destruct Sub as (l1 & l23 & -> & Q1 & Q23).
    apply subseq_app_inv in Q23. destruct Q23 as (l2 & l3 & -> & Q2 & Q3).
    exists l1, l2, l3. split; [reflexivity|]. repeat split; [| eapply subseq_Forall; eauto ..|intros Hne; exfalso; apply Hne; reflexivity].
    eapply subseq_Forall; [exact Q1|]. apply Forall_forall. intros x.
    apply Permutation_in, Permutation_sym, (ok_t13 d Hok).
  - apply subseq_app_inv in Sub. destruct Sub as (l2 & l3 & -> & Q2 & Q3).
    exists [], l2, l3. split; [reflexivity|]. repeat split; [constructor|eapply subseq_Forall; eauto ..].
Qed.

Lemma tls13_rules rnd fuel tb v w sn np s salted p :
  generate rnd fuel tb v w sn np s salted = Ok p -> sp_max p = VersionTLS13 ->
  Forall (fun c => is_rc4 c = false) (sp_ciphers p) /\
  (exists algs, In (ESigAlgs algs) (sp_exts p) /\ In PSSWithSHA256 algs) /\
  In EPadding (sp_exts p) /\
  (sp_min p = VersionTLS10 \/ sp_min p = VersionTLS12) /\
  In (ESupportedVersions (makeSupportedVersions (sp_min p) (sp_max p))) (sp_exts p) /\
  (exists ks, In (EKeyShare ks) (sp_exts p)).
Proof.
  intros H Hmax. apply generate_inv in H. destruct H as (d & -> & Hok). cbn [spec_of sp_exts sp_max sp_min sp_ciphers] in *.
  apply is13_true in Hmax.
  destruct (ok_ciphers d Hok) as (Sub & _).
  pose proof (ok_k d Hok) as Hk.
  rewrite (has_sig Hok), !(in_exts Hok). cbv iota.
  unfold d_sig_base, pss_on. rewrite in_sig_base, Hmax, !orb_true_r.
  split; [eapply subseq_Forall; [exact Sub|rewrite Hmax; apply removeRC4_norc4]|]. split; [tauto|]. split; [reflexivity|].
  split; [unfold d_min; rewrite Hmax; assert (E : d_k d = 0%Z \/ d_k d = 1%Z) by lia; destruct E as [-> | ->]; auto|].
  split; [auto|]. exists (d_shares d). apply (in_exts Hok). rewrite Hmax. auto.
Qed.

(* DefaultWeights (u_common.go:698) as float64 bit patterns; the witnesses of F-09 are the first 704 bytes of
   SHAKE256 of the seeds c653211755d5ab29...6796 (keyshare) and eb1e5849c6074845...29a3 (hybrid) *)
Definition default_weights : weights :=
  Build_weights (fw_of_bits 4604480259023595110) (fw_of_bits 4600877379321698714) (fw_of_bits 4600877379321698714)
    (fw_of_bits 4603849755075763241) (fw_of_bits 4603489467105573601) (fw_of_bits 4602768891165194322)
    (fw_of_bits 4606281698874543309) (fw_of_bits 4604570331016142520) (fw_of_bits 4601958243232267633)
    (fw_of_bits 4603759683083215831) (fw_of_bits 4604840546993784750) (fw_of_bits 4601958243232267633)
    (fw_of_bits 4604930618986332160) (fw_of_bits 4605110762971426980) (fw_of_bits 0)
    (fw_of_bits 4602678819172646912) (fw_of_bits 4599616371426034975).
Definition witness_salted : stream := [1; 2; 3; 4; 5; 6; 7; 8].
Definition witness_keyshare : stream := [213;146;212;249;228;76;61;60;247;120;59;140;162;208;18;85;124;208;212;64;158;35;239;175;69;24;166;232;36;44;179;233;51;72;183;214;24;135;54;11;184;149;98;173;229;204;116;80;229;56;93;211;185;136;216;144;184;139;170;184;66;118;131;119;194;8;181;83;217;204;52;247;235;85;110;106;31;225;78;213;229;221;129;67;140;30;156;189;1;31;16;91;74;212;233;57;129;208;232;156;225;197;135;78;108;26;225;4;58;196;60;23;228;236;90;209;8;187;113;45;178;55;44;244;227;80;189;86;41;71;89;215;239;113;220;152;156;101;134;89;128;9;35;202;98;135;21;51;14;29;203;34;249;75;133;58;95;121;99;138;173;29;75;248;111;210;59;84;9;134;246;84;77;176;78;151;106;9;122;25;164;121;52;201;82;204;137;229;110;28;11;42;51;111;75;54;212;118;85;242;177;103;44;183;34;168;50;205;173;94;13;202;83;8;81;151;212;86;214;38;24;216;110;4;221;157;44;130;211;13;189;1;19;167;252;80;27;78;9;244;186;196;65;170;113;144;150;46;159;106;77;151;126;53;73;52;138;179;252;134;105;25;54;177;243;226;30;26;94;87;225;35;61;21;191;92;69;75;183;222;173;228;29;125;169;221;13;208;5;22;217;143;153;71;165;218;156;82;162;245;70;212;125;102;66;147;157;183;246;248;140;122;34;171;27;27;46;153;111;31;1;42;96;231;145;20;97;180;82;220;249;72;79;36;177;179;62;121;219;168;151;172;116;23;179;168;154;168;156;76;223;207;58;15;221;20;190;33;250;191;68;144;80;186;181;40;81;84;124;95;245;167;247;208;199;201;158;197;104;112;115;9;96;0;0;220;96;51;185;32;219;171;62;141;66;185;114;253;48;80;180;115;138;47;184;184;182;1;193;152;83;250;122;177;53;242;213;134;220;1;237;101;94;124;128;182;37;4;100;204;143;89;133;225;33;37;220;103;69;149;221;98;214;141;32;82;21;162;73;230;219;108;118;28;37;18;20;99;134;47;27;68;59;232;253;128;191;210;50;179;17;50;143;129;51;87;33;102;194;201;240;222;127;154;184;44;237;116;189;10;81;230;79;73;173;226;141;82;95;15;48;164;187;195;80;162;230;121;80;180;248;33;72;88;251;93;70;32;192;57;160;221;123;157;202;155;156;200;41;196;25;43;231;93;227;123;215;70;163;131;106;74;35;230;240;239;97;246;197;205;136;168;77;254;111;177;105;237;225;201;113;33;170;100;53;94;32;109;64;205;79;134;230;210;136;7;170;98;131;66;85;9;103;185;122;166;80;203;44;75;100;222;129;245;74;6;127;217;10;238;71;105;62;81;201;150;99;185;61;104;38;92;228;231;161;136;184;140;90;207;190;7;137;136;195;155;74;207;248;109;139;81;115;207;100;88;100;156;197;196;190;38;13;82;137;119;169;68;66;14;77;51;59;199;203;164;170;84;221;82;32;135;160;107;94;191;255;56;255;200;249;171;196;127;106;150;88;140;43;252;147;49;238;6;232;130;132;235;68;73;235;225;193;2;249;225;154;87;229;126;58;139;220;110].
Definition witness_hybrid : stream := [108;25;22;18;247;191;42;149;141;250;150;199;13;55;0;86;210;84;91;111;148;41;64;49;248;199;245;149;219;94;183;236;18;231;70;204;126;190;78;201;152;11;3;211;73;65;1;219;149;44;101;245;25;80;133;251;78;41;19;185;194;54;58;22;103;71;92;184;218;44;214;100;212;249;41;14;170;121;98;97;243;153;76;17;160;134;66;35;236;230;184;133;167;210;13;64;147;2;185;120;2;109;52;165;134;2;51;247;94;98;118;210;254;99;25;76;248;64;42;12;14;29;73;37;74;211;113;191;173;151;161;16;169;125;50;128;44;126;55;230;75;56;197;184;159;84;8;174;236;96;221;246;46;55;63;229;40;227;212;171;5;34;97;14;95;155;231;147;77;178;48;177;48;36;95;114;218;170;14;68;72;102;20;29;23;25;117;19;181;190;54;200;126;240;244;23;242;97;210;102;158;189;173;148;152;250;55;154;186;248;120;85;118;28;238;74;144;220;204;12;160;197;101;191;111;109;246;179;121;39;20;77;221;224;87;231;180;76;44;33;103;79;6;55;118;67;148;0;21;35;130;186;143;15;237;59;160;95;40;81;4;170;22;233;129;208;254;26;66;178;22;3;91;78;74;239;1;138;75;93;46;131;211;132;42;144;161;136;11;241;213;38;81;201;52;202;31;63;206;207;186;175;138;41;80;40;1;143;81;8;56;97;112;97;125;239;95;36;218;26;254;36;131;44;201;44;140;3;136;134;28;196;4;24;12;208;14;204;244;202;65;93;102;78;121;48;132;221;178;125;166;194;254;59;252;65;37;252;48;121;3;48;232;178;79;135;22;155;155;74;53;88;98;99;131;129;7;117;32;132;215;68;36;32;250;203;153;181;57;116;234;41;193;135;98;210;107;68;201;150;185;222;67;101;41;194;115;87;224;78;113;216;158;206;223;26;178;200;214;110;30;197;209;169;73;148;118;55;112;104;128;63;226;167;125;205;129;3;102;133;166;111;244;239;24;230;19;51;124;190;234;175;179;236;195;186;151;45;187;152;226;31;17;13;47;56;176;153;209;100;175;102;97;222;30;254;25;45;197;123;47;146;189;161;173;17;26;147;54;17;161;37;119;185;143;82;245;121;1;212;64;203;246;176;36;163;191;164;94;144;31;109;180;22;117;187;15;138;118;223;34;125;55;159;221;153;64;6;197;101;35;28;124;13;159;50;11;156;206;88;91;32;234;177;234;92;80;100;78;252;163;176;78;77;240;53;44;127;58;121;34;64;231;228;139;103;85;66;123;100;214;68;227;156;38;251;47;45;23;91;167;116;49;41;27;107;140;82;25;68;54;251;50;139;217;227;237;98;237;131;132;95;57;162;168;242;179;40;74;12;44;57;129;6;53;59;101;39;48;144;181;196;61;176;251;58;157;164;214;154;163;220;218;151;201;114;215;48;193;153;160;220;146;62;19;86;42;94;137;4;247;177;217;93;20;103;121;252;76;204;89;168;30;193;121;3;106;32;214;179;118;213;101;23;20;95;138;211;25;211;85;102;15;139;130;12;248;117;30;159;2;212;109;49;243;95;55;240;189;221;16;61;18;133].

(* the shares and the groups of a run: empty handed unless the spec has both extensions *)
Lemma shares_and_groups rnd fuel tb v w sn np s salted p ks gs :
  generate rnd fuel tb v w sn np s salted = Ok p -> In (EKeyShare ks) (sp_exts p) -> In (ECurves gs) (sp_exts p) ->
  exists d, draws_ok rnd tb v w sn np s salted d /\ d_13 d = true /\ ks = d_shares d /\ gs = d_curves d.
Proof.
  intros H Hk Hg. apply generate_inv in H. destruct H as (d & -> & Hok). cbn [spec_of sp_exts] in *.
  apply (in_exts Hok) in Hk, Hg. exists d. tauto.
Qed.

(* the X25519MLKEM768 share and the X25519MLKEM768 group hang on different coins (u_parrots.go:3116, 3056) *)
Lemma mlkem_share_and_group rnd fuel tb v w sn np s salted p ks gs :
  generate rnd fuel tb v w sn np s salted = Ok p -> In (EKeyShare ks) (sp_exts p) -> In (ECurves gs) (sp_exts p) ->
  exists d, draws_ok rnd tb v w sn np s salted d /\ d_13 d = true /\
    (In X25519MLKEM768 ks <-> d_ksp256 d = false /\ d_ksmlkem d = true) /\ (In X25519MLKEM768 gs <-> d_mlkem d = true).
Proof.
  intros H Hk Hg. destruct (shares_and_groups _ _ _ _ _ _ _ _ _ _ _ _ H Hk Hg) as (d & Hok & E13 & -> & ->).
  exists d. split; [exact Hok|]. split; [exact E13|]. unfold d_shares, d_curves.
  rewrite in_shares, in_curves, E13, andb_true_r. destruct (d_ksp256 d); intuition discriminate.
Qed.

Lemma keyshare_classical rnd fuel tb v w sn np s salted p ks gs :
  generate rnd fuel tb v w sn np s salted = Ok p ->
  In (EKeyShare ks) (sp_exts p) -> In (ECurves gs) (sp_exts p) ->
  forall g, In g ks -> g <> X25519MLKEM768 -> In g gs.
Proof.
  intros H Hk Hg g Hin Hne. destruct (shares_and_groups _ _ _ _ _ _ _ _ _ _ _ _ H Hk Hg) as (d & _ & E13 & -> & ->).
  unfold d_shares, d_curves in *. rewrite in_shares in Hin. rewrite in_curves, E13, orb_true_r.
  destruct (d_ksp256 d); intuition.
Qed.
