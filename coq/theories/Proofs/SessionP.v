(* The control part of Model/Session.v is finite: the control behaviour of a call depends only on (abstract world,
   kind of call, control, flags) ([run_split]). For an abstract world a search from the initial node ([found]) collects
   (legality bookkeeping, control, flags) nodes and checks by computation, at each node it expands, that no legal call
   panics and that the per-node facts hold. A search that ends with an empty worklist has found a set closed under
   every legal call ([search_closed]): an inductive invariant, which Proofs/SessionMainP.v lifts to histories of any
   length. [check_ok] runs the search for the worlds of [cworld_ok]. The data theorems follow from the provenance
   flags through [Dinv]: a datum flagged "injected" is the injected value. *)
From Coq Require Import FMapPositive.
From UV Require Import Base.Common Model.Session.

Lemma run_split {A} (w : world) (o : op) (p : prog A) : forall c g d,
  fst (fst (runF w o p c g d)) = fst (runC (kind o) p c g) /\
  snd (runF w o p c g d) = snd (runC (kind o) p c g).
Proof. induction p as [a|k IH|h q IH|a q IH|e|x]; intros c g d; cbn; auto. Qed.

Definition node := (lst * (cstate * gstate))%type.

Definition node_eq_dec : forall a b : node, {a = b} + {a <> b}.
Proof. repeat decide equality. Defined.

Definition kinds : list okind :=
  [KSetCache; KBuildNoSess; KSetTicket ANil; KSetTicket AInit; KSetTicket AUninit;
   KSetPsk ANil; KSetPsk AInit; KSetPsk AUninit; KSetState; KBuild; KHandshake;
   KReuseTicket; KReusePsk; KEdit].
Lemma kinds_complete k : In k kinds.
Proof. destruct k as [| |[]|[]| | | | | |]; cbn; auto 16. Qed.

Definition node0 (cw : cworld) : node := (linit (cw_cache0 cw), (cinit (cw_cache0 cw), ginit)).

(* Depth-first search of a graph given by a successor function; the keys of the nodes expanded so far are kept in a
   trie, and the fuel counts the nodes taken off the worklist. *)
Section Search.
  Context {A : Type} (key : A -> positive) (key_inj : forall a b, key a = key b -> a = b).
  Variable next : A -> option (list A).      (* [None]: the node fails its check *)

  Definition has (M : PositiveMap.t unit) (a : A) : Prop := PositiveMap.find (key a) M = Some tt.

  Fixpoint search (fuel : nat) (M : PositiveMap.t unit) (todo : list A) : option (PositiveMap.t unit) :=
    match todo, fuel with
    | [], _ => Some M
    | _ :: _, O => None
    | a :: rest, S f =>
        match PositiveMap.find (key a) M, next a with
        | Some _, _ => search f M rest
        | None, Some bs => search f (PositiveMap.add (key a) tt M) (bs ++ rest)
        | None, None => None
        end
    end.

  Definition closed (M : PositiveMap.t unit) (a : A) : Prop :=
    exists bs, next a = Some bs /\ forall b, In b bs -> has M b.

  Lemma has_add M k a : has M a -> has (PositiveMap.add k tt M) a.
  Proof.
    unfold has. rewrite PositiveMapAdditionalFacts.gsspec. intros H. destruct (PositiveMap.E.eq_dec (key a) k); [reflexivity | exact H].
  Qed.

  (* the successors of an expanded node are expanded or on the worklist: when that is empty the set is closed *)
  Lemma search_closed fuel : forall M todo R, search fuel M todo = Some R ->
    (forall a, has M a -> exists bs, next a = Some bs /\ forall b, In b bs -> has M b \/ In b todo) ->
    (forall a, has M a \/ In a todo -> has R a) /\ (forall a, has R a -> closed R a).
  Proof.
    induction fuel as [|f IH]; intros M [|a rest] R H Inv; cbn [search] in H; try discriminate H.
    1, 2: injection H as <-; split; [intros a [Ha|[]]; exact Ha|];
      intros a Ha; destruct (Inv a Ha) as (bs & N & C); exists bs; split; [exact N|];
      intros b I; destruct (C b I) as [Hb|[]]; exact Hb.
    destruct (PositiveMap.find (key a) M) as [[]|] eqn:F.
    - destruct (IH _ _ _ H) as [K1 K2].
      + intros x Hx. destruct (Inv x Hx) as (bs & N & C). exists bs. split; [exact N|].
        intros b I. destruct (C b I) as [Hb|[<-|Ib]]; auto.
      + split; [|exact K2]. intros x [Hx|[<-|I]]; auto.
    - destruct (next a) as [bs|] eqn:N; [|discriminate]. destruct (IH _ _ _ H) as [K1 K2].
      + intros x Hx. unfold has in Hx. rewrite PositiveMapAdditionalFacts.gsspec in Hx.
        destruct (PositiveMap.E.eq_dec (key x) (key a)) as [E|E].
        * apply key_inj in E. subst x. exists bs. split; [exact N|]. intros b I. right. apply in_or_app. auto.
        * destruct (Inv x Hx) as (cs & Nx & C). exists cs. split; [exact Nx|].
          intros b I. destruct (C b I) as [Hb|[<-|Ib]].
          -- left. apply has_add, Hb.
          -- left. apply PositiveMap.gss.
          -- right. apply in_or_app. auto.
      + split; [|exact K2]. intros x [Hx|[<-|I]]; apply K1.
        * left. apply has_add, Hx.
        * left. apply PositiveMap.gss.
        * right. apply in_or_app. auto.
  Qed.
End Search.

Definition rejected (r : res unit) : bool :=
  match r with Err 1 | Panic 1 | Panic 2 => true | _ => false end.    (* E_DISABLED; P_LOCKED, P_STATE *)
Definition is_inj (x : ghost) : bool := match x with GInj => true | GOther => false end.

Definition keys_p (cw : cworld) (c : cstate) : bool :=
  if cw_golang cw
  then implb (bstatus_eqb (status c) ByGo) (share_some c && keys_some c && keys_match c)
  else implb (bstatus_eqb (status c) ByUtls) (applied c) &&
       implb (applied c && cw_tls13 cw) (share_some c && keys_some c && keys_match c).
Definition wire_p (cw : cworld) (l : lst) (c : cstate) (g : gstate) : bool :=
  cw_golang cw || negb (bstatus_eqb (status c) ByUtls) ||
  match l_inj l with
  | ITicket => is_inj (g_hs_sess g) && is_inj (g_hs_ticket g) && is_inj (g_raw_t g)
  | IPsk => is_inj (g_hs_sess g) && is_inj (g_raw_p g)
  | INone => true
  end.
(* after a build that succeeded with a PSK in place, the binders are those of the hello just marshaled *)
Definition binder_p (k : okind) (cg : cstate * gstate) (r : res unit) : bool :=
  match k, r with
  | KBuild, Ok _ | KHandshake, Ok _ => negb (cst_eqb (cs (fst cg)) PskAllSet) || binder_fresh (fst cg)
  | _, _ => true
  end.

(* [herr]: no Handshake of a legal history fails for a lost key-share key or a stale binder *)
Definition node_p (cw : cworld) (l : lst) (c : cstate) (g : gstate) : bool :=
  keys_p cw c && wire_p cw l c g && negb (herr c).

Fixpoint collect {K B} (f : K -> option (list B)) (ks : list K) : option (list B) :=
  match ks with
  | [] => Some []
  | k :: r => match f k, collect f r with Some a, Some b => Some (a ++ b) | _, _ => None end
  end.

Lemma collect_some {K B} (f : K -> option (list B)) ks : forall bs, collect f ks = Some bs ->
  forall k, In k ks -> exists a, f k = Some a /\ incl a bs.
Proof.
  induction ks as [|k0 r IH]; cbn [collect]; intros bs H k I; [destruct I|].
  destruct (f k0) as [a|] eqn:F; [|discriminate]. destruct (collect f r) as [b|]; [|discriminate].
  injection H as <-. destruct I as [<-|I].
  - exists a. split; [exact F | apply incl_appl, incl_refl].
  - destruct (IH b eq_refl k I) as (a' & Fa & Ia). exists a'. split; [exact Fa | apply incl_appr, Ia].
Qed.

Definition bools := [true; false].

(* Only [handshake] reads [cw_srv13]: that call is made for both values, so that the search never looks at the field *)
Definition variants (cw : cworld) (k : okind) : list cworld :=
  match k, cw with
  | KHandshake, mkCW a b c d e f g h i j _ m => map (fun s => mkCW a b c d e f g h i j s m) bools
  | _, _ => [cw]
  end.
Lemma variants_self cw k : In cw (variants cw k).
Proof. destruct k; try (left; reflexivity). destruct cw as [? ? ? ? ? ? ? ? ? ? [] ?]; cbn; auto. Qed.

(* One call, [cstep] evaluated once: a legal one does not panic, leaves fresh binders and leads to the successor
   returned; a forbidden one is rejected. *)
Definition call (cw : cworld) (l : lst) (c : cstate) (g : gstate) (k : okind) : option (list node) :=
  match legal_stepk cw l k with
  | Some l2 => collect (fun cw' => let (cg, r) := cstep cw' k c g in
                                   if negb (is_panic r) && binder_p k cg r then Some [(l2, cg)] else None)
                       (variants cw k)
  | None => if cw_golang cw || negb (forbiddenk cw l k) || rejected (snd (cstep cw k c g)) then Some [] else None
  end.

Lemma legal_not_forbidden cw l k l2 : legal_stepk cw l k = Some l2 -> forbiddenk cw l k = false.
Proof.
  intros L. destruct (forbiddenk cw l k) eqn:F; [|reflexivity].
  destruct k as [| |[]|[]| | | | | |]; cbn in F; try discriminate F; cbn in L; rewrite F in L; discriminate L.
Qed.

Definition next (cw : cworld) (n : node) : option (list node) :=
  let '(l, (c, g)) := n in if node_p cw l c g then collect (call cw l c g) kinds else None.

(* the key of a node: its fields in turn, each by a prefix code *)
Local Open Scope positive_scope.
Definition kb (x : bool) p := if x then p~1 else p~0.
Definition kg (x : ghost) p := match x with GInj => p~1 | GOther => p~0 end.
Definition ko (x : oshape) p := match x with ONone => p~0 | OSome u i => (kb u (kb i p))~1 end.
Definition ks (x : sshape) p := match x with SOwn => p~0 | SObj u i => (kb u (kb i p))~1 end.
Definition kinj (x : injk) p := match x with INone => p~0 | ITicket => p~0~1 | IPsk => p~1~1 end.
Definition kstatus (x : bstatus) p := match x with NotBuilt => p~0 | ByUtls => p~0~1 | ByGo => p~1~1 end.
Definition kcs (x : cst) p :=
  match x with
  | NoSession => p~0 | TicketInit => p~0~0~1 | TicketAllSet => p~1~0~1 | PskInit => p~0~1~1 | PskAllSet => p~1~1~1
  end.
Definition ktrk (x : trk) p :=
  match x with NeverCalled => p~0~0 | AboutToCall => p~1~0 | ByULoad => p~0~1 | ByGoTLS => p~1~1 end.
Definition kxt (x : xts) p := match x with X0 => p~0 | X1 s => (ks s p)~0~1 | Xmany s => (ks s p)~1~1 end.
Definition kxp (x : xps) p := match x with XPnone => p~0 | XPsome s => (ks s p)~1 end.

Definition key (n : node) : positive :=
  let '(l, (c, g)) := n in
  fold_right (fun f p => f p) 1
    [kb (l_cache l); kb (l_set l); kb (l_built l); kb (l_hs l); kinj (l_inj l);
     kb (cache c); kstatus (status c); kb (applied c); kcs (cs c); kb (locked c); ktrk (tracker c); kb (calling c);
     ko (own_t c); ko (own_p c); kxt (x_t c); kxp (x_p c); kb (share_some c); kb (keys_some c); kb (keys_match c);
     kb (done c); kb (herr c); kb (tsup c); kb (binder_fresh c);
     kb (psk_same g); kg (g_own_t g); kg (g_own_p g); kg (g_slot_t g); kg (g_slot_p g); kg (g_hs_sess g);
     kg (g_hs_ticket g); kg (g_hs_ident g); kg (g_raw_t g); kg (g_raw_p g)].

Definition coder {T} (f : T -> positive -> positive) : Prop := forall x y p q, f x p = f y q -> x = y /\ p = q.
Lemma kb_inj : coder kb.
Proof. intros [] [] p q H; cbn in H; split; congruence. Qed.
Lemma kg_inj : coder kg.
Proof. intros [] [] p q H; cbn in H; split; congruence. Qed.
Lemma ko_inj : coder ko.
Proof. intros [|[] []] [|[] []] p q H; cbn in H; split; congruence. Qed.
Lemma ks_inj : coder ks.
Proof. intros [|[] []] [|[] []] p q H; cbn in H; split; congruence. Qed.
Lemma kinj_inj : coder kinj.
Proof. intros [] [] p q H; cbn in H; split; congruence. Qed.
Lemma kstatus_inj : coder kstatus.
Proof. intros [] [] p q H; cbn in H; split; congruence. Qed.
Lemma kcs_inj : coder kcs.
Proof. intros [] [] p q H; cbn in H; split; congruence. Qed.
Lemma ktrk_inj : coder ktrk.
Proof. intros [] [] p q H; cbn in H; split; congruence. Qed.
Lemma kxt_inj : coder kxt.
Proof.
  intros [|s|s] [|t|t] p q H; cbn in H; try discriminate H;
    try (injection H as H; apply ks_inj in H; destruct H as [<- <-]); split; congruence.
Qed.
Lemma kxp_inj : coder kxp.
Proof.
  intros [|s] [|t] p q H; cbn in H; try discriminate H;
    try (injection H as H; apply ks_inj in H; destruct H as [<- <-]); split; congruence.
Qed.

Ltac peel H :=
  first [apply kb_inj in H | apply kg_inj in H | apply ko_inj in H | apply kinj_inj in H | apply kstatus_inj in H
        | apply kcs_inj in H | apply ktrk_inj in H | apply kxt_inj in H | apply kxp_inj in H];
  destruct H as [<- H].

Lemma key_inj a b : key a = key b -> a = b.
Proof.
  destruct a as [[] [[] []]], b as [[] [[] []]]. unfold key. cbn. intros H. repeat peel H. reflexivity.
Qed.
Local Close Scope positive_scope.

(* fuel: no world has more than 171 nodes, a node no more than 15 successors *)
Definition found (cw : cworld) : option (PositiveMap.t unit) :=
  search key (next cw) 3000 (PositiveMap.empty unit) [node0 cw].
Definition check (cw : cworld) : bool := match found cw with Some _ => true | None => false end.

Definition inR (cw : cworld) (n : node) : Prop := exists R, found cw = Some R /\ has key R n.

Lemma found_closed cw R : found cw = Some R ->
  has key R (node0 cw) /\ forall n, has key R n -> closed key (next cw) R n.
Proof.
  (* unfolded in the goal, so that the kernel meets [found cw] on the side it unfolds first; the other way round
     it evaluates [search] on the open [cw] *)
  unfold found. intros F. apply (search_closed key key_inj) in F.
  - destruct F as [K1 K2]. split; [apply K1; right; left; reflexivity | exact K2].
  - intros a Ha. unfold has in Ha. rewrite PositiveMap.gempty in Ha. discriminate Ha.
Qed.

(* 64 evaluations stand for the 864 worlds: the fields that a world of the given shape never reads (for HelloGolang
   all that describes the spec but [cw_tls13]; [cw_psk_last] and [cw_omit] for a spec without pre_shared_key;
   [cw_hit] when tickets are disabled; [cw_srv13] by [variants]) stay variables, and the evaluation reaching [true]
   shows that they are not read. *)
Lemma check_ok cw : cworld_ok cw = true -> check cw = true.
Proof.
  destruct cw as [go tk psk pl skip t13 c0 dis om h s13 ra]. intros W.
  destruct go; [|destruct psk; [destruct pl, om|]; destruct tk, skip, ra; try discriminate W]; clear W;
    destruct t13, c0; (destruct dis; [|destruct h]); vm_compute; reflexivity.
Qed.

Lemma inR_init cw : check cw = true -> inR cw (node0 cw).
Proof.
  unfold check. destruct (found cw) as [R|] eqn:F; [intros _ | discriminate].
  exists R. split; [exact F | apply (found_closed cw R F)].
Qed.

Lemma inR_next cw n : inR cw n -> exists bs, next cw n = Some bs /\ forall b, In b bs -> inR cw b.
Proof.
  intros (R & F & H). destruct (proj2 (found_closed cw R F) n H) as (bs & N & C).
  exists bs. split; [exact N | intros b I; exists R; auto].
Qed.

Lemma inR_node cw l c g : inR cw (l, (c, g)) -> node_p cw l c g = true.
Proof.
  intros I. destruct (inR_next _ _ I) as (bs & N & _). unfold next in N.
  destruct (node_p cw l c g); [reflexivity | discriminate].
Qed.

Lemma inR_call cw l c g k : inR cw (l, (c, g)) ->
  (cw_golang cw = false -> forbiddenk cw l k = true -> rejected (snd (cstep cw k c g)) = true) /\
  forall l2, legal_stepk cw l k = Some l2 ->
    is_panic (snd (cstep cw k c g)) = false /\ binder_p k (fst (cstep cw k c g)) (snd (cstep cw k c g)) = true /\
    inR cw (l2, fst (cstep cw k c g)).
Proof.
  intros I. destruct (inR_next _ _ I) as (bs & N & C). unfold next in N. destruct (node_p cw l c g); [|discriminate].
  destruct (collect_some _ _ _ N k (kinds_complete k)) as (a & Ca & Ia). unfold call in Ca.
  destruct (legal_stepk cw l k) as [l1|] eqn:L.
  - split; [intros _ Fb; rewrite (legal_not_forbidden _ _ _ _ L) in Fb; discriminate Fb|].
    intros l2 [= <-]. destruct (collect_some _ _ _ Ca cw (variants_self cw k)) as (b & Cb & Ib).
    destruct (cstep cw k c g) as [cg r]. cbn [fst snd].
    destruct (is_panic r); [discriminate|]. destruct (binder_p k cg r); [|discriminate]. injection Cb as <-.
    repeat split. apply C, Ia, Ib. left. reflexivity.
  - split; [|discriminate]. intros G Fb. rewrite G, Fb in Ca. destruct (rejected _); [reflexivity | discriminate].
Qed.

(* the reachable nodes as a list, breadth first: only for the sizes quoted in Props/C20.v *)
Definition b2n (b : bool) : N := if b then 1 else 0.
Definition code (n : node) : N :=      (* a cheap hash, used only to skip most comparisons *)
  let '(l, (c, g)) := n in
  b2n (l_cache l) + 2 * b2n (l_set l) + 4 * b2n (l_built l) + 8 * b2n (l_hs l) +
  16 * (match cs c with NoSession => 0 | TicketInit => 1 | TicketAllSet => 2 | PskInit => 3 | PskAllSet => 4 end) +
  128 * (match status c with NotBuilt => 0 | ByUtls => 1 | ByGo => 2 end) +
  512 * b2n (applied c) + 1024 * b2n (locked c) + 2048 * b2n (done c) + 4096 * b2n (herr c) +
  8192 * (match own_t c with ONone => 0 | OSome u i => 1 + b2n u + 2 * b2n i end) +
  65536 * (match own_p c with ONone => 0 | OSome u i => 1 + b2n u + 2 * b2n i end) +
  524288 * (match x_t c with X0 => 0 | X1 SOwn => 1 | X1 _ => 2 | Xmany _ => 3 end) +
  2097152 * (match x_p c with XPnone => 0 | XPsome SOwn => 1 | XPsome _ => 2 end) +
  8388608 * (match g_own_t g with GInj => 1 | GOther => 0 end) +
  16777216 * (match g_hs_sess g with GInj => 1 | GOther => 0 end) +
  33554432 * (match tracker c with NeverCalled => 0 | AboutToCall => 1 | ByULoad => 2 | ByGoTLS => 3 end).

Definition memb (n : node) (r : list (N * node)) : bool :=
  let h := code n in
  existsb (fun hm => (fst hm =? h) && if node_eq_dec n (snd hm) then true else false) r.

Lemma memb_in n r : memb n r = true -> In n (map snd r).
Proof.
  unfold memb. rewrite existsb_exists. intros [[h m] [I E]]. cbn in E.
  apply andb_prop in E. destruct E as [_ E]. destruct (node_eq_dec n m) as [->|]; [|discriminate].
  apply in_map_iff. exists (h, m). auto.
Qed.

Definition succs (cw : cworld) (n : node) : list node :=
  flat_map (fun k => match legal_stepk cw (fst n) k with
                     | Some l' => [(l', fst (cstep cw k (fst (snd n)) (snd (snd n))))]
                     | None => []
                     end) kinds.

Fixpoint explore (fuel : nat) (cw : cworld) (seen todo : list (N * node)) : list (N * node) :=
  match fuel with
  | O => seen
  | S f =>
      match todo with
      | [] => seen
      | (_, n) :: rest =>
          let '(seen', new) :=
            fold_left (fun acc m => let '(sn, nw) := acc in
                                    if memb m sn then acc else ((code m, m) :: sn, (code m, m) :: nw))
                      (succs cw n) (seen, []) in
          explore f cw seen' (rest ++ new)
      end
  end.

Definition reach (cw : cworld) : list (N * node) :=
  explore 5000 cw [(code (node0 cw), node0 cw)] [(code (node0 cw), node0 cw)].

Definition all_cworlds : list cworld :=
  flat_map (fun a => flat_map (fun b => flat_map (fun c => flat_map (fun d => flat_map (fun e => flat_map (fun f =>
  flat_map (fun g => flat_map (fun h => flat_map (fun i => flat_map (fun j => flat_map (fun k =>
  map (fun m => mkCW a b c d e f g h i j k m) bools) bools) [HNone; H12; H13]) bools) bools) bools) bools) bools) bools)
  bools) [T0; T1; Tmany]) bools.

Definition inj_d (i : inj) : datum := match i with InjTicket b s | InjPsk b s => (b, s) end.
Definition Dinv (i : inj) (g : gstate) (d : dstate) : Prop :=
  (g_own_t g = GInj -> d_own_t d = inj_d i) /\
  (g_own_p g = GInj -> d_own_p d = inj_d i) /\
  (g_slot_t g = GInj -> d_slot_t d = inj_d i) /\
  (g_slot_p g = GInj -> d_slot_p d = inj_d i) /\
  (g_hs_sess g = GInj -> hs_sess d = snd (inj_d i)) /\
  (g_hs_ticket g = GInj -> hs_ticket d = fst (inj_d i)) /\
  (g_hs_ident g = GInj -> hs_ident d = Some (fst (inj_d i))) /\
  (g_raw_t g = GInj -> exists p, raw d = Some ([fst (inj_d i)], p)) /\
  (g_raw_p g = GInj -> exists t, raw d = Some (t, Some (fst (inj_d i)))).

(* splits on every variable the goal matches on and on every test in it *)
Ltac dcase :=
  repeat match goal with
         | |- context [match ?x with _ => _ end] => is_var x; destruct x
         | |- context [if ?x then _ else _] => destruct x eqn:?
         end.

Lemma Dinv_act i w o a c g d :
  Dinv i g d -> (injecting (kind o) = true -> arg_datum o = inj_d i) ->
  Dinv i (gapply a (kind o) c g) (dapply w o a c d).
Proof.
  (* an action copies a datum from one slot to another, stores the call's argument, or clears, and gapply moves the
     provenance flag the same way: a flag that is GInj afterwards is the source slot's flag (one of H1..H9 gives
     the datum) or is set by an injecting call (HA gives it). One case per action and per test dapply/gapply make. *)
  intros (H1 & H2 & H3 & H4 & H5 & H6 & H7 & H8 & H9) HA.
  destruct c, g, d. cbn in *.
  destruct a; unfold gapply, dapply, first_own, first_slot, p_own, spec_slot, slot_init, o_is_init, o_some; cbn;
    dcase; cbn; unfold Dinv; cbn.
  (* a flag that is not GInj afterwards, a slot the action does not touch *)
  all: repeat split; intros E; try discriminate E; auto.
  (* a datum copied from an own datum or a slot *)
  all: try (rewrite H1 by assumption; reflexivity); try (rewrite H2 by assumption; reflexivity).
  all: try (rewrite H3 by assumption; reflexivity); try (rewrite H4 by assumption; reflexivity).
  (* the raw hello rebuilt around a copied ticket or identity *)
  all: try (first [rewrite H1 by assumption | rewrite H2 by assumption | rewrite H3 by assumption | rewrite H4 by assumption];
            eexists; reflexivity).
  (* the call's argument (HA); a raw hello the action leaves alone *)
  all: eauto.
Qed.

Lemma Dinv_run {A} i w o (p : prog A) : (injecting (kind o) = true -> arg_datum o = inj_d i) ->
  forall c g d, Dinv i g d -> Dinv i (st_g (fst (runF w o p c g d))) (st_d (fst (runF w o p c g d))).
Proof.
  intros HA. induction p as [a|k IH|h q IH|a q IH|e|x]; intros c g d D; cbn; auto.
  apply IH. apply Dinv_act; assumption.
Qed.
