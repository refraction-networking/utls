(* Model/Robust.v, the client reading what a server sends: the EncryptedExtensions loop returns on every input,
   the compressed-certificate path allocates within its cap, the HelloRetryRequest cookie goes in without an
   index panic, and Read takes its locks in an order that cannot block on itself. *)
From UV Require Import Base.Common Model.RobustSrv Model.Robust Proofs.RobustSrvP.
Open Scope N_scope.

Lemma ee_handle_total id d m : exists r, ee_handle id d m = Ok r.
Proof.
  unfold ee_handle. destruct (id =? ext_ALPN).
  { destruct (cb_lp_total 2 d) as ([[pl d']|] & -> & _); cbn [bind]; [|eauto].
    destruct (is_empty pl); [eauto|].
    destruct (cb_lp_total 1 pl) as ([[pr pl']|] & -> & _); cbn [bind]; [|eauto].
    destruct (is_empty pr || negb (is_empty pl')); [eauto|]. destruct (negb (is_empty d')); eauto. }
  destruct (id =? ext_quic_tp); [eauto|].
  destruct (id =? ext_early_data); [destruct (negb (is_empty d)); eauto|].
  destruct (id =? ext_ech); eauto.
Qed.

Lemma ee_loop_total : forall fuel exts m, (length exts <= fuel)%nat -> exists r, ee_loop fuel exts m = Ok r.
Proof.
  induction fuel as [|fuel IH]; intros exts m H.
  - destruct exts; [cbn; eauto|cbn in H; lia].
  - cbn [ee_loop]. destruct (is_empty exts); [eauto|].
    destruct (cb_uint_total 2 exts) as ([[id e1]|] & -> & H1); cbn [bind]; [|eauto].
    pose proof (H1 id e1 eq_refl) as L1.
    destruct (cb_lp_total 2 e1) as ([[body e2]|] & -> & H2); cbn [bind]; [|eauto].
    pose proof (H2 body e2 eq_refl) as L2.
    destruct (ee_handle_total id body m) as ([m'|] & ->); cbn [bind]; [|eauto]. apply IH. lia.
Qed.

Lemma Forall_firstn {A} (P : A -> Prop) n l : Forall P l -> Forall P (firstn n l).
Proof. intros H. revert n. induction H; intros [|n]; cbn; auto. Qed.
Lemma Forall_skipn {A} (P : A -> Prop) n l : Forall P l -> Forall P (skipn n l).
Proof. intros H. revert n. induction H; intros [|n]; cbn; auto. Qed.

Lemma cb_read_bytes_ok s n v rest : bytes_ok s -> cb_read s n = Ok (Some (v, rest)) -> bytes_ok v /\ bytes_ok rest.
Proof.
  intros H. rewrite cb_read_eq. destruct (_ || _)%Z; [discriminate|].
  intros E. injection E as <- <-. split; [apply Forall_firstn|apply Forall_skipn]; exact H.
Qed.

Lemma cb_uint3_bound s x rest : bytes_ok s -> cb_uint 3 s = Ok (Some (x, rest)) -> x < 16777216 /\ bytes_ok rest.
Proof.
  intros H. unfold cb_uint. destruct (cb_read_total s (Z.of_nat 3)) as (r & Er & Hr). rewrite Er. cbn [bind].
  destruct r as [[v rest']|]; [|discriminate].
  destruct (cb_read_bytes_ok _ _ _ _ H Er) as [Hv Hrest].
  destruct (Hr v rest' eq_refl) as (_ & Hl & _). change (Z.to_nat (Z.of_nat 3)) with 3%nat in Hl.
  destruct v as [|a [|b [|c [|]]]]; cbn [length] in Hl; try lia.
  cbn [be_acc idx nth_error bind]. intros E. injection E as <- <-.
  unfold bytes_ok in Hv. inversion Hv as [|? ? Ha Hv1]; subst. inversion Hv1 as [|? ? Hb Hv2]; subst. inversion Hv2 as [|? ? Hc _]; subst.
  split; [|exact Hrest]. unfold u32. zify. Z.div_mod_to_equations. lia.
Qed.

Lemma cb_skip_bytes_ok n s r : bytes_ok s -> cb_skip n s = Ok (Some r) -> bytes_ok r.
Proof.
  intros H. unfold cb_skip. destruct (cb_read s n) as [[[v rest]|]| |] eqn:E; cbn [bind]; try discriminate.
  intros E'. injection E' as <-. exact (proj2 (cb_read_bytes_ok _ _ _ _ H E)).
Qed.
Lemma cb_uint_bytes_ok k s x r : bytes_ok s -> cb_uint k s = Ok (Some (x, r)) -> bytes_ok r.
Proof.
  intros H. unfold cb_uint. destruct (cb_read s (Z.of_nat k)) as [[[v rest]|]| |] eqn:E; cbn [bind]; try discriminate.
  destruct (be_acc v 0 k 0); cbn [bind]; try discriminate. intros E'. injection E' as _ <-.
  exact (proj2 (cb_read_bytes_ok _ _ _ _ H E)).
Qed.

Lemma cc_unmarshal_ulen data c : bytes_ok data -> cc_unmarshal data = Ok (Some c) -> cc_uncompressedLength c < 16777216.
Proof.
  intros H. unfold cc_unmarshal.
  destruct (cb_skip 4 data) as [[s|]| |] eqn:E1; cbn [bind]; try discriminate.
  pose proof (cb_skip_bytes_ok _ _ _ H E1) as H1.
  destruct (cb_uint 2 s) as [[[alg s1]|]| |] eqn:E2; cbn [bind]; try discriminate.
  pose proof (cb_uint_bytes_ok _ _ _ _ H1 E2) as H2.
  destruct (cb_uint 3 s1) as [[[ul s2]|]| |] eqn:E3; cbn [bind]; try discriminate.
  destruct (cb_uint3_bound _ _ _ H2 E3) as [Hul _].
  destruct (cb_lp 3 s2) as [[[body s3]|]| |]; cbn [bind]; try discriminate.
  intros E. injection E as <-. exact Hul.
Qed.

Lemma make_and_header_ok n : 4 <= n -> make_and_header n = Ok n.
Proof.
  intros H. unfold make_and_header.
  destruct (N.ltb_spec 0 n); [|lia]. destruct (N.ltb_spec 1 n); [|lia].
  destruct (N.ltb_spec 2 n); [|lia]. destruct (N.ltb_spec 3 n); [|lia]. cbn [bind].
  destruct (N.ltb_spec n 4); [lia|]. reflexivity.
Qed.

Theorem decompress_alloc_spec capped adv alg ulen open_ok : ulen < 16777216 ->
  decompress_alloc capped adv alg ulen open_ok = Err a_bad_certificate \/
  (decompress_alloc capped adv alg ulen open_ok = Ok (ulen + 4) /\ (capped = true -> ulen <= maxHandshakeCertificateMsg)).
Proof.
  intros H. unfold decompress_alloc.
  destruct (negb (existsb (N.eqb alg) adv)); [left; reflexivity|].
  destruct (negb (known_alg alg)); [left; reflexivity|].
  destruct (negb open_ok); [left; reflexivity|].
  destruct capped; cbn [andb].
  - destruct (N.ltb_spec maxHandshakeCertificateMsg ulen) as [Hc|Hc]; [left; reflexivity|].
    right. unfold u32. rewrite N.mod_small by lia. rewrite make_and_header_ok by lia. auto.
  - right. unfold u32. rewrite N.mod_small by lia. rewrite make_and_header_ok by lia. split; [reflexivity|discriminate].
Qed.

Theorem utls_read_server_certificate_spec capped exts adv open_ok msg :
  (forall c, msg = Some c -> cc_uncompressedLength c < 16777216) ->
  (exists a, utls_read_server_certificate capped exts adv open_ok msg = Err a) \/
  utls_read_server_certificate capped exts adv open_ok msg = Ok None \/
  (exists c, msg = Some c /\ utls_read_server_certificate capped exts adv open_ok msg = Ok (Some (cc_uncompressedLength c + 4)) /\
     (capped = true -> cc_uncompressedLength c <= maxHandshakeCertificateMsg)).
Proof.
  intros H. induction exts as [|[|] exts IH]; cbn [utls_read_server_certificate]; auto.
  destruct adv as [|a0 adv]; [exact IH|]. destruct msg as [c|]; [|exact IH].
  destruct (decompress_alloc_spec capped (a0 :: adv) (cc_algorithm c) (cc_uncompressedLength c) open_ok (H c eq_refl)) as [E|[E Hc]];
    rewrite E; cbn [bind]; [left; eauto|]. right. right. exists c. auto.
Qed.

Lemma prng_intn_range n r : (0 <= prng_intn n r < Z.max 1 n)%Z.
Proof. unfold prng_intn. destruct (Z.leb_spec n 0); [lia|]. rewrite Z.max_r by lia. apply Z.mod_pos_bound. lia. Qed.

Theorem insert_cookie_no_panic exts r :
  (exists l, insert_cookie exts r = Ok l /\ (length l = length exts \/ length l = S (length exts)) /\ In XCookie l) \/
  (insert_cookie exts r = Err E_HRR_COOKIE_INDEX /\ exts = []).
Proof.
  unfold insert_cookie. destruct (existsb (ext_kind_eqb XCookie) exts) eqn:Ex.
  { left. exists exts. split; [reflexivity|]. split; [auto|].
    apply existsb_exists in Ex. destruct Ex as (x & Hin & Hx). destruct x; try discriminate. exact Hin. }
  set (n := Z.of_nat (length exts)). set (idx := prng_intn (n - 2) r).
  pose proof (prng_intn_range (n - 2) r) as Hi. fold idx in Hi.
  destruct (Z.leb_spec n idx) as [Hge|Hlt].
  { right. split; [reflexivity|]. destruct exts; [reflexivity|]. subst n. cbn [length] in *. lia. }
  left. unfold xslice_from, xslice_to. fold n.
  destruct (Z.ltb_spec idx 0); [lia|]. destruct (Z.ltb_spec n idx); [lia|]. cbn [orb bind].
  eexists. split; [reflexivity|]. split.
  - right. rewrite app_length. cbn [length]. rewrite firstn_length, skipn_length. subst n. lia.
  - apply in_or_app. right. left. reflexivity.
Qed.

(* with a key_share extension in the list (the uTLS section insists on one) the cookie always goes in *)
Theorem hrr_cookie_inserted exts clen r : existsb (ext_kind_eqb XKeyShare) exts = true -> (0 < clen)%nat ->
  exists l, hrr_utls_section false 0 exts clen r = Ok l /\ In XCookie l.
Proof.
  intros Hk Hc. unfold hrr_utls_section. destruct clen as [|clen]; [lia|]. cbn [Nat.ltb Nat.leb]. rewrite Hk. cbn [negb].
  destruct (insert_cookie_no_panic exts r) as [(l & -> & _ & Hin)|[_ He]]; [exists l; split; [reflexivity|exact Hin]|]. subst exts. cbn in Hk. discriminate Hk.
Qed.

Section ClientP.
  Variable capped : bool.
  Definition step_bound (s : cstep) : Prop :=
    match s with
    | CAccept _ k => capped = true -> k <= maxHandshakeCertificateMsg + 4
    | _ => True
    end.
End ClientP.

(* F-33: without the cap a 13-byte CompressedCertificate makes decompressCert allocate 16 MiB *)
Definition f33_msg : bytes := [25; 0; 0; 9; 0; 2; 255; 255; 255; 0; 0; 1; 6].
Lemma f33_witness :
  client_step (fun _ _ => true) false [2] [true] (fun _ _ => true) CRP_CertificateOrRequest13 true 772 f33_msg
    = Ok (CAccept T_utlsCompressedCertificate 16777219) /\
  client_step (fun _ _ => true) true [2] [true] (fun _ _ => true) CRP_CertificateOrRequest13 true 772 f33_msg
    = Err a_bad_certificate.
Proof. split; vm_compute; reflexivity. Qed.

(* Read never blocks on its own locks, however many HelloRequests arrive *)
Lemma lock_run_reneg n : forall r, lock_run [L_in] (concat (repeat ops_handle_renegotiation n) ++ r) = lock_run [L_in] r.
Proof. induction n as [|n IH]; intros r; [reflexivity|]. cbn [repeat concat]. rewrite <- app_assoc. cbn. apply IH. Qed.
(* any sequence of post-handshake events, with the client's own writes failing or not *)
Lemma lock_run_events evs : forall r, lock_run [L_in] (flat_map ops_post_event evs ++ r) = lock_run [L_in] r.
Proof.
  induction evs as [|e evs IH]; intros r; [reflexivity|]. cbn [flat_map]. rewrite <- app_assoc.
  destruct e as [|wf|]; cbn; apply IH.
Qed.
