(* C31 — public views of handshake messages convert losslessly.
   State of the files: they model the UNCHANGED code (no fix was needed). *)
From Coq Require Import String.
From UV Require Import Base.Common Model.Public Model.GoCH Proofs.PublicP Proofs.GoCHP Proofs.GoCHP2 Proofs.GoCHP3 Proofs.GoCHP5.
Open Scope N_scope.

(* ClientHello view: public -> private -> public keeps every field that has a counterpart
   (all but the cache pointer); the two rebuilt slices keep their elements (an empty non-nil slice comes back nil). *)
Theorem C31_client_hello_pub_priv_pub : forall c p c', CH_getPrivatePtr (Some c) = Some (p, c') ->
  exists c2, ch_getPublicPtr (Some p) = Some c2 /\ CH_view c2 = CH_view c /\ CH_view c' = CH_view c /\
             CH_cachedPrivateHello c2 = Some p /\ CH_cachedPrivateHello c' = Some p.
Proof.
  intros c p c' H. injection H as <- <-. eexists. split; [reflexivity|].
  destruct c; unfold CH_view; cbn. rewrite KeyShares_pub_priv_pub, PskIdentities_pub_priv_pub. auto.
Qed.
Print Assumptions C31_client_hello_pub_priv_pub.

(* private -> public -> private keeps every field but [extensions], which is reset *)
Theorem C31_client_hello_priv_pub_priv : forall m, exists c, ch_getPublicPtr (Some m) = Some c /\
  forall p c', CH_getPrivatePtr (Some c) = Some (p, c') -> ch_view p = ch_view m /\ ch_extensions p = [].
Proof.
  intros m. eexists. split; [reflexivity|]. intros p c' H. injection H as <- _.
  destruct m; unfold ch_view; cbn. rewrite keyShares_priv_pub_priv, pskIdentities_priv_pub_priv. auto.
Qed.
Print Assumptions C31_client_hello_priv_pub_priv.

(* a view that was converted before (so its cache pointer holds the EARLIER private struct) and then edited to ANY
   other field values converts exactly like a fresh view with those values: the conversion never reads the cache *)
Theorem C31_client_hello_reconversion_after_edit : forall c0 c1 p0 c0' p1 c1',
  CH_getPrivatePtr (Some c0) = Some (p0, c0') ->
  CH_getPrivatePtr (Some (CH_set_cached c1 (CH_cachedPrivateHello c0'))) = Some (p1, c1') ->
  p1 = CH_private_of c1 /\ exists c2, ch_getPublicPtr (Some p1) = Some c2 /\ CH_view c2 = CH_view c1.
Proof.
  intros c0 c1 p0 c0' p1 c1' _ H. cbn [CH_getPrivatePtr] in H. injection H as <- _.
  assert (E : CH_private_of (CH_set_cached c1 (CH_cachedPrivateHello c0')) = CH_private_of c1) by now destruct c1.
  rewrite E. split; [reflexivity|].
  destruct (C31_client_hello_pub_priv_pub c1 _ _ eq_refl) as (c2 & E2 & V & _). eauto.
Qed.
Print Assumptions C31_client_hello_reconversion_after_edit.

(* whole-record identity unless a rebuilt slice is empty but not nil *)
Theorem C31_client_hello_exact : forall c, CH_KeyShares c <> Some [] -> CH_PskIdentities c <> Some [] ->
  ch_getPublicPtr (Some (CH_private_of c)) = Some (CH_set_cached c (Some (CH_private_of c))).
Proof.
  intros c H1 H2. destruct c; cbn in *. unfold CH_set_cached; cbn.
  rewrite (KeyShares_exact _ H1), (PskIdentities_exact _ H2). reflexivity.
Qed.
Print Assumptions C31_client_hello_exact.

Theorem C31_server_hello_pub_priv_pub : forall s, sh_getPublicPtr (SH_getPrivatePtr s) = s.
Proof. now intros [[]|]. Qed.
Print Assumptions C31_server_hello_pub_priv_pub.
Theorem C31_server_hello_priv_pub_priv : forall s,
  option_map sh_view (SH_getPrivatePtr (sh_getPublicPtr s)) = option_map sh_view s.
Proof. now intros [[]|]. Qed.
Print Assumptions C31_server_hello_priv_pub_priv.
(* the three private fields without counterpart come back zero *)
Theorem C31_server_hello_not_copied : forall s,
  option_map (fun m => (sh_supportedPoints m, sh_encryptedClientHello m, sh_serverNameAck m))
             (SH_getPrivatePtr (sh_getPublicPtr (Some s))) = Some ([], [], false).
Proof. now intros []. Qed.
Print Assumptions C31_server_hello_not_copied.

(* CertificateRequestMsgTLS13 (for any marshal function): every field but Raw / original *)
Theorem C31_certreq_pub_priv_pub : forall mar c, option_map CR_view (cr_toPublic mar (CR_toPrivate c)) = option_map CR_view c.
Proof. now intros mar [[]|]. Qed.
Print Assumptions C31_certreq_pub_priv_pub.
Theorem C31_certreq_priv_pub_priv : forall mar c, option_map cr_view (CR_toPrivate (cr_toPublic mar c)) = option_map cr_view c.
Proof. now intros mar [[]|]. Qed.
Print Assumptions C31_certreq_priv_pub_priv.
(* Raw is not carried: it is re-marshalled from the other fields; original is dropped *)
Theorem C31_certreq_raw_not_carried : forall mar c p,
  option_map CR_Raw (cr_toPublic mar (CR_toPrivate (Some c))) =
    Some (match mar (CR_OcspStapling c) (CR_Scts c) (CR_SupportedSignatureAlgorithms c)
                    (CR_SupportedSignatureAlgorithmsCert c) (CR_CertificateAuthorities c) with Some r => r | None => [] end)
  /\ option_map cr_original (CR_toPrivate (cr_toPublic mar (Some p))) = Some None.
Proof. now intros mar [] []. Qed.
Print Assumptions C31_certreq_raw_not_carried.

(* key shares, PSK identities, ticket keys: the elements come back (of the first two the slice itself too, unless it
   is empty but not nil) *)
Theorem C31_key_shares : forall s k,
  elems (keyShares_ToPublic (KeyShares_ToPrivate s)) = elems s /\ elems (KeyShares_ToPrivate (keyShares_ToPublic k)) = elems k /\
  (s <> Some [] -> keyShares_ToPublic (KeyShares_ToPrivate s) = s).
Proof. intros s k. split; [apply KeyShares_pub_priv_pub|split; [apply keyShares_priv_pub_priv|apply KeyShares_exact]]. Qed.
Print Assumptions C31_key_shares.
Theorem C31_psk_identities : forall s k,
  elems (pskIdentities_ToPublic (PskIdentities_ToPrivate s)) = elems s /\ elems (PskIdentities_ToPrivate (pskIdentities_ToPublic k)) = elems k /\
  (s <> Some [] -> pskIdentities_ToPublic (PskIdentities_ToPrivate s) = s).
Proof. intros s k. split; [apply PskIdentities_pub_priv_pub|split; [apply pskIdentities_priv_pub_priv|apply PskIdentities_exact]]. Qed.
Print Assumptions C31_psk_identities.
Theorem C31_ticket_keys : forall T t s k,
  tk_ToPublic (TK_ToPrivate T) = T /\ TK_ToPrivate (tk_ToPublic t) = t /\
  elems (ticketKeys_ToPublic (TicketKeys_ToPrivate s)) = elems s /\ elems (TicketKeys_ToPrivate (ticketKeys_ToPublic k)) = elems k.
Proof. intros. repeat split; [apply tk_pp|apply tk_qq|apply elems_rebuild2, tk_pp|apply elems_rebuild2, tk_qq]. Qed.
Print Assumptions C31_ticket_keys.
(* the nil-ness caveat is real: the empty non-nil slice is the one value that does not come back identical *)
Theorem C31_empty_slice_becomes_nil : keyShares_ToPublic (KeyShares_ToPrivate (Some [])) = None.
Proof. reflexivity. Qed.
Print Assumptions C31_empty_slice_becomes_nil.

(* cipher-suite and key views: whole-record identities *)
Theorem C31_suite_and_key_views : forall c3 c3' cs cs' kp kp' km km',
  c3_toPublic (C3_toPrivate c3) = c3 /\ C3_toPrivate (c3_toPublic c3') = c3' /\
  cs_getPublicObj (CS_getPrivatePtr (Some cs)) = cs /\ CS_getPrivatePtr (Some (cs_getPublicObj (Some cs'))) = Some cs' /\
  kp_ToPublic (KP_ToPrivate kp) = kp /\ KP_ToPrivate (kp_ToPublic kp') = kp' /\
  km_ToPublic (KM_ToPrivate km) = km /\ KM_ToPrivate (km_ToPublic km') = km'.
Proof.
  intros. repeat split; [now destruct c3 as [[]|]|now destruct c3' as [[]|]|now destruct cs|now destruct cs'|
    apply KP_pub_priv_pub|apply kp_priv_pub_priv|now destruct km as [[]|]|now destruct km' as [[]|]].
Qed.
Print Assumptions C31_suite_and_key_views.

(* FinishedHash (not in the property's list; what holds): every hash/buffer/version field; Prfv2 when set; a non-nil prf *)
Theorem C31_finished_hash : forall f g,
  FH_view (fh_getPublicObj (FH_getPrivateObj f)) = FH_view f /\
  (forall p, FH_Prfv2 f = Some p -> FH_Prfv2 (fh_getPublicObj (FH_getPrivateObj f)) = Some p) /\
  (fh_prf g <> None -> FH_getPrivateObj (fh_getPublicObj g) = g).
Proof.
  intros f g. split; [now destruct f|]. split; [destruct f; cbn; now intros p ->|].
  destruct g as [a b c d e v [p|]]; cbn; [reflexivity|congruence].
Qed.
Print Assumptions C31_finished_hash.

(* the explicit list of fields without counterpart (from the field tables the runner compares with reflect) *)
Local Open Scope string_scope.
Theorem C31_fields_without_counterpart : without_counterpart =
  [("ClientHello", (["cachedPrivateHello"], ["extensions"]));
   ("ServerHello", ([], ["supportedPoints"; "encryptedClientHello"; "serverNameAck"]));
   ("CertReq13", (["Raw"], ["original"]));
   ("FinishedHash", (["Prf"], []))].
Proof. vm_compute. reflexivity. Qed.
Print Assumptions C31_fields_without_counterpart.
Local Close Scope string_scope.

(* UnmarshalClientHello followed by Marshal reproduces the input exactly.  Trivially so: unmarshal stores the input
   in [original] and marshal returns [original] whenever it is set — for ANY field values (second theorem). *)
Theorem C31_unmarshal_marshal_raw : forall b c, UnmarshalClientHello b = Some c -> Marshal c = Ok b.
Proof. exact unmarshal_marshal_raw. Qed.
Print Assumptions C31_unmarshal_marshal_raw.
Theorem C31_marshal_ignores_fields_while_raw_set : forall c raw, CH_Raw c = Some raw -> Marshal c = Ok raw.
Proof. intros c raw H. unfold Marshal, marshal. rewrite private_original, H. reflexivity. Qed.
Print Assumptions C31_marshal_ignores_fields_while_raw_set.
(* with Raw cleared, Marshal is marshalMsg(false) of the field values *)
Theorem C31_marshal_when_raw_cleared : forall c, Marshal (CH_clear_raw c) = marshalMsg (CH_private_of (CH_clear_raw c)).
Proof. exact marshal_cleared. Qed.
Print Assumptions C31_marshal_when_raw_cleared.

(* Clear Raw, marshal, parse again: same field values.
   The parser-side invariant: whatever unmarshal accepts (for all 19 known extensions; unknown ones are skipped as in the
   Go code) has well-formed field values.  [bytes_ok b] only says that the elements of b are bytes. *)
Theorem C31_unmarshal_wellformed : forall b m, bytes_ok b -> unmarshal b = Some m -> wf_msgb m = true.
Proof.
  intros b m H E. destruct (unmarshal_shape _ _ E H) as (vers & random & sid & suites & comp & l & -> & Hv & Hs & Hl).
  now apply project_wf.
Qed.
Print Assumptions C31_unmarshal_wellformed.

(* The statement at full strength ... *)
Definition C31_reparse_stable_full : Prop :=
  forall b m, bytes_ok b -> unmarshal b = Some m ->
  exists b' m', marshalMsg (ch_clear_raw m) = Ok b' /\ unmarshal b' = Some m' /\ ch_fields m' = ch_fields m.
(* ... is refuted by the faithful model (and by the code: the runner replays the witness, finding
   remarshal/scsv-ext-block-overflow): a ClientHello whose suites contain the renegotiation SCSV, without a
   renegotiation_info extension and with a 65535-byte extension block, parses, but its re-marshal needs 5 more bytes
   for the renegotiation_info that marshalMsg adds, and fails. *)
Theorem C31_reparse_stable_refuted : ~ C31_reparse_stable_full.
Proof.
  intros H. pose proof scsv_witness_fact as F.
  destruct (unmarshal scsv_witness) as [m|] eqn:E; [|discriminate].
  destruct (H _ _ scsv_witness_bytes E) as (b' & m' & Em & _). rewrite Em in F. discriminate.
Qed.
Print Assumptions C31_reparse_stable_refuted.
(* The strongest true conditional: NO well-formedness premise; whenever the re-marshal succeeds, the second parse
   succeeds and gives equal field values. *)
Theorem C31_reparse_stable_holds_if : forall b m b', bytes_ok b -> unmarshal b = Some m ->
  marshalMsg (ch_clear_raw m) = Ok b' ->
  exists m', unmarshal b' = Some m' /\ ch_fields m' = ch_fields m /\ ch_original m' = Some b'.
Proof. intros b m b' H E Em. exact (reparse_stable b m b' H E Em). Qed.
Print Assumptions C31_reparse_stable_holds_if.
(* the same through the public entry points *)
Theorem C31_reparse_stable : forall b c b', bytes_ok b -> UnmarshalClientHello b = Some c ->
  Marshal (CH_clear_raw c) = Ok b' ->
  exists c', UnmarshalClientHello b' = Some c' /\ CH_values c' = CH_values c /\ CH_Raw c' = Some b'.
Proof. intros b c b' Hb E. apply reparse_pub, wf_msgb_sound, (unmarshal_public_wf _ _ Hb E). Qed.
Print Assumptions C31_reparse_stable.
(* the private-level statement it rests on: marshalMsg then unmarshal returns every field *)
Theorem C31_marshal_unmarshal : forall m b, wf_msg m -> marshalMsg m = Ok b ->
  exists m', unmarshal b = Some m' /\ ch_fields m' = ch_fields m /\ ch_original m' = Some b /\
             ch_extensions m' = map ext_id (present m).
Proof. exact marshal_unmarshal. Qed.
Print Assumptions C31_marshal_unmarshal.

Definition ex_hello : PubClientHelloMsg := {|
  CH_Raw := Some [9; 9]; CH_Vers := 771; CH_Random := repeat 7 32; CH_SessionId := [1; 2; 3]; CH_CipherSuites := [4865; 49195; 255];
  CH_CompressionMethods := [0]; CH_NextProtoNeg := false; CH_ServerName := [97; 46; 98]; CH_OcspStapling := true; CH_Scts := true;
  CH_Ems := true; CH_SupportedCurves := [29; 23]; CH_SupportedPoints := [0]; CH_TicketSupported := true; CH_SessionTicket := [5; 6];
  CH_SupportedSignatureAlgorithms := [1027; 2052]; CH_SecureRenegotiation := []; CH_SecureRenegotiationSupported := true;
  CH_AlpnProtocols := [[104; 50]; [104; 116; 116; 112]]; CH_SupportedSignatureAlgorithmsCert := [1025]; CH_SupportedVersions := [772; 771];
  CH_Cookie := [1]; CH_KeyShares := Some [{| KS_Group := 29; KS_Data := repeat 3 32 |}]; CH_EarlyData := true; CH_PskModes := [1];
  CH_PskIdentities := Some [{| PI_Label := [8; 8]; PI_ObfuscatedTicketAge := 4000000000 |}]; CH_PskBinders := [repeat 1 32];
  CH_QuicTransportParameters := Some []; CH_cachedPrivateHello := None; CH_encryptedClientHello := [254; 13] |}.
Example C31_ex_wf : wf_msgb (CH_private_of (CH_clear_raw ex_hello)) = true.
Proof. vm_compute. reflexivity. Qed.
Example C31_ex_reparse : exists b c', Marshal (CH_clear_raw ex_hello) = Ok b /\ UnmarshalClientHello b = Some c' /\
  CH_values c' = CH_values ex_hello.
Proof. eexists. eexists. split; [vm_compute; reflexivity|]. split; vm_compute; reflexivity. Qed.
Example C31_ex_witness : bytes_okb scsv_witness = true /\ N.of_nat (List.length scsv_witness) = 65582.
Proof. split; [apply bytes_okb_spec, scsv_witness_bytes|vm_compute; reflexivity]. Qed.
Example C31_ex_raw : Marshal ex_hello = Ok [9; 9].
Proof. reflexivity. Qed.
Example C31_ex_pub_priv_pub : exists p c', CH_getPrivatePtr (Some ex_hello) = Some (p, c') /\ ch_extensions p = [].
Proof. eexists. eexists. split; reflexivity. Qed.
