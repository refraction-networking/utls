(* C23 over Model/Quic.v: two boolean invariants of the caller/goroutine transition system (invb: which program
   counters and flags go together; inv2: the early return closes the channels or is never taken), each preserved by
   every step; under them every state inside a call has an enabled internal label ([pick]), so none is stuck. *)
From UV Require Import Base.Common Model.Quic.

Inductive reach (s0 : state) : state -> Prop :=
| reach_init : reach s0 s0
| reach_step s l s' r : reach s0 s -> step s l = Some (s', r) -> reach s0 s'.

Lemma run_reach s0 ls : forall a s rs, reach s0 a -> run a ls = Some (s, rs) -> reach s0 s.
Proof.
  induction ls as [|l ls IH]; intros a s rs Ha H; cbn [run] in H.
  - injection H as <- _. exact Ha.
  - destruct (step a l) as [[a' o]|] eqn:E; [|discriminate].
    destruct (run a' ls) as [[a'' rs']|] eqn:E2; [|discriminate]. injection H as <- _.
    exact (IH a' a'' rs' (reach_step s0 a l a' o Ha E) E2).
Qed.

Definition is_nil {A} (l : list A) : bool := match l with [] => true | _ => false end.
Definition c_running (x : cpc) : bool := match x with CStartRecv | CHdBlk | CTpBlk => true | _ => false end.
Definition c_parked (x : cpc) : bool := match x with CIdle | CHdSig | CTpSig | CCloseLoop => true | _ => false end.
Definition is_closeloop (x : cpc) : bool := match x with CCloseLoop => true | _ => false end.
Definition is_hdlock (x : cpc) : bool := match x with CHdLock => true | _ => false end.
Definition is_idle (x : cpc) : bool := match x with CIdle => true | _ => false end.
Definition opn (s : state) : bool := negb (blk_closed s) && negb (sig_closed s).

(* holds for the code as found and for the repaired code *)
Definition invb (s : state) : bool :=
  match g s with
  | GNone => is_idle (c s) && opn s && negb (cancel_set s)
  | GInit => (match c s with CStartRecv => true | _ => false end) && opn s && started s
  | GBuild | GHs | GWaitBlk _ => c_running (c s) && opn s && cancel_set s && started s
  | GWaitSig _ => c_parked (c s) && (negb (is_closeloop (c s)) || cancelled s) && opn s && cancel_set s && started s
  | GFail | GClose1 | GEarly => negb (is_hdlock (c s)) && opn s && cancel_set s && started s
  | GClose2 => blk_closed s && negb (sig_closed s) && cancel_set s && started s
  | GRet | GDone => cancel_set s && started s
                    && (blk_closed s && sig_closed s || negb (early_closes s) && opn s && negb (is_hdlock (c s)))
  end.

(* the early return is harmless: either it closes the channels (repaired code) or it is never taken
   (BuildHandshakeState reports success and never waits, so cancellation cannot fail it either) *)
Definition inv2 (s : state) : bool :=
  early_closes s
  || (build_ok s && is_nil (build s)
      && match g s with
         | GWaitBlk true | GWaitSig true | GEarly => false
         | GRet | GDone => blk_closed s && sig_closed s
         | _ => true
         end).

Lemma invb_init ec mv tp b bok h hok : invb (init ec mv tp b bok h hok) = true.
Proof. reflexivity. Qed.

Ltac bsplit :=
  repeat match goal with
  | H : _ && _ = true |- _ => apply andb_true_iff in H; destruct H
  | H : negb _ = true |- _ => apply negb_true_iff in H
  end.

(* [emit] changes nothing that [f] reads, if [f] does not read the events *)
Lemma emit_frame {A} (f : state -> A) s e : (forall q h, f (set_events s q h) = f s) -> f (emit s e) = f s.
Proof. intros H. unfold emit. destruct (coalesces (queue s) e); [reflexivity|apply H]. Qed.

(* a fact about the successor of a step is shown on [step s l] itself *)
Lemma step_elim (P : state -> option ret -> Prop) s l :
  match step s l with Some (s', r) => P s' r | None => True end -> forall s' r, step s l = Some (s', r) -> P s' r.
Proof. intros H s' r E. rewrite E in H. exact H. Qed.

(* For a goal [match step s l with ...] with [l] a constructor: case analysis on whatever [step] branches on,
   innermost scrutinee first, each with its equation. The state may stay a variable: the successor then reads
   [set_c s x] and the like, and a proof unfolds of it only what it looks at. *)
Ltac step_cases :=
  cbn; try exact Logic.I;
  repeat (match goal with
          | |- context [match ?x with _ => _ end] =>
              lazymatch x with
              | context [match _ with _ => _ end] => fail
              | _ => first [is_var x; destruct x | destruct x eqn:?]
              end
          end; cbn; try exact Logic.I).

Lemma inv_step s l s' r : invb s = true -> step s l = Some (s', r) -> invb s' = true.
Proof.
  intros I. revert s' r. apply step_elim.
  (* First the states the invariant admits (67 pairs of program counters, the flags it fixes substituted), then
     the label: [step] computes at each label. The other order opens every branch of [step] on a flag and lets
     the invariant cut it back afterwards, several times dearer. *)
  destruct s as [ec mv st cs ca tp bc sc he co g0 b bok h hok c0 q hi]; unfold invb, opn in I; cbn in I.
  destruct g0 as [| | | |[|]|[|]| | | | | |], c0; try discriminate I; bsplit; subst; destruct l; step_cases.
  all: rewrite ?(emit_frame invb) by reflexivity; unfold invb, opn; cbn; try reflexivity; try assumption.
  (* the disjunctive clause for GRet, GDone *)
  all: match goal with H : _ || _ = true |- _ => apply orb_true_iff in H; destruct H end; bsplit; subst; try discriminate; reflexivity.
Qed.

Lemma unstarted_unspawned s : invb s = true -> started s = false -> g s = GNone.
Proof.
  unfold invb. intros I S. rewrite S in I.
  destruct (g s); [reflexivity|..]; rewrite ?andb_false_r in I; discriminate I.
Qed.

Lemma invb_reach s0 s : invb s0 = true -> reach s0 s -> invb s = true.
Proof. intros I R. induction R as [|s l s' r R IH S]; [exact I | eapply inv_step; eauto]. Qed.

Lemma inv2_step s l s' r : invb s = true -> inv2 s = true -> step s l = Some (s', r) -> inv2 s' = true.
Proof.
  (* early_closes and build_ok never change and an empty build script stays empty, so only the goroutine's moves to
     GWaitBlk, GWaitSig, GEarly, GRet matter: invb s tells where it comes from *)
  intros I I2. revert s' r. apply step_elim. destruct l; step_cases.
  (* [inv2] does not read what the caller's own steps change *)
  all: rewrite ?(emit_frame inv2) by reflexivity; try exact I2.
  all: unfold inv2, invb in *; cbn; apply orb_true_iff in I2; destruct I2 as [->|I2]; [reflexivity|]; bsplit.
  all: repeat match goal with H : _ = _ |- _ => rewrite H in *; clear H end; cbn in *; bsplit; try discriminate.
  all: rewrite ?orb_true_r; try reflexivity.
  (* LGClose2: blockedc is closed already *)
  match goal with H : blk_closed _ = true |- _ => rewrite H end. apply orb_true_r.
Qed.

Definition Inv (s : state) : Prop := invb s = true /\ inv2 s = true.

Lemma Inv_reach s0 s : Inv s0 -> reach s0 s -> Inv s.
Proof.
  intros H0 R. induction R as [|s l s' r R IH S]; [exact H0|].
  destruct IH as [A B]. split; [eapply inv_step; eauto | eapply inv2_step; eauto].
Qed.

Lemma witness_not_stuck s l : internal l = true -> enabledb s l = true -> stuck s = false.
Proof.
  intros A B. unfold stuck. destruct (internal_enabled s) eqn:E; [|apply andb_false_r].
  exfalso. assert (H : In l (internal_enabled s)).
  { unfold internal_enabled, enabled. apply filter_In. split; [apply filter_In; split; [|exact B]|exact A].
    destruct l; cbn; auto 25. }
  rewrite E in H. exact H.
Qed.

(* the internal label that is enabled in a state the invariants admit: the goroutine's next move while it runs or
   waits, the caller's receive (or its lock) once the goroutine is done, or where none has been spawned *)
Definition pick (s : state) : label :=
  match g s with
  | GInit => LGInit
  | GBuild => if is_nil (build s) then LGEnd else LGAct
  | GHs => if is_nil (hs s) then LGEnd else LGAct
  | GFail => LGErrTail | GEarly => LGEarly | GClose1 => LGClose1 | GClose2 => LGClose2 | GRet => LGRet
  | GWaitBlk _ => LSyncBlk
  | GWaitSig _ => match c s with CCloseLoop => LGCancelSeen | _ => LSyncSig end
  | GDone | GNone => match c s with CHdLock => LLock | _ => LRecvClosed end
  end.

Lemma not_stuck_inv s : Inv s -> stuck s = false.
Proof.
  intros [I I2]. destruct (in_call s) eqn:IC; [|unfold stuck; rewrite IC; reflexivity].
  apply (witness_not_stuck s (pick s)).
  - unfold pick. destruct (g s); try reflexivity; try (destruct (is_nil _); reflexivity); destruct (c s); reflexivity.
  - (* by goroutine and caller program counter; the invariants exclude the states in which [pick s] is disabled: the
       goroutine waiting on a closed channel (invb), the caller receiving after the goroutine has returned with the
       channels still open (inv2) *)
    unfold enabledb, pick, in_call in *.
    destruct s as [ec mv st cs ca tp bc sc he co g0 b bok h hok c0 q hi]; cbn [g c build hs] in *.
    unfold invb, inv2, opn in *; cbn [g c build hs early_closes build_ok blk_closed sig_closed cancel_set started cancelled] in *.
    destruct g0 as [| | | |[|]|[|]| | | | | |]; destruct c0; try discriminate; cbn in I, I2 |- *; try discriminate; try reflexivity.
    all: try (destruct b as [|[?|] ?]; cbn; reflexivity).
    all: try (destruct h as [|[?|] ?]; cbn; try reflexivity; destruct hok; reflexivity).
    all: bsplit; subst; cbn in *; try discriminate; try reflexivity.
    all: try (destruct ec; reflexivity).
    all: destruct bc, sc, ec; try reflexivity; try discriminate; cbn in I2; rewrite andb_false_r in I2; discriminate.
Qed.

(* no reachable state is stuck, from any start that satisfies both invariants: any scripts, either code *)
Lemma reach_not_stuck s0 s : Inv s0 -> reach s0 s -> stuck s = false.
Proof. intros I R. apply not_stuck_inv. exact (Inv_reach s0 s I R). Qed.
