(* C13 — the client never settles on a protocol version it did not advertise.

   advertised specmin w = the versions the wire hello w advertises: the supported_versions list when the
   extension is present (GREASE entries are not versions), otherwise [spec minimum .. legacy_version].
   versions_synced v specmin w = the hello's own supportedVersions field is that wire list (extension present),
   resp. the configured range stays within [spec minimum .. legacy_version] (extension absent); checked for
   every parrot on every run by Corr/C13Corr.v (CInst) and in every decision case (CVers).
   State of the files: they describe the tree WITH fixes/C13-version-not-offered.diff applied (env_fixed:
   UConn.clientHandshake refuses a version that hello.supportedVersions does not list); the pre-fix
   behaviour (env_unfixed) is refuted below with the Firefox_102 witness. *)
From UV Require Import Base.Common Model.Negotiate Model.NegotiateSess Proofs.NegotiateP Proofs.NegotiateVersP Proofs.NegotiateSessP.

(* whatever the server sends (legacy_version only, supported_versions, HRR first, ...), a completed handshake
   is at a version the wire hello advertised *)
Theorem C13_version_advertised : forall v specmin w fl st,
  versions_synced v specmin w = true -> client_run v fl = Complete st ->
  In (cs_vers st) (advertised specmin w).
Proof. exact version_fixed. Qed.
Print Assumptions C13_version_advertised.

(* before the repair the same statement is false (F-13): Firefox_102 (TLSVersMin 1.0, supported_versions
   {1.3, 1.2}) completes at TLS 1.0 with a legacy server *)
Theorem C13_version_before_fix_refuted : ~ version_statement env_unfixed.
Proof.
  intros H.
  specialize (H f13_view 769 f13_wire f13_flight (mkState 769 49171 29 [] false false)).
  assert (K : In 769 (advertised 769 f13_wire)).
  { apply H; vm_compute; reflexivity. }
  vm_compute in K. intuition discriminate.
Qed.
Print Assumptions C13_version_before_fix_refuted.

(* ... and held exactly for specs whose configured range is within the advertised set *)
Theorem C13_version_before_fix_holds_if : forall v specmin w fl st e,
  versions_consistent v specmin w = true -> client_run_gen e v fl = Complete st ->
  In (cs_vers st) (advertised specmin w).
Proof.
  intros v specmin w fl st e Hc Hr. destruct (completed_version _ _ _ _ Hr) as [H1 _]. eapply consistent_in; eauto.
Qed.
Print Assumptions C13_version_before_fix_holds_if.

(* the version is also one the configuration allows (pickTLSVersion) *)
Theorem C13_version_configured : forall e v fl st,
  client_run_gen e v fl = Complete st ->
  In (cs_vers st) (client_versions v) /\ version_offered e v (cs_vers st) = true.
Proof. exact completed_version. Qed.
Print Assumptions C13_version_configured.

(* downgrade sentinel: a client whose own maximum is TLS 1.3 completes only at 1.3 when the first server
   hello carries DOWNGRD\x01 or DOWNGRD\x00 *)
Theorem C13_canary : forall e v fl st,
  max_version v = V13 ->
  h_tail (first_hello fl) = 1 \/ h_tail (first_hello fl) = 2 ->
  client_run_gen e v fl = Complete st -> cs_vers st = V13.
Proof.
  intros e v fl st Hm Ht Hr.
  eapply settled_canary; [apply offered_max_of_config; exact Hm | exact Ht | apply client_run_inv, Hr].
Qed.
Print Assumptions C13_canary.

(* the property's reading "whenever the WIRE hello offered TLS 1.3" (supported_versions lists 1.3), for every
   spec: with the repair the sentinel test takes its maximum from what the hello lists *)
Theorem C13_canary_wire : forall v specmin w fl st,
  versions_synced v specmin w = true -> offers13 w = true ->
  (h_tail (first_hello fl) = 1 \/ h_tail (first_hello fl) = 2) ->
  client_run v fl = Complete st -> cs_vers st = V13.
Proof. exact canary_fixed. Qed.
Print Assumptions C13_canary_wire.

(* before the repair that reading was false for a spec whose TLSVersMax is below the maximum its
   supported_versions extension lists (witness: TLSVersMax 1.2 with {1.3, 1.2}; replayed by the runner
   with such a custom spec, key canary/custom-max-below-offered) ... *)
Theorem C13_canary_wire_before_fix_refuted : ~ canary_statement env_unfixed.
Proof.
  intros H.
  specialize (H canary_view 771 canary_wire canary_flight (mkState 771 49199 29 [] false false)).
  assert (K : 771 = V13).
  { apply H; [vm_compute; reflexivity | vm_compute; reflexivity | left; reflexivity | vm_compute; reflexivity]. }
  discriminate.
Qed.
Print Assumptions C13_canary_wire_before_fix_refuted.

(* ... and held exactly for specs whose configured maximum is 1.3 whenever the wire offers 1.3 *)
Theorem C13_canary_before_fix_holds_if : forall e v w fl st,
  canary_consistent v w = true -> offers13 w = true ->
  (h_tail (first_hello fl) = 1 \/ h_tail (first_hello fl) = 2) ->
  client_run_gen e v fl = Complete st -> cs_vers st = V13.
Proof.
  unfold canary_consistent. intros e v w fl st Hc Ho Ht Hr. rewrite Ho in Hc. apply N.eqb_eq in Hc.
  exact (C13_canary e v fl st Hc Ht Hr).
Qed.
Print Assumptions C13_canary_before_fix_holds_if.

(* Histories: the ClientHello offers a TLS <= 1.2 session cached by an earlier connection.
   client_run_sess (Model/NegotiateSess.v) adds the resumption branch of processServerHello; the version pick, the
   offered-version check and the sentinel test precede it and do not look at the session. *)
Theorem C13_session_conservative : forall e v ems fl, client_run_sess e v None ems fl = client_run_gen e v fl.
Proof. exact sess_none. Qed.
Print Assumptions C13_session_conservative.

Theorem C13_version_advertised_with_session : forall v specmin w sess ems fl st,
  versions_synced v specmin w = true ->
  client_run_sess env_fixed v sess ems fl = Complete st -> In (cs_vers st) (advertised specmin w).
Proof. exact version_sess_fixed. Qed.
Print Assumptions C13_version_advertised_with_session.

(* whatever session is offered and whether or not the server resumes it *)
Theorem C13_canary_with_session : forall v specmin w sess ems fl st,
  versions_synced v specmin w = true -> offers13 w = true ->
  h_tail (first_hello fl) = 1 \/ h_tail (first_hello fl) = 2 ->
  client_run_sess env_fixed v sess ems fl = Complete st -> cs_vers st = V13.
Proof. exact canary_sess_fixed. Qed.
Print Assumptions C13_canary_with_session.

(* in particular when the cached session has the very version the server answers with *)
Theorem C13_canary_session_same_version : forall v specmin w s ems fl,
  versions_synced v specmin w = true -> offers13 w = true ->
  h_tail (first_hello fl) = 1 \/ h_tail (first_hello fl) = 2 ->
  h_sv (first_hello fl) = 0 -> h_vers (first_hello fl) = s_vers s -> s_vers s <> V13 ->
  exists a, client_run_sess env_fixed v (Some s) ems fl = Abort a.
Proof. exact canary_sess_same_version. Qed.
Print Assumptions C13_canary_session_same_version.

(* a resumed session is resumed at its own version and suite *)
Theorem C13_resumed_at_session_version : forall e v vers h fl s ems st,
  resumes v (Some s) h = true -> run12_sess e v vers h fl (Some s) ems = Complete st ->
  s_vers s = vers /\ s_suite s = cs_suite st /\ In (cs_suite st) (cv_suites v) /\ s_ems s = ems.
Proof. exact run12_sess_resumed. Qed.
Print Assumptions C13_resumed_at_session_version.

(* the premise the correspondence checks on every run (Corr/C13Corr.v): versions_ok = versions_synced, or - hello without
   a supported_versions extension, after fixes/C13-no-supported-versions-extension - Hello.SupportedVersions is the accepted
   versions up to legacy_version. Both C13 conclusions under it, with and without an offered session. *)
Theorem C13_version_advertised_ok : forall v specmin w fl st,
  versions_ok v specmin w = true -> client_run v fl = Complete st -> In (cs_vers st) (advertised specmin w).
Proof. exact version_fixed_ok. Qed.
Print Assumptions C13_version_advertised_ok.

Theorem C13_version_advertised_ok_with_session : forall v specmin w sess ems fl st,
  versions_ok v specmin w = true ->
  client_run_sess env_fixed v sess ems fl = Complete st -> In (cs_vers st) (advertised specmin w).
Proof. exact version_sess_ok. Qed.
Print Assumptions C13_version_advertised_ok_with_session.

Theorem C13_canary_ok_with_session : forall v specmin w sess ems fl st,
  versions_ok v specmin w = true -> offers13 w = true ->
  h_tail (first_hello fl) = 1 \/ h_tail (first_hello fl) = 2 ->
  client_run_sess env_fixed v sess ems fl = Complete st -> cs_vers st = V13.
Proof. exact canary_sess_ok. Qed.
Print Assumptions C13_canary_ok_with_session.

(* the hypotheses are satisfiable *)
Example C13_ex_firefox102_after_fix :
  versions_synced f13_view 769 f13_wire = true /\
  versions_consistent f13_view 769 f13_wire = false /\
  client_run f13_view f13_flight = Abort a_protocol_version /\
  client_run_gen env_unfixed f13_view f13_flight = Complete (mkState 769 49171 29 [] false false) /\
  client_run f13_view (mkFlight None (mkHello 771 0 0 [9] 49171 0 0 0 false None []) [] None (Some 29) true)
  = Complete (mkState 771 49171 29 [] false false).
Proof. vm_compute. repeat split; reflexivity. Qed.

Example C13_ex_canary :
  max_version f13_view = V13 /\
  canary_consistent f13_view f13_wire = true /\ offers13 f13_wire = true /\
  client_run f13_view (mkFlight None (mkHello 771 0 1 [9] 49171 0 0 0 false None []) [] None (Some 29) true)
  = Abort a_illegal_parameter /\
  canary_consistent canary_view canary_wire = false /\
  versions_synced canary_view 771 canary_wire = true /\
  client_run canary_view canary_flight = Abort a_illegal_parameter /\
  client_run_gen env_unfixed canary_view canary_flight = Complete (mkState 771 49199 29 [] false false).
Proof. vm_compute. repeat split; reflexivity. Qed.

Example C13_ex_no_extension :
  let w := mkWire 771 [49199] [0] [29] [] [] [] 0 [] false [] in
  let v := mkView [49199] [29] [] [] [] 0 [] false 769 771 false 0 false [771; 770; 769] 0 in
  versions_synced v 769 w = true /\ advertised 769 w = [771; 770; 769] /\
  client_run v (mkFlight None (mkHello 770 0 0 [] 49199 0 0 0 false None []) [] None (Some 29) true)
  = Complete (mkState 770 49199 29 [] false false).
Proof. vm_compute. repeat split; reflexivity. Qed.

Example C13_ex_resumption :
  let s := mkSess 771 49171 true in
  (* the server resumes (echoes the session id), no sentinel: completes, resumed *)
  client_run_sess env_fixed f13_view (Some s) true
    (mkFlight None (mkHello 771 0 0 [1; 2; 3] 49171 0 0 0 false None []) [] None None true)
  = Complete (mkState 771 49171 0 [] false false) /\
  did_resume env_fixed f13_view (Some s)
    (mkFlight None (mkHello 771 0 0 [1; 2; 3] 49171 0 0 0 false None []) [] None None true) = true /\
  (* same flight with DOWNGRD\x01: refused although the offered session is a TLS 1.2 one *)
  client_run_sess env_fixed f13_view (Some s) true
    (mkFlight None (mkHello 771 0 1 [1; 2; 3] 49171 0 0 0 false None []) [] None None true)
  = Abort a_illegal_parameter /\
  (* full handshake (other session id) with the sentinel: refused as well *)
  client_run_sess env_fixed f13_view (Some s) true
    (mkFlight None (mkHello 771 0 1 [9] 49171 0 0 0 false None []) [] None (Some 29) true)
  = Abort a_illegal_parameter /\
  (* resumption with another suite than the session's: refused *)
  client_run_sess env_fixed f13_view (Some s) true
    (mkFlight None (mkHello 771 0 0 [1; 2; 3] 47 0 0 0 false None []) [] None None true)
  = Abort a_handshake_failure.
Proof. vm_compute. repeat split; reflexivity. Qed.

(* Composition with the marshal model (Model/WriteToUConn.v, Proofs/ComposeP.v, Proofs/ComposeW.v): the premise
   [versions_synced] is a theorem for the view UConn.ApplyConfig builds and the bytes MarshalClientHelloNoECH emits
   from the same header fields and extension list.

   STATE: apply_config models ApplyConfig WITH fixes/C13-no-supported-versions-extension.diff; the function before
   that fix is apply_config_before and C13_version_without_extension_before_fix_refuted keeps its witness: a spec
   with TLSVersMax 1.3 and no SupportedVersionsExtension (or a parrot whose extension the caller removed) sends
   legacy_version 1.2 without supported_versions and completed a handshake at TLS 1.3 - reproduced on the real code
   (notes/Compose.md). *)
From UV Require Model.Marshal Model.ChMarshal Model.WriteToUConn Proofs.ComposeP Proofs.ComposeW.

(* supported_versions sent: Hello.SupportedVersions is the list on the wire (versions_synced for every spec minimum).
   Not sent (fixed ApplyConfig): Hello.SupportedVersions = the versions the configuration accepts up to legacy_version *)
Theorem C13_versions_view_is_wire : forall env bbs padto s es raw s' load ecdhe mlkem sess,
  ChMarshal.wf_specb (WriteToUConn.us_hdr s) es = true ->
  forallb WriteToUConn.typed_ext es = true ->
  ChMarshal.marshal_hello bbs padto (WriteToUConn.us_hdr s) es = Ok raw ->
  WriteToUConn.apply_config env (ChMarshal.marshal_hello bbs padto (WriteToUConn.us_hdr s) es) s es = Ok s' ->
  let v := WriteToUConn.view_of (WriteToUConn.finish load es s') es ecdhe mlkem sess in
  exists w, WriteToUConn.wire_of raw = Some w /\ w_legacy w = Marshal.h_vers (WriteToUConn.us_hdr s) /\
    if existsb WriteToUConn.is_versions_ext es
    then w_has_sv w = true /\ forall specmin, versions_synced v specmin w = true
    else w_has_sv w = false
         /\ cv_sv v = filter (fun x => x <=? Marshal.h_vers (WriteToUConn.us_hdr s)) (client_versions v)
         /\ cv_sv v <> [].
Proof. exact ComposeP.compose_versions. Qed.
Print Assumptions C13_versions_view_is_wire.

(* THE PROPERTY without the premise: for every header and extension list inside the C02 precondition, every state of
   the UConn before ApplyConfig, every server flight: a completed handshake is at a version the marshalled hello
   advertised. specmin = the spec's minimum; Config.MinVersion (written by SetTLSVers from it) must not be below it. *)
Theorem C13_version_advertised_from_spec : forall env bbs padto s es raw s' load ecdhe mlkem sess,
  ChMarshal.wf_specb (WriteToUConn.us_hdr s) es = true ->
  forallb WriteToUConn.typed_ext es = true ->
  ChMarshal.marshal_hello bbs padto (WriteToUConn.us_hdr s) es = Ok raw ->
  WriteToUConn.apply_config env (ChMarshal.marshal_hello bbs padto (WriteToUConn.us_hdr s) es) s es = Ok s' ->
  forall specmin fl st,
  specmin <= (if WriteToUConn.us_cfg_min s =? 0 then 771 else WriteToUConn.us_cfg_min s) ->
  client_run (WriteToUConn.view_of (WriteToUConn.finish load es s') es ecdhe mlkem sess) fl = Complete st ->
  exists w, WriteToUConn.wire_of raw = Some w /\ In (cs_vers st) (advertised specmin w).
Proof. exact ComposeP.compose_version_advertised. Qed.
Print Assumptions C13_version_advertised_from_spec.

(* ... and starting from a ClientHelloSpec: mn = the minimum SetTLSVers derives from it *)
Theorem C13_version_advertised_from_preset : forall sp c fr h es mn mx env bbs padto raw s' load ecdhe mlkem sess fl st,
  Preset.apply_preset sp c fr = Ok (h, es) -> Preset.set_tls_vers sp = Ok (mn, mx) ->
  ChMarshal.wf_specb h es = true -> forallb WriteToUConn.typed_ext es = true ->
  ChMarshal.marshal_hello bbs padto h es = Ok raw ->
  WriteToUConn.apply_config env (ChMarshal.marshal_hello bbs padto h es) (ComposeW.preset_state h mn mx) es = Ok s' ->
  client_run (WriteToUConn.view_of (WriteToUConn.finish load es s') es ecdhe mlkem sess) fl = Complete st ->
  exists w, WriteToUConn.wire_of raw = Some w /\ In (cs_vers st) (advertised mn w).
Proof. exact ComposeW.version_advertised_preset. Qed.
Print Assumptions C13_version_advertised_from_preset.

(* the downgrade sentinel, without the premise: the marshalled hello lists TLS 1.3 *)
Theorem C13_canary_from_spec : forall env bbs padto s es raw s' load ecdhe mlkem sess,
  ChMarshal.wf_specb (WriteToUConn.us_hdr s) es = true ->
  forallb WriteToUConn.typed_ext es = true ->
  ChMarshal.marshal_hello bbs padto (WriteToUConn.us_hdr s) es = Ok raw ->
  WriteToUConn.apply_config env (ChMarshal.marshal_hello bbs padto (WriteToUConn.us_hdr s) es) s es = Ok s' ->
  forall fl st,
  (exists w, WriteToUConn.wire_of raw = Some w /\ offers13 w = true) ->
  h_tail (first_hello fl) = 1 \/ h_tail (first_hello fl) = 2 ->
  client_run (WriteToUConn.view_of (WriteToUConn.finish load es s') es ecdhe mlkem sess) fl = Complete st ->
  cs_vers st = V13.
Proof.
  intros * Hwf Hty Hraw Hcfg fl st (w0 & Hw0 & Hoff) Htail Hrun.
  destruct (ComposeP.compose_versions _ _ _ _ _ _ _ load ecdhe mlkem sess Hwf Hty Hraw Hcfg) as (w & Hw & _ & Hv).
  rewrite Hw0 in Hw. inversion Hw; subst w0.
  destruct (existsb WriteToUConn.is_versions_ext es).
  - destruct Hv as [_ Hs]. exact (canary_fixed _ 0 w fl st (Hs 0) Hoff Htail Hrun).
  - destruct Hv as (Hno & _). unfold offers13 in Hoff. rewrite Hno in Hoff. discriminate.
Qed.
Print Assumptions C13_canary_from_spec.

(* the same statement as C13_version_advertised_from_spec about ApplyConfig BEFORE the repair is false:
   header legacy_version 1.2, extensions supported_groups / key_share / signature_algorithms and no supported_versions,
   Config 1.2..1.3 and Hello.SupportedVersions [1.3; 1.2] as SetTLSVers leaves them for TLSVersMin 1.2 / TLSVersMax 1.3;
   a ServerHello selecting TLS 1.3 is accepted although the wire advertises [1.2] only *)
Theorem C13_version_without_extension_before_fix_refuted : ~ ComposeW.version_statement_before.
Proof. exact ComposeW.version_before_refuted. Qed.
Print Assumptions C13_version_without_extension_before_fix_refuted.

(* with the repair that handshake is refused (protocol_version): Hello.SupportedVersions is [1.2] *)
Example C13_ex_without_extension_after_fix :
  match ChMarshal.marshal_hello (fun _ => 512) 0%Z ComposeW.w13_hdr ComposeW.w13_exts with
  | Ok raw =>
    match WriteToUConn.apply_config (WriteToUConn.mkEnvW false) (Ok raw) ComposeW.w13_state ComposeW.w13_exts with
    | Ok s' => WriteToUConn.us_versions s' = [771]
               /\ client_run (WriteToUConn.view_of s' ComposeW.w13_exts 29 false 0) ComposeW.w13_flight = Abort a_protocol_version
    | _ => False
    end
  | _ => False
  end.
Proof. exact ComposeW.version_after_fix. Qed.

(* non-vacuity of the premises on a shipped parrot: Chrome_133 through ApplyPreset, marshal, ApplyConfig and the strict
   parser; versions_synced and offers13 hold by computation, the client completes at TLS 1.3 (same term as
   C12_ex_chrome133_composed) *)
Example C13_ex_chrome133_composed : ComposeW.ex_chrome133 = true.
Proof. vm_compute. reflexivity. Qed.

(* THE PROPERTY for every shipped parrot (Gen/Parrots.v), every rearrangement the shuffle can produce, every Config with an
   SNI name of at most 255 bytes and OmitEmptyPsk, every randomness, every server flight: no premise on ApplyPreset's output
   (Model/PresetOk.v, Proofs/PresetOkC.v; the names are explained in the reading guide of Props/C02.v). mn = the spec's minimum. *)
From UV Require Model.PresetOk Model.Shuffle Model.ParrotSpec Gen.Parrots Proofs.PresetOkC.
Theorem C13_version_advertised_from_parrot : forall p swaps exts', In p Parrots.all ->
  Shuffle.shuffle ParrotSpec.fixedb swaps (Preset.sp_exts (Preset.p_spec p)) = Ok exts' ->
  forall c fr h es, PresetOkC.parrot_class c ->
  Preset.apply_preset (PresetOk.with_exts (Preset.p_spec p) exts') c fr = Ok (h, es) ->
  forall mn mx env bbs padto raw s' load ecdhe mlkem sess fl st,
  Preset.set_tls_vers (PresetOk.with_exts (Preset.p_spec p) exts') = Ok (mn, mx) ->
  ChMarshal.marshal_hello bbs padto h es = Ok raw ->
  WriteToUConn.apply_config env (ChMarshal.marshal_hello bbs padto h es) (ComposeW.preset_state h mn mx) es = Ok s' ->
  client_run (WriteToUConn.view_of (WriteToUConn.finish load es s') es ecdhe mlkem sess) fl = Complete st ->
  exists w, WriteToUConn.wire_of raw = Some w /\ In (cs_vers st) (advertised mn w).
Proof. exact PresetOkC.parrot_version_advertised. Qed.
Print Assumptions C13_version_advertised_from_parrot.

(* imported last and only so that the driver's closure scan (lib/vcheck.py follows "Require Import" lines) covers the
   composition files; nothing follows, so no name of this file is shadowed *)
From UV Require Import Model.WriteToUConn Proofs.ComposeP Proofs.ComposeW.
From UV Require Import Model.PresetOk Proofs.PresetOkP Proofs.PresetOkS Proofs.PresetOkT Proofs.PresetOkC.
