From UV Require Import Base.Common Model.Negotiate Proofs.NegotiateP Model.Transcript.

Lemma hello_part_equal H s m : client_hello_part H s m = server_hello_part H s m.
Proof. unfold client_hello_part, server_hello_part. destruct (s_hrr s); reflexivity. Qed.

Lemma to_server_finished_equal H s m : client_to_server_finished H s m = server_to_server_finished H s m.
Proof. unfold client_to_server_finished, server_to_server_finished. rewrite hello_part_equal. reflexivity. Qed.

Lemma to_client_finished_equal H s m : client_to_client_finished H s m = server_to_client_finished H s m.
Proof. unfold client_to_client_finished, server_to_client_finished. rewrite to_server_finished_equal. reflexivity. Qed.

Lemma session12_equal s m : client_session12 s m = server_session12 s m.
Proof. reflexivity. Qed.

(* what a completed client reports is what the server's messages say. f_hrr = None: the ServerHello is the first hello the version was picked from. With a HelloRetryRequest
   the (TLS 1.3) ServerHello's own supported_versions is checked by check_hello13. *)
Lemma params_agree e v fl st : client_run_gen e v fl = Complete st ->
  let ss := server_state fl in
  cs_vers st = ss_vers ss /\ cs_suite st = ss_suite ss /\ cs_group st = ss_group ss /\
  cs_alpn st = ss_alpn ss /\ cs_psk st = ss_resumed ss.
Proof.
  intros Hr ss. subst ss. destruct (client_run_inv Hr) as [(P & _) C].
  apply pick_version_peer in P. unfold server_state. fold (first_hello fl). rewrite <- P.
  destruct C as [[E A]|[E A]].
  - rewrite E, (a13_suite A), (a13_group A), (a13_alpn A), (a13_resumed A).
    cbn. repeat split; reflexivity.
  - rewrite (proj2 (N.eqb_neq _ _) E), (a12_suite A), (a12_group A), (a12_alpn A),
      (a12_resumed A).
    cbn. repeat split; reflexivity.
Qed.

Definition is_sni (e : sni_item) : bool := match e with SniExt _ => true | NoSni => false end.
Definition sni_count (exts : list sni_item) : nat := length (filter is_sni exts).

Lemma no_sni_neutral host start exts : sni_count exts = 0%nat ->
  apply_config host start exts = start /\ wire_snis host exts = [].
Proof.
  revert start. induction exts as [|e exts IH]; intros start Hc; [split; reflexivity|].
  destruct e as [n|]; unfold sni_count in Hc; cbn [filter is_sni length] in Hc; [discriminate|].
  unfold apply_config, wire_snis in *. cbn [fold_left flat_map app]. apply IH. exact Hc.
Qed.

(* with exactly one SNI extension the value Hello.ServerName had before ApplyConfig's loop does not matter *)
Lemma one_sni_decides host start exts : sni_count exts = 1%nat ->
  server_server_name host exts = Some (apply_config host start exts).
Proof.
  unfold server_server_name. revert start.
  induction exts as [|e exts IH]; intros start Hc; [discriminate|].
  destruct e as [n|].
  - unfold sni_count in Hc. cbn [filter is_sni length] in Hc.
    assert (H0 : sni_count exts = 0%nat) by (unfold sni_count; lia).
    unfold apply_config, wire_snis. cbn [fold_left flat_map].
    destruct (no_sni_neutral host (host n) exts H0) as [Ha Hw].
    unfold apply_config, wire_snis in Ha, Hw. rewrite Ha, Hw.
    destruct (host n); reflexivity.
  - unfold apply_config, wire_snis in *. cbn [fold_left flat_map app]. apply IH.
    unfold sni_count in *. cbn [filter is_sni] in Hc. exact Hc.
Qed.

(* F-11: RemoveSNIExtension / a spec without SNI, Config.ServerName = "example.com" *)
Definition f11_name : bytes := [101; 120; 97; 109; 112; 108; 101; 46; 99; 111; 109].
