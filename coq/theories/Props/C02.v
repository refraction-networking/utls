(* C02 — Every ClientHello utls emits is syntactically valid TLS.

   STATE OF THE FILES: the model describes the code WITH fixes/C02-clienthello-length-fields.diff
   (a check in MarshalClientHelloNoECH that the session id, cipher suite, compression method and
   extension block lengths fit their length fields).  Without that check the full statement is
   FALSE — C02_without_check_refuted below keeps the witness (DESIGN F-02b), which the runner
   replays on the real code on every run (corpus/ext-block-2x40000).

   Reading guide.
     marshal_hello bbs padto h es   UConn.MarshalClientHelloNoECH (fixed) on header fields h and the extension
                                    objects es (Model/Ext.v), each marshalled through its own Len()/Read();
                                    bbs: spare capacity of bytes.Buffer (any function), padto: the argument of
                                    AlwaysPadToLen if that is the padding functor
     marshal_hello_unchecked        the same function without that check
     wf_specb h es                  the precondition of the property: 32-byte random, session id <= 32, at least
                                    one cipher suite / compression method, every extension within its wire limits
                                    (wf_ext) and RFC minimum sizes (rfc_ok), extension types pairwise distinct,
                                    pre_shared_key only last
     valid_ch raw                   the strict grammar of Model/Strict.v (RFC 8446 s4.1.2 + per-extension
                                    grammars) accepts raw, no extension type repeats, pre_shared_key is last
     hello_layout a                 the message written with length-prefix combinators (a prefix IS the length
                                    of what follows it) *)
From UV Require Import Base.Common Model.Wire Model.Varint Model.Ext Model.ExtSpec Model.Strict.
From UV Require Import Proofs.WireP Proofs.ExtP Proofs.StrictP.
From UV Require Import Model.Padding Model.Marshal Model.ChMarshal Proofs.MarshalP Proofs.ChMarshalP.

(* The property: inside the precondition the function returns a valid ClientHello or an error —
   it never panics and never returns malformed bytes.  For every header, extension list, padding
   policy and bytes.Buffer behaviour. *)
Theorem C02_valid_or_error : forall bbs padto h es, wf_specb h es = true ->
  match marshal_hello bbs padto h es with
  | Ok raw => valid_ch raw
  | Err _ => True
  | Panic _ => False
  end.
Proof.
  intros bbs padto h es Hwf. destruct (spec_fitsb padto h es) eqn:Hfit.
  - destruct (encodes_when_fits bbs padto h es Hwf Hfit) as (raw & -> & Hv). exact Hv.
  - destruct (too_large_is_error bbs padto h es Hfit) as (c & ->). exact I.
Qed.
Print Assumptions C02_valid_or_error.

(* ... and the error is returned ONLY for totals beyond the length fields: when they fit
   (spec_fitsb, decidable from the spec without producing bytes) the result is a valid hello. *)
Theorem C02_encodes_when_fits : forall bbs padto h es, wf_specb h es = true -> spec_fitsb padto h es = true ->
  exists raw, marshal_hello bbs padto h es = Ok raw /\ valid_ch raw.
Proof. exact encodes_when_fits. Qed.
Print Assumptions C02_encodes_when_fits.

(* What is emitted, exactly: the combinator layout of the header fields and of the extensions that
   write anything, in spec order (a subsequence of the spec's extension types containing every
   non-padding extension that writes anything, with its RFC body). *)
Theorem C02_emits_layout : forall bbs padto h es p, wf_specb h es = true ->
  marshal_prepare h (map (to_aext padto) es) = Ok p -> fits h p = true ->
  exists present,
    marshal_hello bbs padto h es =
      Ok (hello_layout {| c_vers := h_vers h; c_random := h_random h; c_sid := h_sid h; c_suites := h_suites h;
                          c_comp := h_comp h; c_has_exts := nonempty es; c_exts := present |})
    /\ subseq (map fst present) (map ext_id es)
    /\ ast_ok {| c_vers := h_vers h; c_random := h_random h; c_sid := h_sid h; c_suites := h_suites h;
                 c_comp := h_comp h; c_has_exts := nonempty es; c_exts := present |}
    /\ (forall e, In e es -> is_padding e = false -> ext_absent e = false -> In (ext_id e, ext_body e) present).
Proof. exact marshal_hello_ok. Qed.
Print Assumptions C02_emits_layout.

(* A spec that cannot be encoded gives an error, not garbage — for ANY header and extension list
   (no precondition): totals beyond a length field ... *)
Theorem C02_error_not_garbage : forall bbs padto h es, spec_fitsb padto h es = false ->
  exists c, marshal_hello bbs padto h es = Err c.
Proof. exact too_large_is_error. Qed.
Print Assumptions C02_error_not_garbage.

(* ... two padding extensions ... *)
Theorem C02_two_paddings_error : forall bbs padto h a l1 w1 p1 b l2 w2 p2 c,
  marshal_hello bbs padto h (a ++ EPadding l1 w1 p1 :: b ++ EPadding l2 w2 p2 :: c) = Err E_MULTI_PADDING.
Proof.
  intros. unfold marshal_hello, marshal_prepare. rewrite map_app. cbn [map]. rewrite map_app. cbn [map to_aext].
  rewrite find_padding_two. reflexivity.
Qed.
Print Assumptions C02_two_paddings_error.

(* ... and whatever is returned as Ok has the announced handshake length, which fits its uint24. *)
Theorem C02_ok_has_length : forall bbs padto h es raw, marshal_hello bbs padto h es = Ok raw ->
  exists p, marshal_prepare h (map (to_aext padto) es) = Ok p /\ fits h p = true /\ len raw = 4 + pr_hello_len p.
Proof. exact ok_has_length. Qed.
Theorem C02_uint24_never_overflows : forall padto h es p,
  marshal_prepare h (map (to_aext padto) es) = Ok p -> fits h p = true -> pr_hello_len p < 16777216.
Proof. exact fits_hello_len. Qed.
Print Assumptions C02_uint24_never_overflows.

(* Inside the precondition the length computation itself never fails (at most one padding extension). *)
Theorem C02_prepare_succeeds : forall padto h es, wf_specb h es = true ->
  exists p, marshal_prepare h (map (to_aext padto) es) = Ok p.
Proof. exact prepare_of_wf. Qed.

(* Soundness: whatever strict_parse accepts IS the combinator layout of the fields it returns — every
   length prefix (uint24 handshake length, session id, cipher suites, compression methods, extension
   block, each extension) is the length of what it precedes, nothing trails — and the fields are within
   the RFC 8446 s4.1.2 bounds with every extension body in the grammar of its type. *)
Theorem C02_strict_sound : forall raw a, bytes_ok raw -> strict_parse raw = Some a ->
  raw = hello_layout a /\ ast_ok a.
Proof. exact strict_parse_sound. Qed.
Print Assumptions C02_strict_sound.

(* Completeness on layouts: the parser is not vacuous. *)
Theorem C02_strict_complete : forall a, ast_ok a -> strict_parse (hello_layout a) = Some a.
Proof. exact strict_parse_layout. Qed.
Print Assumptions C02_strict_complete.

(* The runner's boolean oracle decides valid_ch. *)
Theorem C02_oracle_decides : forall b, valid_chb b = true <-> valid_ch b.
Proof. exact valid_chb_spec. Qed.

(* Every built-in extension type's RFC layout is in the strict grammar of its extension_type
   (31 constructors), given field values within the RFC limits. *)
Theorem C02_body_in_grammar : forall e, wf_ext e = true -> rfc_ok e = true -> ext_absent e = false ->
  body_okb (ext_id e) (ext_body e) = true.
Proof. exact body_ok_ext. Qed.
Print Assumptions C02_body_in_grammar.

(* the defect the check found (DESIGN F-02b), kept as a theorem about the UNFIXED function *)

Definition C02_witness_hdr : hello_hdr :=
  {| h_vers := 771; h_random := repeat 7 32; h_sid := repeat 9 32; h_suites := [4865; 49199]; h_comp := [0] |}.
(* two GenericExtensions of 40000 bytes each: each within its own uint16 limit, the block is 80008 bytes *)
Definition C02_witness_exts : list ext :=
  [EGeneric 4660 (repeat 170 (N.to_nat 40000)); EGeneric 4661 (repeat 187 (N.to_nat 40000))].

Definition C02_valid_or_error_without_check : Prop :=
  forall bbs padto h es, wf_specb h es = true ->
  match marshal_hello_unchecked bbs padto h es with
  | Ok raw => valid_ch raw
  | Err _ => True
  | Panic _ => False
  end.

(* uint16(extensionsLen) silently truncates: Ok with 80089 bytes whose extensions length field says
   14472; the strict grammar rejects them *)
Theorem C02_without_check_refuted : ~ C02_valid_or_error_without_check.
Proof.
  intros H. specialize (H (fun _ => 512) 0%Z C02_witness_hdr C02_witness_exts).
  assert (Hwf : wf_specb C02_witness_hdr C02_witness_exts = true) by (vm_compute; reflexivity).
  specialize (H Hwf).
  (* the bytes are those of the marshalling theorem, so that only the oracle is run, not the buffered writer.
     The lemma is instantiated before rewriting: [rewrite (unchecked_nopad ...) in H] normalises the let/match of its
     right-hand side over the 80 kB closed witness, which takes minutes *)
  pose proof (unchecked_nopad (fun _ => 512) 0%Z _ _ Hwf ltac:(repeat constructor)) as E. cbv zeta in E.
  rewrite E in H. apply valid_chb_spec in H. revert H. vm_compute. discriminate.
Qed.
Print Assumptions C02_without_check_refuted.

(* the fixed function refuses the same input *)
Example C02_ex_witness_refused :
  marshal_hello (fun _ => 512) 0%Z C02_witness_hdr C02_witness_exts = Err E_TOO_LARGE
  /\ spec_fitsb 0%Z C02_witness_hdr C02_witness_exts = false.
Proof.
  assert (Hp : match marshal_prepare C02_witness_hdr (map (to_aext 0%Z) C02_witness_exts) with
               | Ok p => fits C02_witness_hdr p | _ => true end = false) by (vm_compute; reflexivity).
  unfold marshal_hello, spec_fitsb.
  destruct (marshal_prepare C02_witness_hdr (map (to_aext 0%Z) C02_witness_exts)) as [p| |]; try discriminate Hp.
  cbn [bind]. rewrite Hp. split; reflexivity.
Qed.

(* non-vacuity: a realistic spec inside the precondition, and what it marshals to *)
Definition C02_ex_exts : list ext :=
  [ EGREASE 2570 []; ESNI [101; 120; 97; 109; 112; 108; 101; 46; 99; 111; 109]; EExtendedMasterSecret;
    ERenegotiationInfo 1 []; ESupportedCurves [2570; 29; 23; 24]; ESupportedPoints [0]; ESessionTicket [];
    EALPN [[104; 50]; [104; 116; 116; 112; 47; 49; 46; 49]]; EStatusRequest;
    ESignatureAlgorithms [1027; 2052; 1025; 1283]; ESCT;
    EKeyShare [(2570, [0]); (29, repeat 5 32)]; EPSKKeyExchangeModes [1]; ESupportedVersions [2570; 772; 771];
    ECompressCert [2]; EApplicationSettings [[104; 50]]; EGREASEECH 1 1 77 (repeat 3 32) (repeat 4 144);
    EPadding 0 false PadBoring;
    EFakePreSharedKey true [([1; 2; 3], 99)] [repeat 6 32] ].

Example C02_ex_wf : wf_specb C02_witness_hdr C02_ex_exts = true /\ spec_fitsb 0%Z C02_witness_hdr C02_ex_exts = true.
Proof. split; vm_compute; reflexivity. Qed.

Example C02_ex_marshals :
  match marshal_hello (fun _ => 512) 0%Z C02_witness_hdr C02_ex_exts with
  | Ok raw => valid_chb raw = true /\ blen raw = 512
              /\ option_map ext_types (strict_parse raw)
                 = Some [2570; 0; 23; 65281; 10; 11; 35; 16; 5; 13; 18; 51; 45; 43; 27; 17513; 65037; 21; 41]
  | _ => False
  end.
Proof. vm_compute. repeat split; reflexivity. Qed.

(* the oracle rejects: a wrong extensions length, a duplicated extension, pre_shared_key not last,
   a supported_versions body with a wrong inner length *)
Example C02_ex_oracle_rejects :
  let h := [3; 3] ++ repeat 7 32 ++ [0] ++ [0; 2; 19; 1] ++ [1; 0] in
  let mk (eb : bytes) (extlen : N) := [1] ++ enc_u24lp (h ++ enc_u16 extlen ++ eb) in
  let ems := [0; 23; 0; 0] in
  let psk := [0; 41] ++ enc_u16lp (enc_u16lp (enc_u16lp [1] ++ enc_u32 0) ++ enc_u16lp (enc_u8lp (repeat 0 32))) in
  valid_chb (mk ems 4) = true
  /\ valid_chb (mk ems 5) = false /\ valid_chb (mk (ems ++ ems) 8) = false
  /\ valid_chb (mk (ems ++ psk) (blen (ems ++ psk))) = true /\ valid_chb (mk (psk ++ ems) (blen (ems ++ psk))) = false
  /\ valid_chb (mk [0; 43; 0; 3; 2; 3; 4] 7) = true /\ valid_chb (mk [0; 43; 0; 3; 3; 3; 4] 7) = false.
Proof. vm_compute. repeat split; reflexivity. Qed.

(* From a ClientHelloSpec.  C02_valid_or_error starts from header fields and extension objects inside wf_specb; for a
   hello that comes from a ClientHelloSpec through ApplyPreset (Model/Preset.v) that is a condition on what ApplyPreset
   returns.  The theorems below start from a STATIC predicate on the spec (Model/PresetOk.v) instead:
   [PresetOk.preset_ok sp snimax omit] is decidable from the spec alone (per extension: the value ApplyPreset will
   leave is within wire limits and RFC minimum sizes whatever GREASE values, SNI name of at most snimax bytes, generated
   key shares, GREASE-ECH draws and OmitEmptyPsk = omit the connection brings; globally: types pairwise distinct with the
   GREASE extensions on their two distinct GREASE types, pre_shared_key last, <= 2 GREASE extensions, <= 1 session_ticket,
   padding nil/Boring, maximal lengths + 516 bytes of Boring padding within the uint16 extensions length).
   Config class: blen (hostnameInSNI ServerName) <= snimax and Config.OmitEmptyPsk = omit. *)
From UV Require Model.Preset Model.ParrotSpec Model.Shuffle Model.WriteToUConn Model.PresetOk Gen.Parrots.
From UV Require Proofs.PresetOkP Proofs.PresetOkS Proofs.PresetOkT Proofs.PresetOkC Proofs.ComposeW.

(* every spec in the static class, every Config in the class, every randomness: what ApplyPreset leaves is inside the
   precondition, fits, and marshals to a valid ClientHello *)
Theorem C02_preset_ok_output : forall sp c fr snimax omit h es,
  PresetOk.preset_ok sp snimax omit = true -> PresetOk.cfg_in_class c snimax omit ->
  Preset.apply_preset sp c fr = Ok (h, es) ->
  wf_specb h es = true /\ spec_fitsb 0%Z h es = true /\ forallb WriteToUConn.typed_ext es = true
  /\ existsb Preset.pad_other es = false.
Proof. exact PresetOkP.preset_ok_output. Qed.
Print Assumptions C02_preset_ok_output.

Theorem C02_preset_ok_valid : forall sp c fr snimax omit h es,
  PresetOk.preset_ok sp snimax omit = true -> PresetOk.cfg_in_class c snimax omit ->
  Preset.apply_preset sp c fr = Ok (h, es) ->
  exists raw, Preset.build sp c fr = Ok raw /\ marshal_hello Preset.bbs512 0%Z h es = Ok raw /\ valid_ch raw.
Proof. exact PresetOkP.preset_ok_builds. Qed.
Print Assumptions C02_preset_ok_valid.

(* ... and ApplyPreset itself fails for such a spec only for its version bounds or for randomness that does not have the
   shape of the code's draws (short reads); it never panics *)
Theorem C02_preset_ok_failures : forall sp c fr snimax omit,
  PresetOk.preset_ok sp snimax omit = true -> PresetOk.cfg_in_class c snimax omit ->
  match Preset.apply_preset sp c fr with
  | Ok _ => True
  | Err e => In e PresetOkT.allowed_errors
  | Panic _ => False
  end.
Proof. exact PresetOkT.preset_ok_failures. Qed.
Print Assumptions C02_preset_ok_failures.

(* the predicate survives everything the Chrome extension shuffle can do *)
Theorem C02_preset_ok_shuffle : forall sp snimax omit swaps exts',
  PresetOk.preset_ok sp snimax omit = true -> Shuffle.shuffle ParrotSpec.fixedb swaps (Preset.sp_exts sp) = Ok exts' ->
  PresetOk.preset_ok (PresetOk.with_exts sp exts') snimax omit = true.
Proof. exact PresetOkS.preset_ok_shuffle. Qed.
Print Assumptions C02_preset_ok_shuffle.

(* the regenerated table: all 38 parrots are in the class for SNI names up to 255 bytes with OmitEmptyPsk; without
   OmitEmptyPsk all but the four *_PSK parrots (their hello cannot be built without a session: ErrEmptyPsk) *)
Theorem C02_parrots_preset_ok : forallb (fun p => PresetOk.preset_ok (Preset.p_spec p) 255 true) Parrots.all = true.
Proof. exact PresetOkS.parrots_preset_ok. Qed.
Theorem C02_parrots_preset_ok_no_omit :
  forallb (fun p => PresetOk.preset_ok (Preset.p_spec p) 255 false || PresetOkS.has_psk p) Parrots.all = true
  /\ map Preset.p_name (filter PresetOkS.has_psk Parrots.all)
     = map Preset.p_name [Parrots.p_Chrome_100_PSK; Parrots.p_Chrome_112_PSK_Shuf; Parrots.p_Chrome_114_Padding_PSK_Shuf; Parrots.p_Chrome_115_PQ_PSK].
Proof. exact PresetOkS.parrots_preset_ok_no_omit. Qed.

(* END TO END: every shipped parrot, every rearrangement the shuffle can produce (swaps = [] for the ids that do not
   shuffle), every Config in the class, every randomness for which ApplyPreset returns: the hello is built and is a
   valid ClientHello *)
Theorem C02_parrots_valid : forall p swaps exts', In p Parrots.all ->
  Shuffle.shuffle ParrotSpec.fixedb swaps (Preset.sp_exts (Preset.p_spec p)) = Ok exts' ->
  forall c fr h es, PresetOkC.parrot_class c ->
  Preset.apply_preset (PresetOk.with_exts (Preset.p_spec p) exts') c fr = Ok (h, es) ->
  exists raw, Preset.build (PresetOk.with_exts (Preset.p_spec p) exts') c fr = Ok raw
              /\ marshal_hello Preset.bbs512 0%Z h es = Ok raw /\ valid_ch raw.
Proof. exact PresetOkC.parrot_valid. Qed.
Print Assumptions C02_parrots_valid.

(* non-vacuity: a Config in the class and randomness for which ApplyPreset returns (Chrome_133) *)
Example C02_ex_parrot_premises :
  PresetOkC.parrot_class ComposeW.ex_cfg
  /\ is_ok (Preset.apply_preset (PresetOk.with_exts (Preset.p_spec Parrots.p_Chrome_133) (Preset.sp_exts (Preset.p_spec Parrots.p_Chrome_133)))
                                ComposeW.ex_cfg ComposeW.ex_fresh) = true.
Proof. split; [split; [vm_compute; discriminate | reflexivity] | vm_compute; reflexivity]. Qed.

(* imported last, for the driver's closure scan only (lib/vcheck.py follows "Require Import" lines); nothing follows *)
From UV Require Import Model.PresetOk Proofs.PresetOkP Proofs.PresetOkS Proofs.PresetOkT Proofs.PresetOkC.
