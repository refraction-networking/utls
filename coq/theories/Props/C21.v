(* C21 — Compressed server certificates are recovered exactly.
   STATE: the theorems about [decompress_cert] describe the code AFTER fixes/C21-decompress-readfull.diff
   (length cap + io.ReadFull + one-byte probe).  The code as found is [decompress_cert_v0]; the full
   statements FAIL for it (C21_v0_*_refuted, defects F-21a and F-21b) — their witnesses are replayed on the real
   code by the runner (corpus cases "v0-witness/..."), and only the conditional C21_v0_holds_if is true of it.
   The decompressor is an adversarial reader (out, chunks, end); certificateMsgTLS13.unmarshal is the
   quantified function parse_cert. *)
From UV Require Import Base.Common Model.Decompress Proofs.DecompressP.

(* utlsCompressedCertificateMsg: unmarshal (marshal m) = m, also with trailing bytes (which unmarshal ignores). *)
Theorem C21_cc_msg_roundtrip : forall m b, cc_alg m < 65536 -> cc_ulen m < 16777216 ->
  cc_marshal m = Ok b -> forall trailing, cc_unmarshal (b ++ trailing) = Some m.
Proof.
  intros [alg ulen data] b. unfold cc_marshal. cbn [cc_alg cc_ulen cc_data]. intros Ha Hu.
  destruct (N.ltb_spec (dlen data) 16777216) as [Hd|]; [|discriminate]. cbn [negb].
  destruct (negb _); [discriminate|]. intros [= E] trailing.
  (* substituting [b] inside the injection pattern normalises the message and costs the kernel minutes at Qed *)
  rewrite <- E. now apply cc_unmarshal_enc.
Qed.
Print Assumptions C21_cc_msg_roundtrip.

(* Any valid encoding — ANY chunking of the decompressed bytes into positive pieces, ending cleanly — of a
   message up to the handshake limit, under an advertised algorithm, is recovered exactly. *)
Theorem C21_cc_recover : forall C parse_cert ee adv alg out chunks,
  advertisedb adv alg = true -> known_alg alg = true -> good_reader out chunks ->
  dlen out <= maxHandshakeCertificateMsg ->
  decompress_cert C parse_cert ee adv alg (dlen out) true (mkR out chunks REof) =
    match parse_cert (header (dlen out) ++ out) with Some c => Ok c | None => Err alertUnexpectedMessage end.
Proof.
  intros C parse_cert ee adv alg out chunks Ha Hk Hg Hcap. rewrite decompress_spec, Ha, Hk by exact Hg. cbn [r_out r_end andb].
  replace (dlen out <=? maxHandshakeCertificateMsg) with true by lia.
  unfold dlen. rewrite Nat2N.id, Nat.eqb_refl. reflexivity.
Qed.
Print Assumptions C21_cc_recover.

(* decompressed output longer / shorter than declared => bad_certificate, for every chunking and ending *)
Theorem C21_cc_longer : forall C parse_cert ee adv alg declared out chunks e,
  good_reader out chunks -> declared < dlen out ->
  decompress_cert C parse_cert ee adv alg declared true (mkR out chunks e) = Err alertBadCertificate.
Proof. intros C parse_cert ee adv alg declared out chunks e Hg Hlt. apply cc_mismatch; [exact Hg | lia]. Qed.
Print Assumptions C21_cc_longer.
Theorem C21_cc_shorter : forall C parse_cert ee adv alg declared out chunks e,
  good_reader out chunks -> dlen out < declared ->
  decompress_cert C parse_cert ee adv alg declared true (mkR out chunks e) = Err alertBadCertificate.
Proof. exact cc_shorter. Qed.
Print Assumptions C21_cc_shorter.

Theorem C21_cc_unadvertised : forall C parse_cert ee adv alg declared open_ok r,
  advertisedb adv alg = false ->
  decompress_cert C parse_cert ee adv alg declared open_ok r = Err alertBadCertificate.
Proof. exact cc_unadvertised. Qed.
Print Assumptions C21_cc_unadvertised.

(* never a message other than the one compressed: acceptance forces advertised algorithm, declared = actual
   length within the limit, a clean end of stream, and the result is the parse of header ++ exactly those bytes *)
Theorem C21_cc_only_the_compressed : forall C parse_cert ee adv alg declared out chunks e c,
  good_reader out chunks ->
  decompress_cert C parse_cert ee adv alg declared true (mkR out chunks e) = Ok c ->
  advertisedb adv alg = true /\ declared = dlen out /\ e = REof /\ declared <= maxHandshakeCertificateMsg /\
  parse_cert (header declared ++ out) = Some c.
Proof. intros C parse_cert ee adv alg declared. apply cc_only_the_compressed. Qed.
Print Assumptions C21_cc_only_the_compressed.

(* decompressCert as it is after commit 4697a7d: zstd frames declaring Window_Size > 8 MiB are refused.
   [decompress_cert_top] takes what the stream validly encodes (out, chunks) AND, for zstd, the (Window_Size,
   length) of every frame.  The full recovery statement needs the premise "every declared window <= 8 MiB";
   without it it is refuted (a deliberate deviation, recorded as finding valid-stream-rejected/zstd-window-over-8MiB:
   the cap bounds what a hostile frame header can make the client allocate, property C33; RFC 8878 3.1.1.1.2
   recommends encoders not to exceed 8 MB, and a certificate message of <= 256 KiB never needs more). *)
Theorem C21_cc_recover_top : forall C parse_cert ee adv alg out chunks fs,
  advertisedb adv alg = true -> known_alg alg = true -> good_reader out chunks ->
  dlen out <= maxHandshakeCertificateMsg ->
  windows_ok alg fs ->      (* alg = zstd -> every frame declares Window_Size <= 8 MiB *)
  decompress_cert_top C parse_cert ee adv alg (dlen out) true fs (mkR out chunks REof) =
    match parse_cert (header (dlen out) ++ out) with Some c => Ok c | None => Err alertUnexpectedMessage end.
Proof.
  intros C parse_cert ee adv alg out chunks fs Ha Hk Hg Hcap Hw. rewrite top_spec by exact Hg.
  destruct (N.eqb_spec alg CertCompressionZstd) as [E|_]; [rewrite first_over_none by exact (Hw E)|]; now apply C21_cc_recover.
Qed.
Print Assumptions C21_cc_recover_top.

Definition C21_cc_recover_top_full : Prop := forall C parse_cert ee adv alg out chunks fs,
  advertisedb adv alg = true -> known_alg alg = true -> good_reader out chunks ->
  dlen out <= maxHandshakeCertificateMsg ->
  decompress_cert_top C parse_cert ee adv alg (dlen out) true fs (mkR out chunks REof) =
    match parse_cert (header (dlen out) ++ out) with Some c => Ok c | None => Err alertUnexpectedMessage end.
(* witness: one valid zstd frame whose header names a 16 MiB window *)
Theorem C21_cc_recover_top_refuted : ~ C21_cc_recover_top_full.
Proof.
  intros H. specialize (H bytes (fun b => Some b) false [3] 3 [0;0;0;0] [4]%nat [(16777216, 4)] eq_refl eq_refl).
  assert (G : good_reader [0;0;0;0] [4]%nat) by (split; [repeat constructor | reflexivity]).
  specialize (H G). vm_compute in H. assert (L : 4 <= 262144) by lia. specialize (H L). discriminate.
Qed.
Print Assumptions C21_cc_recover_top_refuted.

Theorem C21_zstd_window_refused : forall C parse_cert ee adv declared out chunks e fs,
  good_reader out chunks -> Exists (fun f => maxCompressedCertZstdWindow < fst f) fs ->
  decompress_cert_top C parse_cert ee adv CertCompressionZstd declared true fs (mkR out chunks e) = Err alertBadCertificate.
Proof.
  intros C parse_cert ee adv declared out chunks e fs Hg Hex. rewrite top_spec, N.eqb_refl by exact Hg.
  destruct (first_over_some _ _ Hex O) as (off & ->). reflexivity.
Qed.
Print Assumptions C21_zstd_window_refused.

(* the negative clauses hold unconditionally for the code as it is *)
Theorem C21_top_length_mismatch : forall C parse_cert ee adv alg declared out chunks e fs,
  good_reader out chunks -> declared <> dlen out ->
  decompress_cert_top C parse_cert ee adv alg declared true fs (mkR out chunks e) = Err alertBadCertificate.
Proof.
  intros C parse_cert ee adv alg declared out chunks e fs Hg Hne. rewrite top_spec by exact Hg.
  destruct (if alg =? CertCompressionZstd then first_over _ fs O else None); [reflexivity | now apply cc_mismatch].
Qed.
Theorem C21_top_unadvertised : forall C parse_cert ee adv alg declared open_ok fs r,
  advertisedb adv alg = false ->
  decompress_cert_top C parse_cert ee adv alg declared open_ok fs r = Err alertBadCertificate.
Proof. intros C parse_cert ee adv alg declared open_ok fs r. apply cc_unadvertised. Qed.
Theorem C21_top_only_the_compressed : forall C parse_cert ee adv alg declared out chunks e fs c,
  good_reader out chunks ->
  decompress_cert_top C parse_cert ee adv alg declared true fs (mkR out chunks e) = Ok c ->
  advertisedb adv alg = true /\ declared = dlen out /\ e = REof /\ declared <= maxHandshakeCertificateMsg /\
  parse_cert (header declared ++ out) = Some c.
Proof.
  intros C parse_cert ee adv alg declared out chunks e fs c Hg. rewrite top_spec by exact Hg.
  destruct (if alg =? CertCompressionZstd then first_over _ fs O else None); [discriminate | now apply cc_only_the_compressed].
Qed.
Print Assumptions C21_top_only_the_compressed.
Example C21_ex_windows_ok : windows_ok 3 [(8388608, 100); (1024, 5)] /\ windows_ok 1 [(16777216, 4)].
Proof.
  split; intros E; [|discriminate].
  unfold maxCompressedCertZstdWindow. constructor; [cbn [fst]; lia|]. constructor; [cbn [fst]; lia|]. constructor.
Qed.

(* "... and the handshake transcript verifies": the certificate flight — [CertificateRequest] followed by Certificate or
   CompressedCertificate — enters the client's transcript in exactly the order (and form) the server sent it, so both
   sides sign / MAC the same transcript.  The live handshake is observed by the runner (cases CFlight). *)
Theorem C21_flight_transcript_in_order : forall f, valid_flight f = true -> client_cert_flight f true = Ok f.
Proof. intros [|[| |] [|[| |] [|? ?]]]; cbn; intros H; try discriminate; reflexivity. Qed.
Print Assumptions C21_flight_transcript_in_order.
Theorem C21_flight_compressed_refused : forall f, valid_flight f = true -> In FCompressed f ->
  client_cert_flight f false = Err alertBadCertificate.
Proof.
  intros [|[| |] [|[| |] [|? ?]]]; cbn; intros H Hin; try discriminate; try reflexivity;
    repeat (destruct Hin as [Hin | Hin]; try discriminate); try contradiction.
Qed.

(* the code as found (single Read, no probe): the same statements are false *)
Definition C21_v0_recover_full : Prop := forall C parse_cert ee adv alg out chunks,
  advertisedb adv alg = true -> known_alg alg = true -> good_reader out chunks ->
  dlen out <= maxHandshakeCertificateMsg ->
  decompress_cert_v0 C parse_cert ee adv alg (dlen out) true (mkR out chunks REof) =
    match parse_cert (header (dlen out) ++ out) with Some c => Ok c | None => Err alertUnexpectedMessage end.
(* F-21a: a valid stream delivered in two Reads is rejected *)
Theorem C21_v0_recover_refuted : ~ C21_v0_recover_full.
Proof.
  intros H. specialize (H bytes (fun b => Some b) false [2] 2 [0;0;0;0] [2;2]%nat eq_refl eq_refl).
  assert (G : good_reader [0;0;0;0] [2;2]%nat) by (split; [repeat constructor | reflexivity]).
  specialize (H G). vm_compute in H. assert (L : 4 <= 262144) by lia. specialize (H L). discriminate.
Qed.
Print Assumptions C21_v0_recover_refuted.

Definition C21_v0_longer_full : Prop := forall C parse_cert ee adv alg declared out chunks e,
  advertisedb adv alg = true -> good_reader out chunks -> declared < dlen out ->
  decompress_cert_v0 C parse_cert ee adv alg declared true (mkR out chunks e) = Err alertBadCertificate.
(* F-21b: output longer than declared is accepted (only `declared` bytes are ever requested) *)
Theorem C21_v0_longer_refuted : ~ C21_v0_longer_full.
Proof.
  intros H. specialize (H bytes (fun b => Some b) false [2] 2 2 [0;0;0;0] [4]%nat REof eq_refl).
  assert (G : good_reader [0;0;0;0] [4]%nat) by (split; [repeat constructor | reflexivity]).
  specialize (H G). vm_compute in H. assert (L : 2 < 4) by lia. specialize (H L). discriminate.
Qed.
Print Assumptions C21_v0_longer_refuted.

Theorem C21_v0_holds_if : forall C parse_cert ee adv alg out,
  advertisedb adv alg = true -> known_alg alg = true -> out <> [] ->
  decompress_cert_v0 C parse_cert ee adv alg (dlen out) true (mkR out [length out] REof) =
    match parse_cert (header (dlen out) ++ out) with Some c => Ok c | None => Err alertUnexpectedMessage end.
Proof.
  intros C parse_cert ee adv alg out Ha Hk Hne. unfold decompress_cert_v0. rewrite pre_checks_eq, Ha, Hk. cbn [andb bind].
  assert (Hd : N.to_nat (dlen out) = length out) by apply Nat2N.id. rewrite Hd.
  unfold read1. cbn [r_chunks r_out r_end].
  destruct (length out) as [|n] eqn:L; [destruct out; [congruence | discriminate]|].
  rewrite Nat.min_id, Nat.leb_refl, <- L, firstn_all, Nat.ltb_irrefl. destruct ee; reflexivity.
Qed.
Print Assumptions C21_v0_holds_if.

Example C21_ex_good_reader : good_reader [0;0;0;3;0;0;0] [3;1;2;1]%nat /\ advertisedb [2;1;3] 1 = true /\ known_alg 1 = true.
Proof. repeat split; repeat constructor. Qed.
Example C21_ex_recover : decompress_cert bytes (fun b => Some b) true [2;1;3] 1 7 true (mkR [0;0;0;3;0;0;0] [3;1;2;1]%nat REof)
  = Ok [11;0;0;7;0;0;0;3;0;0;0].
Proof. vm_compute. reflexivity. Qed.
Example C21_ex_msg : cc_unmarshal (match cc_marshal (mkCC 2 1000 [9;8;7]) with Ok b => b | _ => [] end ++ [1]) = Some (mkCC 2 1000 [9;8;7]).
Proof. vm_compute. reflexivity. Qed.
