(* Proofs about Model/Ticket.v (property C35).  Codec: every builder of the model is read back by its reader on
   `out ++ r` for any rest r (lp_rd for the length prefixes, one lemma per loop of the parser), and
   state_codec_roundtrip chains them field by field.  Framing: ticket_accepted_iff says what decryptTicket accepts
   and gives the rejection theorems; the round trip is sealed_parts, try_keys_first and the codec. *)
From UV Require Import Base.Common Model.Ticket.
(* for the digit equations of rd_be16 .. rd_be64: with div and mod replaced by their defining equations lia
   takes milliseconds on them, without it minutes; the default is put back at the end of the file *)
Ltac Zify.zify_post_hook ::= Z.div_mod_to_equations.

Lemma ok_inj {A} (a b : A) : Ok a = Ok b -> a = b.
Proof. congruence. Qed.

(* a builder that appends two parts: cat_map at a cons, cert_entry, leaf_exts, marshal_certificate *)
Lemma bind2_ok (ra rb : res bytes) out :
  (do a <- ra; do b <- rb; Ok (a ++ b)) = Ok out -> exists a b, ra = Ok a /\ rb = Ok b /\ out = a ++ b.
Proof.
  intros H. apply bind_ok_inv in H. destruct H as (a & Ha & H). apply bind_ok_inv in H. destruct H as (b & Hb & H).
  injection H as <-. eauto.
Qed.

Lemma firstn_len_app {A} (a b : list A) : firstn (length a) (a ++ b) = a.
Proof. rewrite firstn_app, Nat.sub_diag, firstn_all, firstn_O, app_nil_r. reflexivity. Qed.
Lemma skipn_len_app {A} (a b : list A) : skipn (length a) (a ++ b) = b.
Proof. rewrite skipn_app, Nat.sub_diag, skipn_all. reflexivity. Qed.
Lemma app_ne {A} (a b : list A) : a <> [] -> a ++ b <> [].
Proof. intros Ha H. apply app_eq_nil in H. exact (Ha (proj1 H)). Qed.

Lemma rd_be16 x r : x < 65536 -> rd_u16 (be16 x ++ r) = Some (x, r).
Proof. intros H. unfold be16, rd_u16, u8. cbn [app]. do 2 f_equal. lia. Qed.
Lemma rd_be24 x r : x < 16777216 -> rd_u24 (be24 x ++ r) = Some (x, r).
Proof. intros H. unfold be24, rd_u24, u8. cbn [app]. do 2 f_equal. lia. Qed.
Lemma rd_be32 x r : x < 4294967296 -> rd_u32 (be32 x ++ r) = Some (x, r).
Proof. intros H. unfold be32, rd_u32, u8. cbn [app]. do 2 f_equal. lia. Qed.
Lemma rd_be64 x r : x < 18446744073709551616 -> rd_u64 (be64 x ++ r) = Some (x, r).
Proof.
  intros H. unfold be64, rd_u64. rewrite <- app_assoc.
  rewrite rd_be32 by (unfold u32; lia). rewrite rd_be32 by (unfold u32; lia).
  do 2 f_equal. unfold u32. lia.
Qed.

Lemma blen_app a b : blen (a ++ b) = blen a + blen b.
Proof. unfold blen. rewrite app_length. lia. Qed.

Lemma rd_n_app b r : rd_n (blen b) (b ++ r) = Some (b, r).
Proof.
  unfold rd_n. rewrite blen_app.
  replace (blen b <=? blen b + blen r) with true by lia.
  unfold blen. rewrite Nat2N.id, firstn_len_app, skipn_len_app. reflexivity.
Qed.

(* AddUintNLengthPrefixed read back by ReadUintNLengthPrefixed, whatever the width of the prefix:
   enc writes the length, rd reads it. *)
Section LengthPrefixed.
Variables (bound : N) (enc : N -> bytes) (rd : bytes -> option (N * bytes)).
Hypothesis rd_enc : forall x r, x < bound -> rd (enc x ++ r) = Some (x, r).
Hypothesis enc_ne : forall x, enc x <> [].

Lemma lp_rd body out :
  (do b <- body; if blen b <? bound then Ok (enc (blen b) ++ b) else Err E_BUILD) = Ok out ->
  exists b, body = Ok b /\ out <> [] /\
    forall r, match rd (out ++ r) with Some (n, r') => rd_n n r' | None => None end = Some (b, r).
Proof.
  intros H. apply bind_ok_inv in H. destruct H as (b & Hb & H).
  destruct (blen b <? bound) eqn:E; [|discriminate]. injection H as <-.
  exists b. split; [exact Hb|]. split; [apply app_ne, enc_ne|].
  intros r. rewrite <- app_assoc, rd_enc by lia. apply rd_n_app.
Qed.
End LengthPrefixed.

Lemma lp8_rd body out : lp8 body = Ok out ->
  exists b, body = Ok b /\ out <> [] /\ forall r, rd_lp8 (out ++ r) = Some (b, r).
Proof.
  apply (lp_rd 256 (fun x => [u8 x]) rd_u8); [|discriminate].
  intros x r H. unfold u8. cbn [app rd_u8]. do 2 f_equal. lia.
Qed.
Lemma lp16_rd body out : lp16 body = Ok out ->
  exists b, body = Ok b /\ out <> [] /\ forall r, rd_lp16 (out ++ r) = Some (b, r).
Proof. apply (lp_rd 65536 be16 rd_u16 rd_be16). unfold be16. discriminate. Qed.
Lemma lp24_rd body out : lp24 body = Ok out ->
  exists b, body = Ok b /\ out <> [] /\ forall r, rd_lp24 (out ++ r) = Some (b, r).
Proof. apply (lp_rd 16777216 be24 rd_u24 rd_be24). unfold be24. discriminate. Qed.

(* The parser's loops run on fuel, started at the length of their input; a non-empty item leaves enough for the rest. *)
Lemma fuel_app {A} (a b : list A) fuel : a <> [] -> (length (a ++ b) <= fuel)%nat ->
  exists f, fuel = S f /\ (length b <= f)%nat.
Proof.
  intros Ha H. destruct a; [congruence|]. rewrite app_length in H. cbn [length] in H.
  destruct fuel as [|f]; [lia|]. exists f. split; [reflexivity | lia].
Qed.

Lemma ne_cons {A} (s : list A) : s <> [] -> exists a s', s = a :: s'.
Proof. destruct s as [|a s']; [congruence | eauto]. Qed.

(* One iteration of a loop "match s with [] => done | _ => match fuel with S f => body | O => fail end end"
   on a string known to be non-empty: the string is shown as a cons just long enough for the fixpoint to unfold. *)
Ltac loop_step Hne :=
  let a := fresh in let s := fresh in let E := fresh in
  destruct (ne_cons _ Hne) as (a & s & E); rewrite E at 1;
  cbn [rd_many rd_exts rd_entries chain_tail rd_chains]; rewrite <- E; clear a s E.

Lemma rd_many_cat {A} (enc : A -> res bytes) (rd : bytes -> option (A * bytes)) (P : A -> Prop) :
  (forall a b, P a -> enc a = Ok b -> b <> [] /\ forall r, rd (b ++ r) = Some (a, r)) ->
  forall l bs, Forall P l -> cat_map enc l = Ok bs ->
  forall fuel, (length bs <= fuel)%nat -> rd_many rd fuel bs = Some l.
Proof.
  intros Hitem. induction l as [|x l IH]; intros bs HP H fuel Hf.
  - injection H as <-. destruct fuel; reflexivity.
  - apply bind2_ok in H. destruct H as (a & b & Ha & Hb & ->).
    inversion HP as [|? ? Px Pl]; subst.
    destruct (Hitem x a Px Ha) as [Hne Hr].
    destruct (fuel_app a b fuel Hne Hf) as (f & -> & Hf').
    loop_step (app_ne a b Hne). rewrite Hr, (IH b Pl Hb f Hf'). reflexivity.
Qed.

(* Extra: a list of uint24-prefixed strings *)
Lemma rd_list24 l bs : cat_map (fun e => lp24 (Ok e)) l = Ok bs ->
  rd_many rd_lp24 (length bs) bs = Some l.
Proof.
  intros H. apply (rd_many_cat (fun e => lp24 (Ok e)) rd_lp24 (fun _ => True) ) with (l := l); auto.
  - intros a b _ Hb. destruct (lp24_rd _ _ Hb) as (? & [= <-] & Hr). exact Hr.
  - apply Forall_forall. auto.
Qed.

Lemma is_nil_false {A} (l : list A) : l <> [] -> is_nil l = false.
Proof. destruct l; [congruence | reflexivity]. Qed.

Lemma rd_scts l bs : forallb (fun x => negb (is_nil x)) l = true ->
  cat_map (fun sct => lp16 (Ok sct)) l = Ok bs -> rd_many rd_sct (length bs) bs = Some l.
Proof.
  intros Hl H.
  apply (rd_many_cat (fun e => lp16 (Ok e)) rd_sct (fun x => negb (is_nil x) = true)) with (l := l); auto.
  - intros a b Pa Hb. destruct (lp16_rd _ _ Hb) as (? & [= <-] & Hne & Hr). split; [exact Hne|].
    intros r. unfold rd_sct. rewrite Hr. apply negb_true_iff in Pa. rewrite Pa. reflexivity.
  - apply Forall_forall, forallb_forall, Hl.
Qed.

Lemma rd_exts_nil fuel leaf o sc : rd_exts fuel leaf [] o sc = Some (o, sc).
Proof. destruct fuel; reflexivity. Qed.

Lemma be16_app_ne x r : be16 x ++ r <> [].
Proof. unfold be16. discriminate. Qed.

Lemma rd_exts_ocsp_step f o st body rest oc0 sc :
  negb (is_nil o) = true -> lp24 (Ok o) = Ok st -> lp16 (Ok (statusTypeOCSP :: st)) = Ok body ->
  rd_exts (S f) true ((be16 extensionStatusRequest ++ body) ++ rest) oc0 sc = rd_exts f true rest (Some o) sc.
Proof.
  intros Ho Hst Hbody.
  destruct (lp24_rd _ _ Hst) as (o' & [= <-] & _ & Rst). destruct (lp16_rd _ _ Hbody) as (d & [= <-] & _ & Rbody).
  rewrite <- app_assoc. loop_step (be16_app_ne extensionStatusRequest (body ++ rest)).
  rewrite rd_be16 by reflexivity. rewrite Rbody, !N.eqb_refl. cbn [negb rd_u8].
  rewrite <- (app_nil_r st), Rst. apply negb_true_iff in Ho. rewrite Ho. reflexivity.
Qed.

Lemma rd_exts_sct_step f l body rest oc sc0 :
  negb (is_nil l) && forallb (fun x => negb (is_nil x)) l = true ->
  lp16 (lp16 (cat_map (fun sct => lp16 (Ok sct)) l)) = Ok body ->
  rd_exts (S f) true ((be16 extensionSCT ++ body) ++ rest) oc sc0
  = rd_exts f true rest oc (Some (match sc0 with Some l0 => l0 ++ l | None => l end)).
Proof.
  intros Hl Hbody. apply andb_prop in Hl. destruct Hl as [Hl Hne].
  destruct (lp16_rd _ _ Hbody) as (d & Ed & _ & Rbody). destruct (lp16_rd _ _ Ed) as (lst & El & _ & Rd).
  rewrite <- app_assoc. loop_step (be16_app_ne extensionSCT (body ++ rest)).
  rewrite rd_be16 by reflexivity. rewrite Rbody. cbn [negb].
  replace (extensionSCT =? extensionStatusRequest) with false by reflexivity. rewrite N.eqb_refl.
  rewrite <- (app_nil_r d), Rd.
  assert (Hlst : is_nil lst = false).
  { destruct l as [|x l']; [discriminate Hl|]. apply bind2_ok in El. destruct El as (a & b & Ha & _ & ->).
    destruct (lp16_rd _ _ Ha) as (_ & _ & Ha' & _). apply is_nil_false, app_ne, Ha'. }
  rewrite Hlst, (rd_scts l lst Hne El). reflexivity.
Qed.

Lemma leaf_exts_rd ocsp scts e :
  match ocsp with Some o => negb (is_nil o) | None => true end = true ->
  match scts with Some l => negb (is_nil l) && forallb (fun x => negb (is_nil x)) l | None => true end = true ->
  leaf_exts ocsp scts = Ok e ->
  forall fuel, (length e <= fuel)%nat -> rd_exts fuel true e None None = Some (ocsp, scts).
Proof.
  intros Ho Hs H fuel Hf. apply bind2_ok in H. destruct H as (a & b & Ha & Hb & ->).
  assert (B : forall fu oc, (length b <= fu)%nat -> rd_exts fu true b oc None = Some (oc, scts)).
  { intros fu oc Hfu. destruct scts as [l|]; [|injection Hb as <-; apply rd_exts_nil].
    apply bind_ok_inv in Hb. destruct Hb as (body & Hbody & Hb). apply ok_inj in Hb as <-.
    rewrite <- (app_nil_r (be16 extensionSCT ++ body)) in Hfu |- *.
    destruct (fuel_app _ _ fu (be16_app_ne _ _) Hfu) as (f & -> & _).
    rewrite (rd_exts_sct_step f l body [] oc None Hs Hbody). apply rd_exts_nil. }
  destruct ocsp as [o|]; [|injection Ha as <-; apply B, Hf].
  apply bind_ok_inv in Ha. destruct Ha as (st & Hst & Ha). apply bind_ok_inv in Ha. destruct Ha as (body & Hbody & Ha).
  apply ok_inj in Ha as <-.
  destruct (fuel_app _ b fuel (be16_app_ne _ _) Hf) as (f & -> & Hf').
  rewrite (rd_exts_ocsp_step f o st body b None None Ho Hst Hbody). apply B, Hf'.
Qed.

Lemma rd_entries_entry c exts out : cert_entry c exts = Ok out ->
  exists e, exts = Ok e /\ out <> [] /\
    forall f rest certs oc sc, rd_entries (S f) (out ++ rest) certs oc sc =
      match rd_exts (length e) (Nat.leb (length (certs ++ [c])) 1) e oc sc with
      | None => None
      | Some (oc', sc') => rd_entries f rest (certs ++ [c]) oc' sc'
      end.
Proof.
  intros H. apply bind2_ok in H. destruct H as (a & b & Ha & Hb & ->).
  destruct (lp24_rd _ _ Ha) as (? & [= <-] & Hne & Ra). destruct (lp16_rd _ _ Hb) as (e & Ee & _ & Rb).
  exists e. split; [exact Ee|]. split; [apply app_ne, Hne|].
  intros f rest certs oc sc. rewrite <- app_assoc. loop_step (app_ne a (b ++ rest) Hne).
  rewrite Ra, Rb. reflexivity.
Qed.

Lemma rd_entries_rest rest : forall bs, cat_map (fun c => cert_entry c (Ok [])) rest = Ok bs ->
  forall fuel acc oc sc, (length bs <= fuel)%nat ->
  rd_entries fuel bs acc oc sc = Some (acc ++ rest, oc, sc).
Proof.
  induction rest as [|c rest IH]; intros bs H fuel acc oc sc Hf.
  - injection H as <-. rewrite app_nil_r. destruct fuel; reflexivity.
  - apply bind2_ok in H. destruct H as (a & b & Ha & Hb & ->).
    destruct (rd_entries_entry _ _ _ Ha) as (? & [= <-] & Hne & Hstep).
    destruct (fuel_app a b fuel Hne Hf) as (f & -> & Hf').
    rewrite Hstep, rd_exts_nil, (IH b Hb f _ oc sc Hf'), <- app_assoc. reflexivity.
Qed.

(* unmarshalCertificate rejects an empty staple, an empty SCT list and an empty SCT, and an empty chain has no leaf
   entry to carry them: hence the three premises *)
Lemma unmarshal_marshal certs ocsp scts out r :
  match ocsp with Some o => negb (is_nil o) | None => true end = true ->
  match scts with Some l => negb (is_nil l) && forallb (fun x => negb (is_nil x)) l | None => true end = true ->
  (certs = [] -> ocsp = None /\ scts = None) ->
  marshal_certificate certs ocsp scts = Ok out ->
  unmarshal_certificate (out ++ r) = Some ((certs, ocsp, scts), r).
Proof.
  intros Ho Hs Hnil H. destruct (lp24_rd _ _ H) as (lst & El & _ & R).
  unfold unmarshal_certificate. rewrite R. destruct certs as [|c0 rest].
  - injection El as <-. destruct (Hnil eq_refl) as [-> ->]. reflexivity.
  - apply bind2_ok in El. destruct El as (a & b & Ha & Hb & ->).
    destruct (rd_entries_entry _ _ _ Ha) as (e & Ee & Hne & Hstep).
    destruct (fuel_app a b _ Hne (le_n _)) as (f & -> & Hf).
    rewrite Hstep. cbn [app length Nat.leb].
    rewrite (leaf_exts_rd ocsp scts e Ho Hs Ee _ (le_n _)), (rd_entries_rest rest b Hb f [c0] ocsp scts Hf).
    reflexivity.
Qed.

Section Parse.
Variable x509ok : bytes -> bool.

Lemma chain_tail_ok tl : forall bs, forallb x509ok tl = true ->
  cat_map (fun c => lp24 (Ok c)) tl = Ok bs ->
  forall fuel, (length bs <= fuel)%nat -> chain_tail x509ok fuel bs = Ok tl.
Proof.
  induction tl as [|c tl IH]; intros bs Hx H fuel Hf.
  - injection H as <-. destruct fuel; reflexivity.
  - apply bind2_ok in H. destruct H as (a & b & Ha & Hb & ->).
    cbn [forallb] in Hx. apply andb_prop in Hx. destruct Hx as [Hc Hx].
    destruct (lp24_rd _ _ Ha) as (? & [= <-] & Hne & Hr).
    destruct (fuel_app a b fuel Hne Hf) as (f & -> & Hf').
    loop_step (app_ne a b Hne). rewrite Hr, Hc, (IH b Hx Hb f Hf'). reflexivity.
Qed.

Lemma rd_chains_ok certs chains : forall bs, forallb (chain_okb x509ok certs) chains = true ->
  cat_map chain_bytes chains = Ok bs ->
  forall fuel, (length bs <= fuel)%nat -> rd_chains x509ok fuel certs bs = Ok chains.
Proof.
  induction chains as [|ch chains IH]; intros bs Hw H fuel Hf.
  - injection H as <-. destruct fuel; reflexivity.
  - apply bind2_ok in H. destruct H as (a & b & Ha & Hb & ->).
    cbn [forallb] in Hw. apply andb_prop in Hw. destruct Hw as [Hc Hw].
    destruct certs as [|leaf rest]; [discriminate|]. destruct ch as [|c0 tl]; [discriminate|].
    cbn [chain_okb] in Hc. apply andb_prop in Hc. destruct Hc as [E Hx]. apply bytes_eqb_eq in E. subst c0.
    destruct (lp24_rd _ _ Ha) as (cl & Ecl & Hne & Hr).
    destruct (fuel_app a b fuel Hne Hf) as (f & -> & Hf').
    loop_step (app_ne a b Hne). rewrite Hr, (chain_tail_ok tl cl Hx Ecl _ (le_n _)). cbn [bind].
    rewrite (IH b Hw Hb f Hf'). reflexivity.
Qed.
End Parse.

Lemma b2n_bit b : (b2n b =? 0) || (b2n b =? 1) = true.
Proof. destruct b; reflexivity. Qed.
Lemma b2n_1 b : (b2n b =? 1) = b.
Proof. destruct b; reflexivity. Qed.

Theorem state_codec_roundtrip (x509ok : bytes -> bool) (s : state) (b : bytes) :
  wf_state x509ok s -> state_bytes s = Ok b -> parse_state x509ok b = Ok s.
Proof.
  intros Hwf H. unfold wf_state, wf_stateb in Hwf. unfold state_bytes in H.
  destruct s as [version isClient suite createdAt secret extra ems early certs ocsp scts chains alpn useBy ageAdd].
  cbn [s_version s_isClient s_suite s_createdAt s_secret s_extra s_ems s_early s_certs s_ocsp s_scts s_chains s_alpn s_useBy s_ageAdd] in Hwf, H.
  apply andb_prop in Hwf as [[[[[[[[[[[Wv Wsu]%andb_prop Wcr]%andb_prop Wsec]%andb_prop Wocsp]%andb_prop
    Wscts]%andb_prop Wnil]%andb_prop Wx]%andb_prop Wch]%andb_prop Walpn]%andb_prop Wcl]%andb_prop Wtail].
  apply bind_ok_inv in H. destruct H as (secE & Hsec & H).
  apply bind_ok_inv in H. destruct H as (extE & Hext & H).
  apply bind_ok_inv in H. destruct H as (certE & Hcert & H).
  apply bind_ok_inv in H. destruct H as (chE & Hch & H).
  apply bind_ok_inv in H. destruct H as (alpnE & Halpn & H).
  apply ok_inj in H as <-.
  destruct (lp8_rd _ _ Hsec) as (? & [= <-] & _ & Rsec).
  destruct (lp24_rd _ _ Hext) as (eb & Eeb & _ & Rext).
  destruct (lp24_rd _ _ Hch) as (cb & Ecb & _ & Rch).
  set (tail := if isClient && (VersionTLS13 <=? version) then be64 useBy ++ be32 ageAdd else []).
  unfold parse_state.
  rewrite rd_be16 by lia. cbn [opt_res bind app rd_u8].
  replace (((if isClient then 2 else 1) =? 1) || ((if isClient then 2 else 1) =? 2)) with true by (destruct isClient; reflexivity).
  cbn [guard bind].
  rewrite rd_be16 by lia. cbn [opt_res bind].
  rewrite rd_be64 by lia. cbn [opt_res bind].
  rewrite Rsec. cbn [opt_res bind].
  rewrite Rext. cbn [opt_res bind app rd_u8].
  rewrite Wsec. cbn [guard bind].
  rewrite (unmarshal_marshal certs ocsp scts certE _ Wocsp Wscts) by
    (try exact Hcert; intros ->; destruct ocsp, scts; try discriminate Wnil; auto).
  cbn [opt_res bind].
  rewrite (rd_list24 extra eb Eeb). cbn [opt_res bind].
  rewrite !b2n_bit, Wx. cbn [guard bind].
  rewrite Rch. cbn [opt_res bind].
  rewrite (rd_chains_ok x509ok certs chains cb Wch Ecb _ (le_n _)). cbn [bind].
  rewrite !b2n_1.
  match goal with |- bind ?X _ = _ => assert (Ralpn : X = Ok (alpn, tail)) end.
  { destruct early.
    - destruct (lp8_rd _ _ Halpn) as (? & [= <-] & _ & R). rewrite R. reflexivity.
    - injection Halpn as <-. destruct alpn; [reflexivity | discriminate Walpn]. }
  rewrite Ralpn. cbn [bind]. subst tail.
  destruct isClient; cbn [negb andb orb] in *.
  - replace (2 =? 2) with true by reflexivity. rewrite Wcl. cbn [negb guard bind].
    destruct (VersionTLS13 <=? version) eqn:Ev; apply andb_prop in Wtail; destruct Wtail as [Wu Wa].
    + replace (version <? VersionTLS13) with false by lia.
      rewrite rd_be64 by lia. cbn [opt_res bind].
      rewrite <- (app_nil_r (be32 ageAdd)), rd_be32 by lia. reflexivity.
    + replace (version <? VersionTLS13) with true by lia.
      apply N.eqb_eq in Wu, Wa. subst. reflexivity.
  - replace (1 =? 2) with false by reflexivity.
    apply andb_prop in Wtail. destruct Wtail as [Wu Wa]. apply N.eqb_eq in Wu, Wa. subst. reflexivity.
Qed.

Section Crypto.
Variable hmac : bytes -> bytes -> bytes.
Variable ctr : bytes -> bytes -> bytes -> bytes.
Variable sha512 : bytes -> bytes.
Variable x509ok : bytes -> bool.
Hypothesis ctr_inv : forall k iv x, ctr k iv (ctr k iv x) = x.
Hypothesis ctr_len : forall k iv x, length (ctr k iv x) = length x.
Hypothesis hmac_len : forall k m, length (hmac k m) = 32%nat.
(* [Proof using laws] closes a theorem over this whole context, whichever part its proof uses: ticket_roundtrip,
   ticket_mac_covers_all, rotated_out and ticket_tag_flip take the same arguments that way. *)
Collection laws := hmac ctr sha512 x509ok ctr_inv ctr_len hmac_len.

Notation decrypt_ticket := (decrypt_ticket hmac ctr).
Notation encrypt_ticket := (encrypt_ticket hmac ctr).
Notation try_keys := (try_keys hmac ctr).
Notation DecryptTicket := (DecryptTicket hmac ctr x509ok).
Notation EncryptTicket := (EncryptTicket hmac ctr).

(* the pieces decryptTicket cuts a ticket into *)
Definition t_auth (t : bytes) : bytes := firstn (length t - macLen) t.
Definition t_tag (t : bytes) : bytes := skipn (length t - macLen) t.
Definition t_iv (t : bytes) : bytes := firstn ivLen t.
Definition t_ct (t : bytes) : bytes := skipn ivLen (t_auth t).

Lemma t_split t : t = t_auth t ++ t_tag t.
Proof. unfold t_auth, t_tag. symmetry. apply firstn_skipn. Qed.

Lemma t_parts_app a tag : length tag = macLen -> t_auth (a ++ tag) = a /\ t_tag (a ++ tag) = tag.
Proof.
  intros L. unfold t_auth, t_tag. rewrite app_length, L, Nat.add_sub.
  split; [apply firstn_len_app | apply skipn_len_app].
Qed.

Lemma decrypt_ticket_eq keys t : decrypt_ticket keys t =
  if (length t <? ivLen + macLen)%nat then None else try_keys keys (t_iv t) (t_ct t) (t_auth t) (t_tag t).
Proof. reflexivity. Qed.

(* framing of a sealed ticket: iv || CTR(state) || HMAC(iv || CTR(state)) *)
Lemma sealed_parts k rest iv st t : length iv = ivLen -> encrypt_ticket (k :: rest) iv st = Ok t ->
  t_iv t = iv /\ t_ct t = ctr (k_aes k) iv st /\ t_tag t = hmac (k_hmac k) (t_auth t) /\
  (length t <? ivLen + macLen)%nat = false.
Proof using hmac_len.
  intros Hiv H. cbn [Ticket.encrypt_ticket] in H. apply ok_inj in H as <-.
  destruct (t_parts_app (iv ++ ctr (k_aes k) iv st) _ (hmac_len (k_hmac k) (iv ++ ctr (k_aes k) iv st))) as [A T].
  unfold t_ct. rewrite A, T. repeat split.
  - unfold t_iv. rewrite <- app_assoc, <- Hiv. apply firstn_len_app.
  - rewrite <- Hiv. apply skipn_len_app.
  - apply Nat.ltb_ge. rewrite !app_length, Hiv, hmac_len. unfold macLen.
    clear. lia. (* [clear]: lia would otherwise make the lemma depend on every Section hypothesis *)
Qed.

Lemma try_keys_first pre k post iv ct auth tag :
  hmac (k_hmac k) auth = tag ->
  (forall k', In k' pre -> hmac (k_hmac k') auth = tag -> k_aes k' = k_aes k) ->
  try_keys (pre ++ k :: post) iv ct auth tag = Some (ctr (k_aes k) iv ct).
Proof.
  intros Hk. induction pre as [|k0 pre IH]; intros Hpre; cbn [app Ticket.try_keys].
  - rewrite Hk, (proj2 (bytes_eqb_eq tag tag) eq_refl). reflexivity.
  - destruct (bytes_eqb tag (hmac (k_hmac k0) auth)) eqn:E.
    + apply bytes_eqb_eq in E. rewrite (Hpre k0 (or_introl eq_refl) (eq_sym E)). reflexivity.
    + apply IH. intros k' Hk'. apply Hpre. right. exact Hk'.
Qed.

Lemma try_keys_some keys iv ct auth tag pt :
  try_keys keys iv ct auth tag = Some pt ->
  exists pre k post, keys = pre ++ k :: post /\ (forall k', In k' pre -> hmac (k_hmac k') auth <> tag) /\
    hmac (k_hmac k) auth = tag /\ pt = ctr (k_aes k) iv ct.
Proof.
  induction keys as [|k0 keys IH]; cbn [Ticket.try_keys]; [discriminate|].
  destruct (bytes_eqb tag (hmac (k_hmac k0) auth)) eqn:E; intros H.
  - apply bytes_eqb_eq in E. exists [], k0, keys. split; [reflexivity|]. split; [intros k' []|]. split; congruence.
  - destruct (IH H) as (pre & k & post & -> & Hpre & Hm & Hp). exists (k0 :: pre), k, post.
    split; [reflexivity|]. split; [|auto]. intros k' [<- | Hk']; [|apply Hpre, Hk'].
    intros Hm'. rewrite <- Hm', (proj2 (bytes_eqb_eq _ _) eq_refl) in E. discriminate E.
Qed.

(* round trip: the sealing key stands in the list used to decrypt, and every key before it that
   validates the same tag has the same AES key *)
Theorem ticket_roundtrip_at pre k post restE iv s t :
  length iv = ivLen -> wf_state x509ok s ->
  (forall k', In k' pre -> hmac (k_hmac k') (t_auth t) = t_tag t -> k_aes k' = k_aes k) ->
  EncryptTicket (k :: restE) iv s = Ok t -> DecryptTicket (pre ++ k :: post) t = Some s.
Proof using ctr_inv hmac_len.
  intros Hiv Hwf Hpre H. apply bind_ok_inv in H. destruct H as (st & Hst & H).
  destruct (sealed_parts k restE iv st t Hiv H) as (Tiv & Tct & Ttag & Tlen).
  unfold Ticket.DecryptTicket. rewrite decrypt_ticket_eq, Tlen.
  rewrite (try_keys_first pre k post _ _ _ _ (eq_sym Ttag) Hpre), Tiv, Tct, ctr_inv.
  rewrite (state_codec_roundtrip x509ok s st Hwf Hst). reflexivity.
Qed.

Theorem ticket_roundtrip keysE restE keysD k iv s t :
  keysE = k :: restE -> In k keysD -> length iv = ivLen -> wf_state x509ok s ->
  (forall k', In k' keysD -> hmac (k_hmac k') (t_auth t) = t_tag t -> k_aes k' = k_aes k) ->
  EncryptTicket keysE iv s = Ok t -> DecryptTicket keysD t = Some s.
Proof using laws.
  intros -> Hin Hiv Hwf Hconf H. destruct (in_split _ _ Hin) as (pre & post & ->).
  apply (ticket_roundtrip_at pre k post restE iv s t Hiv Hwf); [|exact H].
  intros k' Hk'. apply Hconf, in_or_app. left. exact Hk'.
Qed.

(* the sealing key is the first key of the decrypting list: no side condition *)
Theorem ticket_roundtrip_head k restE restD iv s t :
  length iv = ivLen -> wf_state x509ok s ->
  EncryptTicket (k :: restE) iv s = Ok t -> DecryptTicket (k :: restD) t = Some s.
Proof. intros Hiv Hwf. apply (ticket_roundtrip_at [] k restD restE iv s t Hiv Hwf). intros k' []. Qed.

(* what decryptTicket accepts: at least iv and tag, the first configured key whose HMAC over everything but the tag
   equals the tag, and a state that parses from the CTR decryption under that key *)
Theorem ticket_accepted_iff keys t s : DecryptTicket keys t = Some s <->
  (ivLen + macLen <= length t)%nat /\
  exists pre k post, keys = pre ++ k :: post /\
    (forall k', In k' pre -> hmac (k_hmac k') (t_auth t) <> t_tag t) /\
    hmac (k_hmac k) (t_auth t) = t_tag t /\
    parse_state x509ok (ctr (k_aes k) (t_iv t) (t_ct t)) = Ok s.
Proof.
  unfold Ticket.DecryptTicket. rewrite decrypt_ticket_eq. split.
  - intros H. destruct (Nat.ltb_spec (length t) (ivLen + macLen)) as [|L]; [discriminate|]. split; [exact L|].
    destruct (try_keys _ _ _ _ _) as [pt|] eqn:D; [|discriminate].
    destruct (try_keys_some _ _ _ _ _ _ D) as (pre & k & post & E & Hpre & Hm & ->).
    exists pre, k, post. repeat split; try assumption.
    destruct (parse_state x509ok _) as [s'| |]; congruence.
  - intros (L & pre & k & post & -> & Hpre & Hm & Hp).
    rewrite (proj2 (Nat.ltb_ge _ _) L), (try_keys_first pre k post _ _ _ _ Hm), Hp; [reflexivity|].
    intros k' Hk' Hm'. destruct (Hpre k' Hk' Hm').
Qed.

(* acceptance => a valid MAC under a configured key over every byte that is not the tag, and the
   state is the parse of the CTR decryption under that same key *)
Theorem ticket_mac_covers_all keys t s : DecryptTicket keys t = Some s ->
  (ivLen + macLen <= length t)%nat /\
  exists k, In k keys /\ hmac (k_hmac k) (t_auth t) = t_tag t /\
            parse_state x509ok (ctr (k_aes k) (t_iv t) (t_ct t)) = Ok s.
Proof using laws.
  intros H. apply ticket_accepted_iff in H. destruct H as (L & pre & k & post & -> & _ & Hm & Hp).
  split; [exact L|]. exists k. split; [apply in_elt | auto].
Qed.

Theorem ticket_short keys t : (length t < ivLen + macLen)%nat -> DecryptTicket keys t = None.
Proof using Type.
  intros H. unfold Ticket.DecryptTicket. rewrite decrypt_ticket_eq, (proj2 (Nat.ltb_lt _ _) H). reflexivity.
Qed.

(* no configured key validates the tag (e.g. the sealing key was rotated out) => no state *)
Theorem rotated_out keys t :
  (forall k, In k keys -> hmac (k_hmac k) (t_auth t) <> t_tag t) -> DecryptTicket keys t = None.
Proof using laws.
  intros H. destruct (DecryptTicket keys t) as [s|] eqn:D; [|reflexivity].
  apply ticket_accepted_iff in D. destruct D as (_ & pre & k & post & -> & _ & Hm & _).
  destruct (H k (in_elt _ _ _) Hm).
Qed.

(* replacing the tag by a different 32-byte string that no other configured key produces => no state *)
Theorem ticket_tag_flip k others iv s t tag' :
  length iv = ivLen -> EncryptTicket (k :: others) iv s = Ok t ->
  length tag' = macLen -> tag' <> t_tag t ->
  (forall k', In k' others -> hmac (k_hmac k') (t_auth t) <> tag') ->
  DecryptTicket (k :: others) (t_auth t ++ tag') = None.
Proof using laws.
  intros Hiv H Ltag Hne Hoth. apply bind_ok_inv in H. destruct H as (st & _ & H).
  destruct (sealed_parts k others iv st t Hiv H) as (_ & _ & Ttag & _).
  destruct (t_parts_app (t_auth t) tag' Ltag) as [A T].
  apply rotated_out. rewrite A, T. intros k' [<- | Hk']; [congruence | apply Hoth; exact Hk'].
Qed.

Notation ticket_key_from_bytes := (ticket_key_from_bytes sha512).
Notation TicketKeyFromBytes := (TicketKeyFromBytes sha512).
Notation set_session_ticket_keys := (set_session_ticket_keys sha512).
Notation ticket_keys := (ticket_keys sha512).
Notation rotate := (rotate sha512).

(* what SetSessionTicketKeys leaves in the Config; an empty list panics *)
Lemma set_keys_ok c now ks c' : set_session_ticket_keys c now ks = Ok c' ->
  c_keys c' <> [] /\ map fst (c_keys c') = map ticket_key_from_bytes ks /\
  c_disabled c' = c_disabled c /\ c_stk c' = c_stk c.
Proof.
  destruct ks; [discriminate|]. intros H. apply ok_inj in H as <-. cbn [c_keys c_disabled c_stk].
  rewrite map_map. repeat split. discriminate.
Qed.

Theorem keys_same_derivation c now b bs c' :
  set_session_ticket_keys c now (b :: bs) = Ok c' ->
  map fst (c_keys c') = map (fun x => to_private (TicketKeyFromBytes x)) (b :: bs) /\
  to_private (TicketKeyFromBytes b) = ticket_key_from_bytes b.
Proof using Type.
  assert (E : forall x, to_private (TicketKeyFromBytes x) = ticket_key_from_bytes x).
  { intros x. unfold Ticket.TicketKeyFromBytes, to_private, to_public. destruct (ticket_key_from_bytes x). reflexivity. }
  intros H. destruct (set_keys_ok _ _ _ _ H) as (_ & M & _). split; [|apply E].
  rewrite M. apply map_ext. intros x. symmetry. apply E.
Qed.

Lemma deprecated_not_zero r : bytes_eqb (deprecated ++ r) zero32 = false.
Proof. reflexivity. Qed.

(* with explicitly installed keys, ticketKeys returns exactly those (and leaves them installed) *)
Lemma ticket_keys_explicit c now rnd :
  c_disabled c = false -> c_keys c <> [] -> (bytes_eqb (c_stk c) zero32 = false \/ (32 <= length rnd)%nat) ->
  exists c' rnd', ticket_keys c now rnd = Ok (map fst (c_keys c), c', rnd') /\
    c_keys c' = c_keys c /\ c_disabled c' = false /\ bytes_eqb (c_stk c') zero32 = false /\
    (bytes_eqb (c_stk c) zero32 = false -> rnd' = rnd).
Proof.
  intros Hd Hk Hr. unfold Ticket.ticket_keys. rewrite Hd. unfold init_legacy.
  rewrite (is_nil_false _ Hk). cbn [negb]. rewrite orb_true_r.
  destruct (bytes_eqb (c_stk c) zero32) eqn:Ez; cbn [negb andb].
  - destruct Hr as [Hr | Hr]; [discriminate|]. unfold take_rand.
    rewrite (proj2 (Nat.leb_le _ _) Hr).
    cbn [bind c_keys]. rewrite (is_nil_false _ Hk). cbn [negb].
    eexists _, _. split; [reflexivity|]. cbn [c_keys c_disabled c_stk].
    repeat split; auto. discriminate.
  - cbn [bind]. rewrite (is_nil_false _ Hk). cbn [negb].
    eexists _, _. split; [reflexivity|]. auto.
Qed.

(* key rotation by SetSessionTicketKeys: only the last call matters *)
Theorem rotate_last c now hist ks c' : rotate c now (hist ++ [ks]) = Ok c' ->
  map fst (c_keys c') = map ticket_key_from_bytes ks /\ c_disabled c' = c_disabled c /\ c_stk c' = c_stk c.
Proof.
  revert c. induction hist as [|h hist IH]; intros c H; cbn [app Ticket.rotate] in H;
    apply bind_ok_inv in H; destruct H as (c1 & H1 & H); destruct (set_keys_ok _ _ _ _ H1) as (_ & M & D & S).
  - apply ok_inj in H as <-. auto.
  - rewrite <- D, <- S. apply IH, H.
Qed.

Notation sstep := (sstep sha512).
Notation srun := (srun sha512).

Lemma nth_upd_same {A} (l : list A) i x c : nth_error l i = Some c -> nth_error (upd l i x) i = Some x.
Proof. revert i. induction l as [|y l IH]; intros [|i] H; cbn in *; try discriminate; auto. Qed.
Lemma nth_upd_other {A} (l : list A) i j x : i <> j -> nth_error (upd l i x) j = nth_error l j.
Proof. revert i j. induction l as [|y l IH]; intros [|i] [|j] H; cbn; auto; try congruence. Qed.
Lemma upd_length {A} (l : list A) i x : length (upd l i x) = length l.
Proof. revert i. induction l as [|y l IH]; intros [|i]; cbn; auto. Qed.

Definition touches (j : nat) (op : sop) : Prop := match op with SSet i _ => i = j | SClone _ => False end.

Lemma sstep_frame now st op st' j c : sstep now st op = Ok st' -> ~ touches j op ->
  nth_error st j = Some c -> nth_error st' j = Some c.
Proof.
  intros H Ht Hj. destruct op as [i ks | i]; cbn [Ticket.sstep] in H.
  - destruct (nth_error st i) as [ci|] eqn:Ei; [|discriminate].
    apply bind_ok_inv in H. destruct H as (c' & _ & H). apply ok_inj in H as <-.
    rewrite nth_upd_other; [exact Hj | cbn in Ht; congruence].
  - destruct (nth_error st i) as [ci|] eqn:Ei; [|discriminate]. apply ok_inj in H as <-.
    rewrite nth_error_app1; [exact Hj | apply nth_error_Some; congruence].
Qed.

Lemma srun_frame now ops : forall st st' j c, srun now st ops = Ok st' ->
  Forall (fun op => ~ touches j op) ops -> nth_error st j = Some c -> nth_error st' j = Some c.
Proof.
  induction ops as [|op ops IH]; intros st st' j c H Hf Hj.
  - apply ok_inj in H as <-. exact Hj.
  - cbn [Ticket.srun] in H. apply bind_ok_inv in H. destruct H as (st1 & H1 & H).
    inversion Hf as [|? ? Hop Hrest]; subst.
    eapply IH; [exact H | exact Hrest | eapply sstep_frame; eauto].
Qed.

Lemma srun_app now a b st st' : srun now st (a ++ b) = Ok st' ->
  exists st1, srun now st a = Ok st1 /\ srun now st1 b = Ok st'.
Proof.
  revert st. induction a as [|op a IH]; intros st H.
  - exists st. split; [reflexivity | exact H].
  - cbn [app Ticket.srun] in H. apply bind_ok_inv in H. destruct H as (s1 & H1 & H).
    destruct (IH _ H) as (s2 & A & B). exists s2. split; [|exact B]. cbn [Ticket.srun]. rewrite H1. exact A.
Qed.

(* In any history over any family of configs (rotations of other configs, clones of anything in between),
   exactly the last list set on THIS config is in force on it. *)
Theorem family_last_set now st pre j ks suf st' :
  srun now st (pre ++ SSet j ks :: suf) = Ok st' ->
  Forall (fun op => ~ touches j op) suf ->
  exists c, nth_error st' j = Some c /\ map fst (c_keys c) = map ticket_key_from_bytes ks.
Proof.
  intros H Hsuf. apply srun_app in H. destruct H as (s1 & _ & H).
  cbn [Ticket.srun] in H. apply bind_ok_inv in H. destruct H as (s2 & Hstep & H).
  cbn [Ticket.sstep] in Hstep. destruct (nth_error s1 j) as [cj|] eqn:Ej; [|discriminate].
  apply bind_ok_inv in Hstep. destruct Hstep as (c' & Hset & Hs2). apply ok_inj in Hs2 as <-.
  exists c'. split; [|apply (set_keys_ok _ _ _ _ Hset)].
  eapply srun_frame; [exact H | exact Hsuf | eapply nth_upd_same; exact Ej].
Qed.

End Crypto.

Theorem forged_state_fields vers suite secret certs chains v' su' ms' :
  let s0 := make_client_session_state vers suite secret certs chains in
  s_version s0 = vers /\ s_suite s0 = suite /\ s_secret s0 = secret /\ s_certs s0 = certs /\ s_chains s0 = chains /\
  let s1 := set_master_secret (set_cipher_suite (set_vers s0 v') su') ms' in
  s_version s1 = v' /\ s_suite s1 = su' /\ s_secret s1 = ms' /\ s_certs s1 = certs /\ s_chains s1 = chains.
Proof. cbn. repeat split. Qed.

Ltac Zify.zify_post_hook ::= idtac.
