(* C15: the server's extractRawExtensions reads back what MarshalClientHelloNoECH wrote. *)
From UV Require Import Base.Common Model.Ech Proofs.EchP Proofs.EchOuterP.

Section ExtractProofs.
  Variable hostname_in_sni : bytes -> bytes.
  Variable padf : N -> N * bool.

  Definition uext_fits (U : N) (e : uext) : Prop :=
    match e with
    | UExt x => ext_ok x
    | UEch x => ext_ok x
    | USni n => len (hostname_in_sni n) + 5 < 65536
    | UKeyShare ks => fits16 (ks_body ks) = true
    | UPad => fst (padf U) < 65536
    end.

  Lemma gext_wire_ok x : ext_ok x -> gext_wire x = exts_wire [x] /\ Forall ext_ok [x].
  Proof.
    intros Hx. split; [|constructor; [exact Hx | constructor]]. destruct Hx as [_ Hb].
    cbn [exts_wire flat_map]. rewrite app_nil_r.
    unfold gext_wire, ext_wire, p16lp, u16, fits16 in *. rewrite N.mod_small by lia. reflexivity.
  Qed.

  Lemma one_wire U e : uext_fits U e ->
    (if is_pad e then pad_wire padf U else uext_wire hostname_in_sni e) =
      exts_wire (wire_one hostname_in_sni padf U e) /\
    Forall ext_ok (wire_one hostname_in_sni padf U e).
  Proof.
    destruct e as [x | n | x | | ks]; cbn [uext_fits is_pad uext_wire wire_one]; intros Hf.
    - exact (gext_wire_ok x Hf).
    - unfold usni_wire, usni_exts. destruct (len (hostname_in_sni n) =? 0) eqn:E; [split; [reflexivity|constructor]|].
      set (hn := hostname_in_sni n) in *.
      assert (L1 : len (0 :: p16lp hn) = len hn + 3) by (unfold p16lp; rewrite len_cons, len_app, len_be16; lia).
      assert (L2 : len (sni_body hn) = len hn + 5) by (unfold sni_body, p16lp at 1; rewrite len_app, len_be16, L1; lia).
      split.
      + cbn [exts_wire flat_map]. rewrite app_nil_r. unfold ext_wire, sni_ext. cbn [eid ebody].
        unfold p16lp at 1. rewrite L2. unfold sni_body, p16lp at 1. rewrite L1.
        unfold u16. rewrite !N.mod_small by lia. unfold p16lp. cbn [app]. rewrite <- ?app_assoc. cbn [app]. reflexivity.
      + constructor; [|constructor]. split; cbn [eid ebody sni_ext]; [unfold EXT_SNI; lia | unfold fits16; rewrite L2; lia].
    - exact (gext_wire_ok x Hf).
    - unfold pad_wire, pad_exts. destruct (padf U) as [pl will]. cbn [fst] in Hf. destruct will; [|split; [reflexivity|constructor]].
      assert (Lz : len (zeros (N.to_nat pl)) = pl) by (rewrite len_zeros; lia).
      split.
      + cbn [exts_wire flat_map]. rewrite app_nil_r. unfold ext_wire, p16lp. cbn [eid ebody]. rewrite Lz.
        unfold u16. rewrite N.mod_small by lia. reflexivity.
      + constructor; [|constructor]. split; cbn [eid ebody]; [unfold EXT_PADDING; lia | unfold fits16; rewrite Lz; lia].
    - apply (gext_wire_ok (ks_ext ks)). split; [cbn [eid ks_ext]; unfold EXT_KEY_SHARE; lia | exact Hf].
  Qed.

  Lemma all_wire U l : Forall (uext_fits U) l ->
    flat_map (fun e => if is_pad e then pad_wire padf U else uext_wire hostname_in_sni e) l =
      exts_wire (flat_map (wire_one hostname_in_sni padf U) l) /\
    Forall ext_ok (flat_map (wire_one hostname_in_sni padf U) l).
  Proof.
    induction 1 as [|e l He Hl [IH1 IH2]]; [split; [reflexivity|constructor]|].
    destruct (one_wire U e He) as [E1 E2]. cbn [flat_map]. split.
    - rewrite exts_wire_app, <- E1, <- IH1. reflexivity.
    - apply Forall_app. split; assumption.
  Qed.

  Theorem extract_marshal_outer h exts out :
    marshal_outer hostname_in_sni padf h exts = Ok out ->
    len (uh_random h) = 32 -> len (uh_sid h) < 256 -> 2 * N.of_nat (length (uh_suites h)) < 65536 ->
    len (uh_comp h) < 256 -> exts <> [] ->
    Forall (uext_fits (unpadded_len hostname_in_sni h exts)) exts ->
    len (exts_bytes hostname_in_sni padf h exts) < 65536 ->
    extract_raw_extensions out = Ok (wire_exts hostname_in_sni padf h exts).
  Proof.
    intros H Hr Hs Hsu Hc Hne Hfit Hel. unfold marshal_outer in H.
    destruct (1 <? count_pad exts)%nat; [discriminate|].
    assert (Hl : (0 <? length exts)%nat = true) by (destruct exts; [contradiction | reflexivity]).
    rewrite Hl in H. cbv zeta in H.
    match type of H with (if ?c then _ else _) = _ => destruct c; [|discriminate] end.
    apply ok_inj in H. subst out.
    destruct (all_wire _ _ Hfit) as [Ew Eok]. fold (exts_bytes hostname_in_sni padf h exts) in Ew.
    set (eb := exts_bytes hostname_in_sni padf h exts) in *.
    set (HL := header_length h + (2 + len eb)).
    unfold extract_raw_extensions.
    (* header, version, random *)
    rewrite (app_assoc (be16 (uh_vers h))), (app_assoc (be24 HL)), (app_assoc [1]).
    unfold skip_n. rewrite rd_bytes_app_n.
    2:{ rewrite !len_app, len_be16, Hr. reflexivity. }
    (* session id *)
    unfold skip_u8lp, rd_u8lp. cbn [app rd_u8]. unfold u8. rewrite (N.mod_small (len (uh_sid h))) by lia.
    rewrite rd_bytes_app.
    (* cipher suites *)
    unfold skip_u16lp, rd_u16lp. unfold u16. rewrite (N.mod_small (2 * N.of_nat (length (uh_suites h)))) by lia.
    rewrite rd_u16_be16 by lia. rewrite rd_bytes_app_n by (unfold suites_bytes; rewrite len_flat_be16; reflexivity).
    (* compression methods *)
    cbn [app rd_u8]. rewrite (N.mod_small (len (uh_comp h))) by lia. rewrite rd_bytes_app.
    (* extensions *)
    rewrite (N.mod_small (len eb)) by lia. rewrite rd_u16_be16 by lia.
    rewrite <- (app_nil_r eb) at 2. rewrite rd_bytes_app.
    rewrite Ew. rewrite parse_ext_list_wire; [reflexivity | exact Eok | apply length_exts_wire].
  Qed.
End ExtractProofs.
