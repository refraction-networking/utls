(* The write key switch is atomic with sending the KeyUpdate answer: with c.out held across both
   (atomic = true) every interleaving of answers and concurrent Writes yields a wire the peer can follow. *)
From UV Require Import Base.Common Model.KuLock.

Lemma wire_ok_snoc_ku g w : wire_ok g (w ++ [KU]) = wire_ok g w.
Proof. revert g; induction w as [|[g'|] w IH]; intros g; cbn; auto. rewrite IH. reflexivity. Qed.

Lemma wire_ok_snoc_data g w g' : wire_ok g (w ++ [Data g']) = (wire_ok g w && (g' =? g + markers w)%nat)%bool.
Proof.
  revert g; induction w as [|[g''|] w IH]; intros g; cbn.
  - rewrite Nat.add_0_r, andb_true_r. reflexivity.
  - rewrite IH, andb_assoc. reflexivity.
  - rewrite IH. f_equal. f_equal. lia.
Qed.

Lemma markers_snoc_ku w : markers (w ++ [KU]) = S (markers w).
Proof. induction w as [|[g|] w IH]; cbn; auto. Qed.
Lemma markers_snoc_data w g : markers (w ++ [Data g]) = markers w.
Proof. induction w as [|[g'|] w IH]; cbn; auto. Qed.

(* lock-held facts + the relation between key generation and KeyUpdate records sent *)
Definition ku_inv (s : st) : Prop :=
  wire_ok 0 (wire s) = true /\
  (match pcA s with
   | A0 => gen s = markers (wire s) /\ lock s <> ByAnswerer
   | A1 => gen s = markers (wire s) /\ lock s = ByAnswerer
   | A2 => S (gen s) = markers (wire s) /\ lock s = ByAnswerer      (* answer out, old key: nobody else may send *)
   | A2u => False                                                   (* unreachable when atomic *)
   | A3 => gen s = markers (wire s) /\ lock s = ByAnswerer
   end) /\
  (inWrite s = true <-> lock s = ByWriter).

Lemma ku_inv_init : ku_inv ku_init.
Proof. unfold ku_inv, ku_init; cbn. repeat split; try discriminate; auto. Qed.

Lemma ku_step_inv s l s' : ku_inv s -> ku_step true s l = Some s' -> ku_inv s'.
Proof.
  (* The split over label, lock, pc and inWrite leaves the nine enabled steps. Lock moves keep wire and gen:
     the pc/lock table of ku_inv is read off. ASend appends KU at A1 -> A2 (markers grows: S gen = markers),
     ASwitch bumps gen at A2 -> A3 (gen = markers again). WEmit appends Data (gen s) under ByWriter, which by
     the table forces pcA = A0, so gen = markers and the test of wire_ok_snoc_data holds. *)
  intros (Hw & Hp & Hl) H. unfold ku_step in H.
  destruct l, (lock s) eqn:El, (pcA s) eqn:Ep, (inWrite s) eqn:Ew; try discriminate;
    inversion H; subst s'; clear H; unfold ku_inv; cbn [wire gen pcA lock inWrite];
    rewrite ?wire_ok_snoc_ku, ?wire_ok_snoc_data, ?markers_snoc_ku, ?markers_snoc_data, ?Hw;
    try (destruct Hp as [Hg Hk]);
    try (destruct Hl as [Hl1 Hl2]);
    repeat split; intros; try discriminate; try congruence; try lia; auto;
    try (exfalso; (discriminate (Hl1 eq_refl) || discriminate (Hl2 eq_refl) || congruence)).
  all: try (cbn; apply Nat.eqb_eq; lia).
Qed.

Theorem ku_run_inv : forall tr s s', ku_inv s -> ku_run true s tr = Some s' -> ku_inv s'.
Proof.
  induction tr as [|l tr IH]; intros s s' Hi H; cbn in H.
  - inversion H; subst; exact Hi.
  - destruct (ku_step true s l) as [s1|] eqn:E; [|discriminate]. eapply IH; [|exact H]. eapply ku_step_inv; eassumption.
Qed.
