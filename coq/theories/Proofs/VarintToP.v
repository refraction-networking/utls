From UV Require Import Base.Common Model.Varint Model.VarintTo Proofs.VarintP.

Lemma append_to_spec b x r : x < 4611686018427387904 ->
  exists e, append_to b x = Ok (b ++ e) /\ append x = Ok e /\ read (e ++ r) = Some (x, r).
Proof.
  intros H. destruct (append_read x r H) as (e & A & R). exists e. unfold append_to. rewrite A. cbn [bind]. auto.
Qed.

Lemma withlen_to_spec b x l w r : vlen x = Ok l -> l <= w -> (w = 1 \/ w = 2 \/ w = 4 \/ w = 8) ->
  exists e, append_with_len_to b x w = Ok (b ++ e) /\ N.of_nat (length e) = w /\ read (e ++ r) = Some (x, r).
Proof.
  intros Hl Hle Hw. destruct (withlen_spec x l w r Hl Hle Hw) as (e & A & L & R).
  exists e. unfold append_with_len_to. rewrite A. cbn [bind]. auto.
Qed.

Lemma marshal_tps_to_spec tps : forall b,
  marshal_tps_to b tps = (do body <- marshal_tps tps; Ok (b ++ body)).
Proof.
  induction tps as [|[id v] rest IH]; intros b; cbn [marshal_tps_to marshal_tps bind].
  - rewrite app_nil_r. reflexivity.
  - unfold append_to. destruct (append id) as [a|c|c]; cbn [bind]; try reflexivity.
    destruct (append (N.of_nat (length v))) as [l|c|c]; cbn [bind]; try reflexivity.
    rewrite IH. destruct (marshal_tps rest) as [body|c|c]; cbn [bind]; try reflexivity.
    rewrite <- !app_assoc. reflexivity.
Qed.
