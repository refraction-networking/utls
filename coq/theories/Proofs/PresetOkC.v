(* End-to-end corollaries for the shipped parrots (Gen/Parrots.v): the theorems of C02, C03, C12 and C13 that carry a
   premise on ApplyPreset's OUTPUT, with that premise discharged by the static predicate (Proofs/PresetOkP.v), its
   invariance under the Chrome shuffle and its evaluation on the regenerated table (Proofs/PresetOkS.v).
   Quantified over: every table entry, every list of swap calls (swaps = [] for the ids that do not shuffle), every Config
   with an SNI host of at most 255 bytes and OmitEmptyPsk set, every randomness. *)
From UV Require Import Base.Common Model.Wire Model.Ext Model.ExtSpec Model.Strict.
From UV Require Import Model.Marshal Model.ChMarshal Model.Shuffle Model.WriteToUConn.
From UV Require Import Model.PresetOk Proofs.PresetOkP Proofs.PresetOkS.
From UV Require Model.Preset Model.ParrotSpec Model.Negotiate Gen.Parrots Proofs.ComposeP Proofs.ComposeW Proofs.ComposeC03.

(* C03 for ANY spec that satisfies the static predicate and declares compression [0], in any rearrangement the
   shuffle can produce: the hello is built, and the strict parser reads back bytes that match the rearranged spec *)
Theorem spec_matches sp snimax omit name swaps exts' c fr h es :
  preset_ok sp snimax omit = true -> Preset.sp_comp sp = [0] ->
  shuffle ParrotSpec.fixedb swaps (Preset.sp_exts sp) = Ok exts' -> cfg_in_class c snimax omit ->
  Preset.apply_preset (with_exts sp exts') c fr = Ok (h, es) ->
  exists raw a, Preset.build (with_exts sp exts') c fr = Ok raw /\ marshal_hello Preset.bbs512 0%Z h es = Ok raw
    /\ wf_specb h es = true /\ ParrotSpec.parse_hello raw = Some a
    /\ ParrotSpec.ast_matches_specb a {| Preset.p_name := name; Preset.p_spec := with_exts sp exts'; Preset.p_shuffles := false |} c = true.
Proof.
  intros Hok Hcomp Hsh Hc Ha. pose proof (preset_ok_shuffle _ _ _ swaps _ Hok Hsh) as Hok'.
  destruct (preset_ok_output _ c fr _ _ h es Hok' Hc Ha) as (Hwf & Hfit & _).
  destruct (preset_ok_builds _ c fr _ _ h es Hok' Hc Ha) as (raw & Hb & Hm & _).
  destruct (ComposeC03.build_matches _ c fr h es raw name Ha Hb Hwf Hfit Hcomp) as (a & Hp & Hma).
  exists raw, a. auto.
Qed.

Definition parrot_class (c : Preset.cfg) : Prop := cfg_in_class c 255 true.

Section Parrot.
  Variables (p : Preset.parrot) (swaps : list (nat * nat)) (exts' : list Preset.sext).
  Hypothesis Hin : In p Parrots.all.
  Hypothesis Hsh : shuffle ParrotSpec.fixedb swaps (Preset.sp_exts (Preset.p_spec p)) = Ok exts'.
  Variables (c : Preset.cfg) (fr : Preset.fresh) (h : hello_hdr) (es : list ext).
  Hypothesis Hc : parrot_class c.
  Hypothesis Ha : Preset.apply_preset (with_exts (Preset.p_spec p) exts') c fr = Ok (h, es).

  Lemma parrot_output : wf_specb h es = true /\ spec_fitsb 0%Z h es = true /\ forallb typed_ext es = true.
  Proof.
    destruct (preset_ok_output _ c fr 255 true h es (parrots_draw_preset_ok p swaps exts' Hin Hsh) Hc Ha) as (A & B & C & _). auto.
  Qed.

  (* C02 *)
  Theorem parrot_valid : exists raw, Preset.build (with_exts (Preset.p_spec p) exts') c fr = Ok raw
                                     /\ marshal_hello Preset.bbs512 0%Z h es = Ok raw /\ valid_ch raw.
  Proof. exact (preset_ok_builds _ c fr 255 true h es (parrots_draw_preset_ok p swaps exts' Hin Hsh) Hc Ha). Qed.

  (* C03 *)
  Theorem parrot_matches : exists raw a,
    Preset.build (with_exts (Preset.p_spec p) exts') c fr = Ok raw /\ ParrotSpec.parse_hello raw = Some a
    /\ ParrotSpec.ast_matches_specb a {| Preset.p_name := Preset.p_name p; Preset.p_spec := with_exts (Preset.p_spec p) exts';
                                         Preset.p_shuffles := false |} c = true.
  Proof.
    destruct (spec_matches _ 255 true (Preset.p_name p) swaps exts' c fr h es
                (proj1 (forallb_forall _ _) parrots_preset_ok p Hin) (parrots_comp p Hin) Hsh Hc Ha) as (raw & a & Hb & _ & _ & Hp & Hm).
    exists raw, a. auto.
  Qed.

  (* C12 *)
  Theorem parrot_synced mn mx env bbs padto raw s' load ecdhe mlkem sess :
    marshal_hello bbs padto h es = Ok raw ->
    apply_config env (marshal_hello bbs padto h es) (ComposeW.preset_state h mn mx) es = Ok s' ->
    psk_agree (finish load es s') es = true ->
    exists w, wire_of raw = Some w /\ Negotiate.synced (view_of (finish load es s') es ecdhe mlkem sess) w = true.
  Proof.
    destruct parrot_output as (Hwf & _ & Hty). intros Hm Hcfg Hpsk.
    exact (ComposeW.synced_preset _ c fr h es mn mx env bbs padto raw s' load ecdhe mlkem sess Ha Hwf Hty Hm Hcfg Hpsk).
  Qed.

  (* C13 *)
  Theorem parrot_version_advertised mn mx env bbs padto raw s' load ecdhe mlkem sess fl st :
    Preset.set_tls_vers (with_exts (Preset.p_spec p) exts') = Ok (mn, mx) ->
    marshal_hello bbs padto h es = Ok raw ->
    apply_config env (marshal_hello bbs padto h es) (ComposeW.preset_state h mn mx) es = Ok s' ->
    Negotiate.client_run (view_of (finish load es s') es ecdhe mlkem sess) fl = Negotiate.Complete st ->
    exists w, wire_of raw = Some w /\ In (Negotiate.cs_vers st) (Negotiate.advertised mn w).
  Proof.
    destruct parrot_output as (Hwf & _ & Hty). intros Hv Hm Hcfg Hrun.
    exact (ComposeW.version_advertised_preset _ c fr h es mn mx env bbs padto raw s' load ecdhe mlkem sess fl st Ha Hv Hwf Hty Hm Hcfg Hrun).
  Qed.
End Parrot.
