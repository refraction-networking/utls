(* MarshalClientHelloNoECH over abstract extensions (Model/Marshal.v).  An extension is described by the
   bytes it emits when given room ([emits]); the bufio writer is followed by an invariant saying what has been
   written so far and whether it is still in the array or already flushed ([buffered], [st_ok]); [marshal_prepare]
   is characterised by the position of the padding extension.  [marshal_core] puts these together: the function
   returns the header followed by the extension block. *)
From UV Require Import Base.Common Model.Padding Model.Marshal.

Lemma len_nil {A} : len (@nil A) = 0.
Proof. reflexivity. Qed.
Lemma len_cons {A} (x : A) l : len (x :: l) = 1 + len l.
Proof. unfold len. cbn [length]. lia. Qed.
Lemma len_app {A} (a b : list A) : len (a ++ b) = len a + len b.
Proof. unfold len. rewrite app_length. lia. Qed.
Lemma len_zeros n : len (zeros n) = n.
Proof. unfold len, zeros. rewrite repeat_length. lia. Qed.
Lemma len_0_nil {A} (l : list A) : len l = 0 -> l = [].
Proof. destruct l; [reflexivity|]. rewrite len_cons. lia. Qed.

Lemma take_app_len {A} (a b : list A) : take (len a) (a ++ b) = a.
Proof.
  unfold take, len. rewrite Nat2N.id. rewrite firstn_app, Nat.sub_diag, firstn_all.
  cbn [firstn]. apply app_nil_r.
Qed.
Lemma drop_app_len {A} (a b : list A) m : drop (len a + m) (a ++ b) = drop m b.
Proof.
  unfold drop, len. replace (N.to_nat (N.of_nat (length a) + m)) with (length a + N.to_nat m)%nat by lia.
  rewrite skipn_app. rewrite skipn_all2 by lia. cbn [app]. f_equal. lia.
Qed.
Lemma drop_app_len0 {A} (a b : list A) : drop (len a) (a ++ b) = b.
Proof. replace (len a) with (len a + 0) by lia. rewrite drop_app_len. reflexivity. Qed.
Lemma skipn_repeat {A} (x : A) : forall j m, skipn j (repeat x m) = repeat x (m - j).
Proof.
  induction j as [|j IH]; intros m.
  - rewrite Nat.sub_0_r. reflexivity.
  - destruct m as [|m]; [reflexivity|]. cbn [repeat skipn Nat.sub]. apply IH.
Qed.
Lemma firstn_repeat {A} (x : A) : forall j m, (j <= m)%nat -> firstn j (repeat x m) = repeat x j.
Proof.
  induction j as [|j IH]; intros m Hj; [reflexivity|].
  destruct m as [|m]; [lia|]. cbn [repeat firstn]. rewrite IH by lia. reflexivity.
Qed.
Lemma drop_zeros k n : drop k (zeros n) = zeros (n - k).
Proof.
  unfold drop, zeros. rewrite skipn_repeat. f_equal. lia.
Qed.
Lemma take_zeros k n : k <= n -> take k (zeros n) = zeros k.
Proof.
  intros H. unfold take, zeros. apply firstn_repeat. lia.
Qed.
Lemma zeros_0 : zeros 0 = [].
Proof. reflexivity. Qed.
Lemma take_0 {A} (l : list A) : take 0 l = [].
Proof. reflexivity. Qed.
Lemma take_all {A} (l : list A) n : len l <= n -> take n l = l.
Proof. intros H. unfold take. apply firstn_all2. unfold len in H. lia. Qed.

Lemma boring_in_range u : 255 < u -> u < 512 ->
  boring_padding_style u = (if 5 <=? 512 - u then 512 - u - 4 else 1, true).
Proof. intros H1 H2. unfold boring_padding_style. replace (255 <? u) with true by lia. replace (u <? 512) with true by lia. reflexivity. Qed.
Lemma boring_out_of_range u : u <= 255 \/ 512 <= u -> boring_padding_style u = (0, false).
Proof.
  intros H. unfold boring_padding_style.
  destruct (255 <? u) eqn:E1; destruct (u <? 512) eqn:E2; cbn [andb]; try reflexivity. lia.
Qed.

Lemma pad_len_boring u :
  pad_len (pad_update PolBoring {| p_len := 0; p_will := false |} u) =
  if (255 <? u) && (u <? 512) then (if 5 <=? 512 - u then 512 - u else 5) else 0.
Proof.
  unfold pad_update, boring_padding_style.
  destruct ((255 <? u) && (u <? 512)) eqn:E; cbn [pad_len p_will p_len]; [|reflexivity].
  destruct (5 <=? 512 - u) eqn:E5; lia.
Qed.

Lemma pad_update_boring_state st u : pad_update PolBoring st u = pad_update PolBoring {| p_len := 0; p_will := false |} u.
Proof. reflexivity. Qed.

Lemma pad_len_always (n : Z) st u :
  pad_len (pad_update (PolAlways n) st u) =
  if (Z.of_N u <? n)%Z then (if (5 <=? n - Z.of_N u)%Z then Z.to_N (n - Z.of_N u) else 5) else 0.
Proof.
  unfold pad_update, always_pad_to_len.
  destruct (Z.of_N u <? n)%Z eqn:E; cbn [pad_len p_will p_len]; [|reflexivity].
  destruct (5 <=? Z.to_N (n - Z.of_N u)) eqn:E5; destruct (5 <=? n - Z.of_N u)%Z eqn:E6; lia.
Qed.

Lemma len_pad_emit st : len (pad_emit st) = pad_len st.
Proof.
  unfold pad_emit, pad_len. destruct (p_will st); [|reflexivity].
  rewrite len_app, len_zeros. reflexivity.
Qed.

(* [emits e o]: whenever it is given enough room, e's Read produces exactly
   the bytes o, of length Len(), whatever the buffer held (for the padding
   extension: header plus zeros — which pad_read only delivers on a zeroed
   buffer, see pad_read_zeros). *)
Definition emits (e : aext) (o : bytes) : Prop :=
  match e with
  | AExt _ n rd => len o = n /\ forall s, n <= len s -> rd s = Ok o
  | APad _ st => o = pad_emit st
  end.

Definition aext_ok (e : aext) : Prop :=
  match e with
  | AExt _ _ _ => exists o, emits e o
  | APad _ _ => True
  end.

Lemma emits_len e o : emits e o -> len o = a_len e.
Proof.
  destruct e as [psk n rd|pol st]; cbn [emits a_len].
  - intros [H _]. exact H.
  - intros ->. apply len_pad_emit.
Qed.

Lemma fixed_ext_emits psk body : emits (fixed_ext psk body) body.
Proof.
  unfold fixed_ext. cbn [emits]. split; [reflexivity|].
  intros s Hs. replace (len s <? len body) with false by lia. reflexivity.
Qed.
Lemma fixed_ext_ok psk body : aext_ok (fixed_ext psk body).
Proof. exists body. apply fixed_ext_emits. Qed.

Lemma pad_read_zeros st k : pad_len st <= k -> pad_read st (zeros k) = Ok (pad_emit st).
Proof.
  intros H. unfold pad_read, pad_emit, pad_len in *. destruct (p_will st); cbn [negb]; [|reflexivity].
  rewrite len_zeros. replace (k <? 4 + p_len st) with false by lia.
  rewrite drop_zeros, take_zeros by lia. reflexivity.
Qed.

Lemma a_read_zeros e o k : emits e o -> len o <= k -> a_read e (zeros k) = Ok o.
Proof.
  destruct e as [psk n rd|pol st]; cbn [emits a_read].
  - intros [Hl Hr] Hk. apply Hr. rewrite len_zeros. lia.
  - intros -> Hk. apply pad_read_zeros. rewrite len_pad_emit in Hk. exact Hk.
Qed.

Lemma emits_inj e o o' : emits e o -> emits e o' -> o = o'.
Proof.
  destruct e as [psk n rd|pol st]; cbn [emits].
  - intros [_ H] [_ H']. specialize (H (zeros n)). specialize (H' (zeros n)). rewrite len_zeros in H, H'.
    rewrite (H (N.le_refl n)) in H'. specialize (H' (N.le_refl n)). inversion H'. reflexivity.
  - intros -> ->. reflexivity.
Qed.

(* nothing flushed yet: the array is what was written followed by zeros *)
Definition buffered (size : N) (done : bytes) : writer :=
  {| w_size := size; w_arr := done ++ zeros (size - len done); w_n := len done; w_out := [] |}.

Lemma buffered_new size : bw_new size = buffered size [].
Proof. unfold bw_new, buffered. change (len (@nil N)) with 0. rewrite N.sub_0_r. reflexivity. Qed.

Lemma bw_copy_buffered size done p : len done + len p <= size ->
  bw_copy p (buffered size done) = buffered size (done ++ p).
Proof.
  intros Hfit. unfold bw_copy, buffered, arr_put. cbn [w_size w_out w_n w_arr].
  rewrite take_app_len, drop_app_len, drop_zeros, len_app, <- app_assoc. do 4 f_equal. lia.
Qed.

Lemma bw_write_buffered size done p : len done + len p <= size ->
  bw_write p (buffered size done) = buffered size (done ++ p).
Proof.
  intros Hfit. unfold bw_write, bw_avail. cbn [buffered w_size w_n].
  replace (len p <=? size - len done) with true by lia. apply bw_copy_buffered, Hfit.
Qed.

Lemma flush_buffered size done : bw_flush (buffered size done) =
  {| w_size := size; w_arr := done ++ zeros (size - len done); w_n := 0; w_out := done |}.
Proof. unfold bw_flush, buffered. cbn [w_size w_out w_n w_arr app]. rewrite take_app_len. reflexivity. Qed.

Lemma len_u16be x : len (u16be x) = 2.
Proof. reflexivity. Qed.
Lemma len_u24be x : len (u24be x) = 3.
Proof. reflexivity. Qed.
Lemma len_suites_bytes ss : len (suites_bytes ss) = 2 * len ss.
Proof.
  induction ss as [|s ss IH]; [reflexivity|].
  cbn [suites_bytes flat_map]. fold (suites_bytes ss). rewrite len_app, len_u16be, len_cons, IH. lia.
Qed.

Lemma fold_suites_buffered size ss : forall done, len done + 2 * len ss <= size ->
  fold_left (fun w s => bw_write (u16be s) w) ss (buffered size done) = buffered size (done ++ suites_bytes ss).
Proof.
  induction ss as [|s ss IH]; intros done Hfit; cbn [fold_left suites_bytes flat_map].
  - rewrite app_nil_r. reflexivity.
  - fold (suites_bytes ss). rewrite len_cons in Hfit.
    rewrite bw_write_buffered, IH, app_assoc by (rewrite ?len_app, len_u16be; lia). reflexivity.
Qed.

Definition hdr_ok (h : hello_hdr) : Prop := len (h_random h) = 32.

Lemma len_nil_N : len (@nil N) = 0.
Proof. reflexivity. Qed.
Lemma len_single (x : N) : len [x] = 1.
Proof. reflexivity. Qed.
#[export] Hint Rewrite @len_app len_single len_nil_N len_u24be len_u16be len_suites_bytes len_zeros : lenrw.

Lemma len_header_bytes h hl : hdr_ok h -> len (header_bytes h hl) = 4 + header_length h.
Proof.
  intros Hr. unfold hdr_ok in Hr. unfold header_bytes, header_length.
  autorewrite with lenrw. lia.
Qed.

Lemma write_header_buffered h hl size : hdr_ok h -> 4 + header_length h <= size ->
  write_header h hl (bw_new size) = buffered size (header_bytes h hl).
Proof.
  intros Hr Hfit. unfold hdr_ok in Hr. unfold header_length in Hfit.
  unfold write_header, header_bytes. rewrite buffered_new.
  (* one equation per write; each write fits *)
  repeat (first [rewrite bw_write_buffered | rewrite fold_suites_buffered]; [|autorewrite with lenrw; lia]).
  rewrite <- !app_assoc. reflexivity.
Qed.

(* Either nothing has been flushed (and at least the message type byte is
   buffered), or the buffer was exactly full, has been flushed, and is empty. *)
Definition st_ok (size : N) (done : bytes) (w : writer) : Prop :=
  (w = buffered size done /\ 1 <= len done <= size) \/
  (w_size w = size /\ w_n w = 0 /\ w_out w = done /\ len done = size /\ 1 <= size).

(* bufio.Writer.ReadFrom begins and ends with this conditional flush *)
Lemma flush_if_full size done w : st_ok size done w ->
  st_ok size done (if bw_avail w =? 0 then bw_flush w else w).
Proof.
  intros [[-> Hl] | Hfl]; unfold bw_avail.
  - cbn [buffered w_size w_n]. destruct (size - len done =? 0) eqn:E; [right | left; split; [reflexivity | exact Hl]].
    rewrite flush_buffered. cbn [w_size w_n w_out]. repeat split; lia.
  - pose proof Hfl as (Hs & Hn & _ & _ & Hsz). replace (w_size w - w_n w =? 0) with false by lia.
    right. exact Hfl.
Qed.

Lemma read_from_ok bbs size done w e o :
  st_ok size done w -> emits e o -> len done + len o <= size ->
  exists w', bw_read_from bbs e w = Ok w' /\ st_ok size (done ++ o) w'.
Proof.
  intros Hst He Hroom. unfold bw_read_from. apply flush_if_full in Hst.
  set (w0 := if bw_avail w =? 0 then bw_flush w else w) in *. clearbody w0.
  destruct Hst as [[-> Hl] | (Hs & Hn & Ho & Hfull & Hsz)].
  - (* something is buffered: Read is handed the rest of the array, which is still zero *)
    cbn [buffered w_n w_arr]. replace (len done =? 0) with false by lia.
    rewrite drop_app_len0, (a_read_zeros e o _ He) by lia. cbn [bind].
    rewrite len_zeros. replace (size - len done <? len o) with false by lia.
    eexists; split; [reflexivity|]. apply flush_if_full. left.
    split; [apply bw_copy_buffered, Hroom | rewrite len_app; lia].
  - (* the full buffer has been flushed: bytes.Buffer.ReadFrom, and nothing is left to emit *)
    rewrite Hn. cbn [N.eqb].
    assert (Ho0 : o = []) by (apply len_0_nil; lia). subst o.
    rewrite (a_read_zeros e [] _ He) by (rewrite len_nil; lia). cbn [bind].
    rewrite len_nil. replace (bbs (len (w_out w0)) <? 0) with false by lia.
    eexists; split; [reflexivity|]. right. unfold bw_direct. cbn [w_size w_n w_out].
    rewrite Ho, !app_nil_r. repeat split; assumption.
Qed.

Lemma read_all_ok bbs size : forall es outs done w,
  st_ok size done w -> Forall2 emits es outs -> len done + len (concat outs) <= size ->
  exists w', bw_read_all bbs es w = Ok w' /\ st_ok size (done ++ concat outs) w'.
Proof.
  induction es as [|e es IH]; intros outs done w Hst HF Hroom.
  - inversion HF; subst. cbn [bw_read_all concat]. rewrite app_nil_r. eauto.
  - inversion HF as [|? o ? outs' He HF']; subst. cbn [concat] in *. rewrite len_app in Hroom.
    destruct (read_from_ok bbs size done w e o Hst He ltac:(lia)) as (w1 & Hr & Hst1).
    cbn [bw_read_all]. rewrite Hr. cbn [bind].
    destruct (IH outs' (done ++ o) w1 Hst1 HF' ltac:(rewrite len_app; lia)) as (w2 & Hr2 & Hst2).
    exists w2. split; [exact Hr2|]. rewrite app_assoc. exact Hst2.
Qed.

Lemma final_flush size done w : st_ok size done w -> w_out (bw_flush w) = done.
Proof.
  intros [[-> _] | (Hs & Hn & Ho & _ & _)].
  - rewrite flush_buffered. reflexivity.
  - unfold bw_flush. cbn [w_out]. rewrite Hn, take_0, app_nil_r. exact Ho.
Qed.

Definition nopad (es : list aext) : Prop := Forall (fun e => a_is_pad e = false) es.

Definition total_len (es : list aext) : N := fold_right (fun e acc => a_len e + acc) 0 es.

Lemma total_len_cons e es : total_len (e :: es) = a_len e + total_len es.
Proof. reflexivity. Qed.
Lemma nonpad_len_cons e es : nonpad_len (e :: es) = if a_is_pad e then nonpad_len es else a_len e + nonpad_len es.
Proof. reflexivity. Qed.

Lemma nopad_update u es : nopad es -> update_padding u es = es.
Proof.
  induction 1 as [|e es He _ IH]; [reflexivity|].
  cbn [update_padding map]. fold (update_padding u es). rewrite IH.
  destruct e; [reflexivity | discriminate].
Qed.
Lemma nopad_nonpad_len es : nopad es -> nonpad_len es = total_len es.
Proof.
  induction 1 as [|e es He _ IH]; [reflexivity|].
  rewrite nonpad_len_cons, total_len_cons, He, IH. reflexivity.
Qed.
Lemma nonpad_len_app a b : nonpad_len (a ++ b) = nonpad_len a + nonpad_len b.
Proof.
  induction a as [|e a IH]; [reflexivity|].
  cbn [app]. rewrite !nonpad_len_cons, IH. destruct (a_is_pad e); lia.
Qed.
Lemma total_len_app a b : total_len (a ++ b) = total_len a + total_len b.
Proof.
  induction a as [|e a IH]; [reflexivity|].
  cbn [app]. rewrite !total_len_cons, IH. lia.
Qed.
Lemma update_padding_app u a b : update_padding u (a ++ b) = update_padding u a ++ update_padding u b.
Proof. apply map_app. Qed.
Lemma nonpad_len_one pre pol st post : nopad pre -> nopad post ->
  nonpad_len (pre ++ APad pol st :: post) = total_len pre + total_len post.
Proof.
  intros Hn1 Hn2. rewrite nonpad_len_app, nonpad_len_cons. cbn [a_is_pad].
  rewrite (nopad_nonpad_len pre Hn1), (nopad_nonpad_len post Hn2). reflexivity.
Qed.

Lemma find_padding_some es : forall x pe, find_padding es (Some x) = Ok pe -> pe = Some x /\ nopad es.
Proof.
  induction es as [|e es IH]; intros x pe H.
  - cbn in H. inversion H. split; [reflexivity | constructor].
  - destruct e as [psk n rd|pol st]; cbn [find_padding] in H.
    + destruct (IH _ _ H) as [-> Hn]. split; [reflexivity|]. constructor; [reflexivity | exact Hn].
    + discriminate.
Qed.

Lemma find_padding_none es : forall pe, find_padding es None = Ok pe ->
  match pe with
  | None => nopad es
  | Some (pol, st) => exists pre post, es = pre ++ APad pol st :: post /\ nopad pre /\ nopad post
  end.
Proof.
  induction es as [|e es IH]; intros pe H.
  - cbn in H. inversion H. constructor.
  - destruct e as [psk n rd|pol st]; cbn [find_padding] in H.
    + specialize (IH _ H). destruct pe as [[pol st]|].
      * destruct IH as (pre & post & -> & Hp & Hq). exists (AExt psk n rd :: pre), post.
        split; [reflexivity|]. split; [constructor; [reflexivity|exact Hp] | exact Hq].
      * constructor; [reflexivity | exact IH].
    + destruct (find_padding_some _ _ _ H) as [-> Hn]. exists [], es. repeat split; [constructor | exact Hn].
Qed.

Lemma find_padding_nopad es found : nopad es -> find_padding es found = Ok found.
Proof.
  induction 1 as [|e es He _ IH]; [reflexivity|]. destruct e; [exact IH | discriminate].
Qed.

Lemma find_padding_one pre pol st post : nopad pre -> nopad post ->
  find_padding (pre ++ APad pol st :: post) None = Ok (Some (pol, st)).
Proof.
  intros Hp Hq. induction Hp as [|e pre He _ IH].
  - apply (find_padding_nopad post _ Hq).
  - cbn [app]. destruct e; [exact IH | discriminate].
Qed.

Definition npad (es : list aext) : nat := length (filter a_is_pad es).

(* the outcome is decided by the number of padding extensions, counting the one already found *)
Lemma find_padding_count es : forall found,
  match find_padding es found with
  | Ok _ => (npad es + (if found then 1 else 0) <= 1)%nat
  | Err c => c = E_MULTI_PADDING /\ (2 <= npad es + (if found then 1 else 0))%nat
  | Panic _ => False
  end.
Proof.
  unfold npad. induction es as [|e es IH]; intros found; cbn [find_padding filter length].
  - destruct found; lia.
  - destruct e as [psk n rd|pol st]; cbn [a_is_pad length]; [apply IH|].
    destruct found; [split; [reflexivity | lia]|].
    specialize (IH (Some (pol, st))). destruct (find_padding es (Some (pol, st))); lia.
Qed.

Lemma find_padding_two a p1 s1 b p2 s2 c found :
  find_padding (a ++ APad p1 s1 :: b ++ APad p2 s2 :: c) found = Err E_MULTI_PADDING.
Proof.
  revert found. induction a as [|e a IH]; intros found.
  - cbn [app find_padding]. destruct found; [reflexivity|].
    generalize (p1, s1) as x. intros x. induction b as [|e b IHb].
    + reflexivity.
    + cbn [app find_padding]. destruct e; [exact IHb | reflexivity].
  - cbn [app find_padding]. destruct e as [psk n rd|pol st]; [apply IH|].
    destruct found; [reflexivity | apply IH].
Qed.

Lemma prepare_inv h es p : marshal_prepare h es = Ok p ->
  (pr_exts p = es \/ pr_exts p = update_padding (unpadded_len h es) es) /\
  pr_hello_len p = match es with [] => header_length h | _ => header_length h + (2 + pr_extensions_len p) end.
Proof.
  unfold marshal_prepare. destruct (find_padding es None) as [pe| |]; cbn [bind]; try discriminate.
  intros H. inversion H; subst p. cbn [pr_exts pr_hello_len pr_extensions_len].
  split; [destruct pe; auto | reflexivity].
Qed.

Lemma prepare_shape h es p : marshal_prepare h es = Ok p ->
  nopad es \/ exists pre pol st post, es = pre ++ APad pol st :: post /\ nopad pre /\ nopad post.
Proof.
  unfold marshal_prepare. destruct (find_padding es None) as [pe| |] eqn:Hf; try discriminate. intros _.
  pose proof (find_padding_none es pe Hf) as Hc. destruct pe as [[pol st]|]; [right | left; exact Hc].
  destruct Hc as (pre & post & Hc). eauto.
Qed.

Lemma prepare_nopad h es : nopad es ->
  marshal_prepare h es =
    Ok {| pr_exts := es; pr_extensions_len := total_len es;
          pr_hello_len := match es with [] => header_length h | _ => header_length h + (2 + total_len es) end |}.
Proof.
  intros Hnp. unfold marshal_prepare. rewrite (find_padding_nopad es None Hnp). cbn [bind].
  rewrite (nopad_nonpad_len es Hnp). reflexivity.
Qed.

Lemma prepare_onepad h pre pol st post : nopad pre -> nopad post ->
  let es := pre ++ APad pol st :: post in
  let st' := pad_update pol st (unpadded_len h es) in
  let extl := total_len pre + total_len post + pad_len st' in
  marshal_prepare h es =
    Ok {| pr_exts := pre ++ APad pol st' :: post; pr_extensions_len := extl;
          pr_hello_len := header_length h + (2 + extl) |}.
Proof.
  intros Hn1 Hn2 es st' extl.
  assert (Hnl : nonpad_len es = total_len pre + total_len post) by (apply nonpad_len_one; assumption).
  assert (Hup : update_padding (unpadded_len h es) es = pre ++ APad pol st' :: post).
  { unfold es at 2. rewrite update_padding_app. cbn [update_padding map].
    fold (update_padding (unpadded_len h es) post). fold st'.
    rewrite (nopad_update _ pre Hn1), (nopad_update _ post Hn2). reflexivity. }
  unfold marshal_prepare. rewrite (find_padding_one pre pol st post Hn1 Hn2 : find_padding es None = _). cbn [bind].
  fold st'. rewrite Hup, Hnl. fold extl. unfold es. destruct pre; reflexivity.
Qed.

Lemma prepare_ok h es p : Forall aext_ok es -> marshal_prepare h es = Ok p ->
  total_len (pr_exts p) = pr_extensions_len p /\ Forall aext_ok (pr_exts p) /\
  (es = [] -> pr_exts p = []) /\
  pr_hello_len p = match es with [] => header_length h | _ => header_length h + (2 + pr_extensions_len p) end.
Proof.
  intros Hok Hp. destruct (prepare_inv h es p Hp) as [_ Hhl].
  destruct (prepare_shape h es p Hp) as [Hn | (pre & pol & st & post & -> & Hn1 & Hn2)].
  - rewrite (prepare_nopad h es Hn) in Hp. inversion Hp; subst p. cbn [pr_exts pr_extensions_len] in *. auto.
  - rewrite (prepare_onepad h pre pol st post Hn1 Hn2) in Hp. inversion Hp; subst p; clear Hp.
    cbn [pr_exts pr_extensions_len] in *.
    apply Forall_app in Hok. destruct Hok as [Hok1 Hok2]. inversion Hok2 as [|? ? _ Hok2']; subst.
    rewrite total_len_app, total_len_cons. cbn [a_len].
    split; [lia|]. split; [apply Forall_app; split; [exact Hok1 | constructor; [exact I | exact Hok2']]|].
    split; [intros E; destruct pre; discriminate | exact Hhl].
Qed.

Lemma emits_exists es : Forall aext_ok es -> exists outs, Forall2 emits es outs.
Proof.
  induction 1 as [|e es He _ (outs & IH)].
  - exists []. constructor.
  - destruct e as [psk n rd|pol st].
    + destruct He as (o & Ho). exists (o :: outs). constructor; assumption.
    + exists (pad_emit st :: outs). constructor; [reflexivity | assumption].
Qed.

Lemma emits_total es outs : Forall2 emits es outs -> len (concat outs) = total_len es.
Proof.
  induction 1 as [|e o es outs He _ IH]; [reflexivity|].
  cbn [concat]. rewrite total_len_cons, len_app, IH, (emits_len e o He). reflexivity.
Qed.

Lemma aext_ok_update u es : Forall aext_ok es -> Forall aext_ok (update_padding u es).
Proof.
  induction 1 as [|e es He _ IH]; [constructor|].
  cbn [update_padding map]. constructor; [|exact IH]. destruct e; [exact He | exact I].
Qed.

Definition ext_block (es : list aext) (extl : N) (outs : list bytes) : bytes :=
  match es with [] => [] | _ => u16be (u16 extl) ++ concat outs end.

Lemma marshal_core bbs h es p :
  hdr_ok h -> Forall aext_ok es -> marshal_prepare h es = Ok p ->
  exists outs, Forall2 emits (pr_exts p) outs /\
    marshal_client_hello bbs h es =
      Ok (header_bytes h (pr_hello_len p) ++ ext_block es (pr_extensions_len p) outs).
Proof.
  intros Hh Hok0 Hp. destruct (prepare_ok h es p Hok0 Hp) as (Htot & Hok & _ & Hhl).
  destruct (emits_exists _ Hok) as (outs & Hem). exists outs. split; [exact Hem|].
  unfold marshal_client_hello. rewrite Hp. cbn [bind].
  pose proof (emits_total _ _ Hem) as Hcat. rewrite Htot in Hcat.
  set (hl := pr_hello_len p) in *.
  rewrite (write_header_buffered h hl (hl + 4) Hh) by (destruct es; lia).
  pose proof (len_header_bytes h hl Hh) as Hlen.
  destruct es as [|e0 es0].
  - cbn [bind]. rewrite flush_buffered. cbn [w_out].
    replace (len (header_bytes h hl) =? 4 + hl) with true by lia. cbn [negb ext_block].
    rewrite app_nil_r. reflexivity.
  - set (es := e0 :: es0) in *. rewrite bw_write_buffered by (rewrite len_u16be; lia).
    assert (H1 : 1 <= len (header_bytes h hl ++ u16be (u16 (pr_extensions_len p))) <= hl + 4)
      by (rewrite len_app, len_u16be; lia).
    destruct (read_all_ok bbs (hl + 4) (pr_exts p) outs _ _ (or_introl (conj eq_refl H1)) Hem) as (w' & Hr & Hst').
    { rewrite len_app, len_u16be. lia. }
    rewrite Hr. cbn [bind]. rewrite (final_flush _ _ _ Hst'), !len_app, len_u16be.
    replace (len (header_bytes h hl) + 2 + len (concat outs) =? 4 + hl) with true by lia.
    cbn [negb ext_block]. rewrite <- app_assoc. reflexivity.
Qed.

Lemma marshal_nopad bbs h es : hdr_ok h -> Forall aext_ok es -> nopad es ->
  exists outs, Forall2 emits es outs /\
    marshal_client_hello bbs h es =
      Ok (header_bytes h (match es with [] => header_length h | _ => header_length h + (2 + total_len es) end)
          ++ ext_block es (total_len es) outs).
Proof.
  intros Hh Hok Hnp. exact (marshal_core bbs h es _ Hh Hok (prepare_nopad h es Hnp)).
Qed.

Lemma marshal_onepad bbs h pre pol st post :
  hdr_ok h -> Forall aext_ok pre -> Forall aext_ok post -> nopad pre -> nopad post ->
  let es := pre ++ APad pol st :: post in
  let u := unpadded_len h es in
  let st' := pad_update pol st u in
  let extl := total_len pre + total_len post + pad_len st' in
  exists o1 o2, Forall2 emits pre o1 /\ Forall2 emits post o2 /\
    marshal_client_hello bbs h es =
      Ok (header_bytes h (header_length h + (2 + extl)) ++ u16be (u16 extl)
          ++ concat o1 ++ pad_emit st' ++ concat o2).
Proof.
  intros Hh Hok1 Hok2 Hn1 Hn2 es u st' extl.
  assert (Hok : Forall aext_ok es) by (apply Forall_app; split; [exact Hok1 | constructor; [exact I | exact Hok2]]).
  destruct (marshal_core bbs h es _ Hh Hok (prepare_onepad h pre pol st post Hn1 Hn2)) as (outs & Hem & Hm).
  cbn [pr_exts pr_extensions_len pr_hello_len] in *.
  apply Forall2_app_inv_l in Hem. destruct Hem as (o1 & o2' & H1 & H2 & ->).
  inversion H2 as [|? op ? o2 Hop H2']; subst. cbn [emits] in Hop. subst op.
  exists o1, o2. split; [exact H1|]. split; [exact H2'|].
  rewrite Hm. unfold ext_block, es. rewrite concat_app. cbn [concat].
  destruct pre; cbn [app]; rewrite <- ?app_assoc; reflexivity.
Qed.

Lemma unpadded_len_one h pre pol st post : nopad pre -> nopad post ->
  unpadded_len h (pre ++ APad pol st :: post) = header_length h + 4 + (total_len pre + total_len post) + 2.
Proof.
  intros Hn1 Hn2. unfold unpadded_len. rewrite (nonpad_len_one pre pol st post Hn1 Hn2). reflexivity.
Qed.

Lemma marshal_onepad_split bbs h pre pol st post :
  hdr_ok h -> Forall aext_ok pre -> Forall aext_ok post -> nopad pre -> nopad post ->
  let es := pre ++ APad pol st :: post in
  let u := unpadded_len h es in
  let st' := pad_update pol st u in
  exists a b, marshal_client_hello bbs h es = Ok (a ++ pad_emit st' ++ b) /\
              len a + len b = u /\ len (a ++ pad_emit st' ++ b) = u + pad_len st'.
Proof.
  intros Hh Hok1 Hok2 Hn1 Hn2 es u st'.
  destruct (marshal_onepad bbs h pre pol st post Hh Hok1 Hok2 Hn1 Hn2) as (o1 & o2 & H1 & H2 & Hm).
  fold es in Hm. fold u in Hm. fold st' in Hm.
  set (extl := total_len pre + total_len post + pad_len st') in *.
  exists (header_bytes h (header_length h + (2 + extl)) ++ u16be (u16 extl) ++ concat o1), (concat o2).
  assert (Hu : u = header_length h + 4 + (total_len pre + total_len post) + 2)
    by (apply unpadded_len_one; assumption).
  pose proof (emits_total _ _ H1) as L1. pose proof (emits_total _ _ H2) as L2.
  pose proof (len_header_bytes h (header_length h + (2 + extl)) Hh) as Lh.
  split; [|split].
  - rewrite Hm. rewrite <- ?app_assoc. reflexivity.
  - rewrite !len_app, len_u16be. lia.
  - rewrite !len_app, len_u16be, len_pad_emit. lia.
Qed.

Lemma marshal_nopad_len bbs h es : hdr_ok h -> Forall aext_ok es -> nopad es ->
  exists outs, Forall2 emits es outs /\
    marshal_client_hello bbs h es =
      Ok (header_bytes h (match es with [] => header_length h | _ => header_length h + (2 + total_len es) end)
          ++ ext_block es (total_len es) outs) /\
    len (header_bytes h (match es with [] => header_length h | _ => header_length h + (2 + total_len es) end)
          ++ ext_block es (total_len es) outs)
    = match es with [] => 4 + header_length h | _ => 4 + header_length h + 2 + total_len es end.
Proof.
  intros Hh Hok Hnp. destruct (marshal_nopad bbs h es Hh Hok Hnp) as (outs & Hem & Hm).
  exists outs. split; [exact Hem|]. split; [exact Hm|].
  pose proof (emits_total _ _ Hem) as L. rewrite len_app, len_header_bytes by exact Hh.
  destruct es; cbn [ext_block].
  - rewrite len_nil. lia.
  - rewrite len_app, len_u16be. lia.
Qed.

Lemma marshal_len_any bbs h es raw : marshal_client_hello bbs h es = Ok raw ->
  exists p, marshal_prepare h es = Ok p /\ len raw = 4 + pr_hello_len p.
Proof.
  unfold marshal_client_hello. destruct (marshal_prepare h es) as [p| |]; cbn [bind]; try discriminate.
  intros H. exists p. split; [reflexivity|].
  destruct (match es with [] => _ | _ => _ end) as [w| |]; cbn [bind] in H; try discriminate.
  destruct (len (w_out (bw_flush w)) =? 4 + pr_hello_len p) eqn:E; cbn [negb] in H; [|discriminate].
  apply N.eqb_eq in E. inversion H; subst raw. exact E.
Qed.

Lemma marshal_framing bbs h es p : hdr_ok h -> Forall aext_ok es -> marshal_prepare h es = Ok p ->
  exists body eb outs,
    marshal_client_hello bbs h es = Ok ([typeClientHello] ++ u24be (len body) ++ body) /\
    body = u16be (h_vers h) ++ h_random h
           ++ [u8 (len (h_sid h))] ++ h_sid h
           ++ u16be (u16 (len (suites_bytes (h_suites h)))) ++ suites_bytes (h_suites h)
           ++ [u8 (len (h_comp h))] ++ h_comp h
           ++ match es with [] => [] | _ => u16be (u16 (len eb)) ++ eb end /\
    eb = concat outs /\ Forall2 emits (pr_exts p) outs /\ length (pr_exts p) = length es.
Proof.
  intros Hh Hok Hp. destruct (prepare_ok h es p Hok Hp) as (Htot & _ & _ & Hhl).
  destruct (marshal_core bbs h es p Hh Hok Hp) as (outs & Hem & Hm).
  pose proof (emits_total _ _ Hem) as Lc. rewrite Htot in Lc.
  set (eb := concat outs).
  set (tailb := match es with [] => [] | _ => u16be (u16 (len eb)) ++ eb end).
  assert (Htail : ext_block es (pr_extensions_len p) outs = tailb).
  { unfold tailb, ext_block, eb. rewrite Lc. destruct es; reflexivity. }
  assert (Hlt : len tailb = match es with [] => 0 | _ => 2 + pr_extensions_len p end).
  { unfold tailb. destruct es; [reflexivity|]. rewrite len_app, len_u16be. unfold eb. lia. }
  set (body := u16be (h_vers h) ++ h_random h
           ++ [u8 (len (h_sid h))] ++ h_sid h
           ++ u16be (u16 (len (suites_bytes (h_suites h)))) ++ suites_bytes (h_suites h)
           ++ [u8 (len (h_comp h))] ++ h_comp h ++ tailb).
  assert (Hlb : len body = pr_hello_len p).
  { unfold body. autorewrite with lenrw. rewrite Hlt, Hhl. unfold hdr_ok in Hh. unfold header_length.
    destruct es; lia. }
  exists body, eb, outs. split; [|split; [reflexivity|split; [reflexivity|split; [exact Hem|]]]].
  - rewrite Hm, Htail, Hlb. unfold header_bytes, body.
    rewrite len_suites_bytes, (N.mul_comm 2). rewrite <- ?app_assoc. reflexivity.
  - destruct (prepare_inv h es p Hp) as [[-> | ->] _]; [reflexivity | apply map_length].
Qed.

Lemma from_raw_install_app rawlen pre rest : nopad pre ->
  from_raw_install rawlen (pre ++ rest) = pre ++ from_raw_install rawlen rest.
Proof.
  induction 1 as [|e pre He _ IH]; [reflexivity|].
  cbn [app from_raw_install]. destruct e; [rewrite IH; reflexivity | discriminate].
Qed.

Lemma from_raw_install_one rawlen pre pol st post : nopad pre ->
  from_raw_install rawlen (pre ++ APad pol st :: post) = pre ++ APad (from_raw_policy rawlen) st :: post.
Proof. exact (from_raw_install_app rawlen pre (APad pol st :: post)). Qed.

Lemma from_raw_install_nopad rawlen es : nopad es -> from_raw_install rawlen es = es.
Proof.
  intros Hn. rewrite <- (app_nil_r es) at 1. rewrite (from_raw_install_app rawlen es [] Hn). apply app_nil_r.
Qed.

(* padded up to the captured length, but by no fewer than the 5 bytes of the smallest padding extension *)
Lemma marshal_from_raw_len bbs h pre pol st post rawlen :
  hdr_ok h -> Forall aext_ok pre -> Forall aext_ok post -> nopad pre -> nopad post ->
  let es := from_raw_install rawlen (pre ++ APad pol st :: post) in
  let U := unpadded_len h es in
  exists raw, marshal_client_hello bbs h es = Ok raw /\
    ((Z.of_N U < Z.of_N rawlen - 5)%Z -> Z.of_N (len raw) = Z.max (Z.of_N rawlen - 5) (Z.of_N U + 5)) /\
    ((Z.of_N rawlen - 5 <= Z.of_N U)%Z -> len raw = U).
Proof.
  intros Hh Hok1 Hok2 Hn1 Hn2 es U. unfold U, es. rewrite (from_raw_install_one rawlen pre pol st post Hn1).
  destruct (marshal_onepad_split bbs h pre (from_raw_policy rawlen) st post Hh Hok1 Hok2 Hn1 Hn2) as (a & b & Hm & _ & Hlen).
  eexists. split; [exact Hm|]. rewrite Hlen. unfold from_raw_policy. rewrite pad_len_always.
  destruct (_ <? _)%Z eqn:E1; [|clear -E1; lia]. destruct (5 <=? _)%Z eqn:E2; clear -E1 E2; lia.
Qed.

Definition nopsk (es : list aext) : Prop := Forall (fun e => a_is_psk e = false) es.
Definition fresh_pad : aext := APad PolBoring {| p_len := 0; p_will := false |}.

Lemma aap_app pre rest : nopad pre -> nopsk pre ->
  always_add_padding (pre ++ rest) = pre ++ always_add_padding rest.
Proof.
  intros Hn Hk. induction Hn as [|e pre He _ IH]; [reflexivity|].
  inversion Hk as [|? ? Hke Hk']; subst. cbn [app always_add_padding]. rewrite He, Hke, (IH Hk'). reflexivity.
Qed.
