(* C30 — the seeded PRNG is deterministic and its helpers stay in range.
   Determinism: every helper is a function of the SHAKE256 stream (the model
   functions take the stream as argument; the correspondence check confirms the
   code consumes exactly that stream). Range statements hold for EVERY stream,
   hence for every seed. "Differs across salts" is a statement about HKDF/SHAKE
   and is observed by the runner, not proved. *)
From UV Require Import Base.Common Model.Prng Proofs.PrngP.
From Coq Require Import QArith.
Open Scope N_scope.

Theorem C30_intn : forall fuel n s v r, intn fuel n s = Some (v, r) ->
  ((n <= 0)%Z -> v = 0%Z /\ r = s) /\ ((0 < n)%Z -> (0 <= v < n)%Z).
Proof. exact intn_spec. Qed.
Print Assumptions C30_intn.

Theorem C30_int63n : forall fuel n s v r, p_int63n fuel n s = Some (v, r) ->
  ((n <= 0)%Z -> v = 0%Z /\ r = s) /\ ((0 < n)%Z -> (0 <= v < n)%Z).
Proof.
  intros fuel n s v r. unfold p_int63n. destruct (n <=? 0)%Z eqn:E.
  - intros [= <- <-]. split; [auto|lia].
  - destruct (int63n fuel (Z.to_N n) s) as [[v0 r0]|] eqn:R; [|discriminate]. intros [= <- <-].
    split; [lia|]. intros Hn. rewrite int63n_randn in R. assert (v0 < Z.to_N n) by (eapply randn_range; eauto; lia). lia.
Qed.
Print Assumptions C30_int63n.

Theorem C30_range : forall fuel mn mx s v r, is_int mn -> is_int mx -> range fuel mn mx s = Some (v, r) ->
  let lo := Z.max mn 0 in
  ((mx < lo)%Z -> v = lo) /\ ((lo <= mx)%Z -> (lo <= v <= mx)%Z).
Proof. exact range_spec. Qed.
Print Assumptions C30_range.

(* FlipWeightedCoin, for any float rounding satisfying the IEEE-754 laws listed
   as premises (monotone; 0, 1, 2^63, 2^-63 representable). *)
Definition rounding_laws (rnd : Q -> Q) : Prop :=
  (forall x y, (x <= y)%Q -> (rnd x <= rnd y)%Q) /\ (rnd 0 == 0)%Q /\ (rnd 1 == 1)%Q /\
  (rnd (inject_Z 9223372036854775808) == inject_Z 9223372036854775808)%Q /\
  (rnd (1 / inject_Z 9223372036854775808) == 1 / inject_Z 9223372036854775808)%Q /\
  (forall x y, (x == y)%Q -> (rnd x == rnd y)%Q).

Theorem C30_flip_le0 : forall rnd, rounding_laws rnd -> forall w i, i < 9223372036854775808 ->
  (match w with WFin q => (q <= 0)%Q | WInf neg => neg = true | WNaN => False end) ->
  flip_with rnd w i = false.
Proof. intros rnd (A & B & C & D & _ & _). exact (flip_le0 rnd A C D). Qed.
Print Assumptions C30_flip_le0.

(* true except when the 63-bit draw is exactly 0 (probability 2^-63) *)
Theorem C30_flip_ge1 : forall rnd, rounding_laws rnd -> forall w i,
  (match w with WFin q => (1 <= q)%Q | WInf neg => neg = false | WNaN => False end) ->
  flip_with rnd w i = negb (i =? 0).
Proof. intros rnd (A & B & C & D & E & F). exact (flip_ge1 rnd A B C E F). Qed.
Print Assumptions C30_flip_ge1.

Theorem C30_draw_63bit : forall s i r, int63 s = Some (i, r) -> i < 9223372036854775808.
Proof. exact int63_lt. Qed.

(* the laws are satisfiable, and the executable rounding used by the
   correspondence check meets the four point laws (monotonicity of rne is
   validated against Go's float64 on every run, not proved) *)
Example C30_laws_sat : rounding_laws (fun x => x).
Proof. repeat split; intros; try reflexivity; assumption. Qed.
Example C30_rne_points :
  (rne 0 == 0)%Q /\ (rne 1 == 1)%Q /\ (rne (inject_Z 9223372036854775808) == inject_Z 9223372036854775808)%Q /\
  (rne (1 / inject_Z 9223372036854775808) == 1 / inject_Z 9223372036854775808)%Q.
Proof. exact rne_points. Qed.
Example C30_ex_range : is_int (-3) /\ is_int 5. Proof. unfold is_int; lia. Qed.
