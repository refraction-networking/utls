(* Model/GoCH.v, the ClientHello codec: each reader undoes its encoder, each extension decoder its encoder, and
   unmarshal the layout marshalMsg writes. *)
From UV Require Import Base.Common Model.GoCH.
Open Scope N_scope.

Lemma obind_some {A B} (o : option A) (f : A -> option B) b : obind o f = Some b -> exists a, o = Some a /\ f a = Some b.
Proof. destruct o as [a|]; [eauto|discriminate]. Qed.

Lemma rd_bytes_app n d r : length d = n -> rd_bytes n (d ++ r) = Some (d, r).
Proof.
  intros <-. unfold rd_bytes. rewrite app_length.
  destruct (Nat.ltb_spec (length d + length r) (length d)) as [H|H]; [lia|].
  rewrite firstn_app, skipn_app, firstn_all, skipn_all, Nat.sub_diag. cbn. now rewrite app_nil_r.
Qed.

Lemma digit_step y : y / 256 * 256 + y mod 256 = y.
Proof. rewrite N.mul_comm. symmetry. now apply N.div_mod. Qed.

Lemma u16_split x : x < 65536 -> (x / 256) mod 256 * 256 + x mod 256 = x.
Proof.
  intros H. rewrite (N.mod_small (x / 256)) by (apply N.div_lt_upper_bound; [discriminate|exact H]).
  apply digit_step.
Qed.

Lemma rd_u16_enc x r : x < 65536 -> rd_u16 (enc_u16 x ++ r) = Some (x, r).
Proof. intros H. unfold enc_u16, rd_u16. cbn [app]. now rewrite u16_split. Qed.

Lemma u32_split x : x < 4294967296 ->
  (((x / 16777216) mod 256 * 256 + (x / 65536) mod 256) * 256 + (x / 256) mod 256) * 256 + x mod 256 = x.
Proof.
  intros H. change 16777216 with (256 * 256 * 256). change 65536 with (256 * 256). rewrite <- !N.div_div by discriminate.
  rewrite (N.mod_small (x / 256 / 256 / 256)) by (repeat (apply N.div_lt_upper_bound; [discriminate|]); exact H).
  now rewrite !digit_step.
Qed.

Lemma rd_u32_enc x r : x < 4294967296 -> rd_u32 (enc_u32 x ++ r) = Some (x, r).
Proof. intros H. unfold enc_u32, rd_u32. cbn [app]. now rewrite u32_split. Qed.

Lemma len_to_nat d : N.to_nat (len d) = length d.
Proof. unfold len. apply Nat2N.id. Qed.

Lemma rd_u16lp_enc d b r : enc_u16lp d = Some b -> rd_u16lp (b ++ r) = Some (d, r).
Proof.
  unfold enc_u16lp. destruct (N.ltb_spec (len d) 65536) as [H|H]; [|discriminate].
  intros E. assert (b = enc_u16 (len d) ++ d) as -> by congruence. unfold rd_u16lp.
  rewrite <- app_assoc, (rd_u16_enc _ _ H). cbn [obind]. apply rd_bytes_app. symmetry. apply len_to_nat.
Qed.
Lemma rd_u16lp_enc0 d b : enc_u16lp d = Some b -> rd_u16lp b = Some (d, []).
Proof. intros E. rewrite <- (app_nil_r b). now apply rd_u16lp_enc. Qed.
Lemma is_nil_enc_u16 x r : is_nil (enc_u16 x ++ r) = false. Proof. reflexivity. Qed.

Lemma rd_u8lp_enc d b r : enc_u8lp d = Some b -> rd_u8lp (b ++ r) = Some (d, r).
Proof.
  unfold enc_u8lp. destruct (N.ltb_spec (len d) 256) as [H|H]; [|discriminate].
  intros E. assert (b = len d :: d) as -> by congruence. unfold rd_u8lp. cbn [app rd_u8 obind]. apply rd_bytes_app. symmetry. apply len_to_nat.
Qed.
Lemma rd_u8lp_enc0 d b : enc_u8lp d = Some b -> rd_u8lp b = Some (d, []).
Proof. intros E. rewrite <- (app_nil_r b). now apply rd_u8lp_enc. Qed.

Lemma enc_u24lp_inv d b : enc_u24lp d = Some b -> b = enc_u24 (len d) ++ d.
Proof. unfold enc_u24lp. destruct (len d <? 16777216); [|discriminate]. now intros [= <-]. Qed.

Lemma enc_u16lp_cons d b : enc_u16lp d = Some b -> exists x y, b = x :: y :: d.
Proof. unfold enc_u16lp, enc_u16. destruct (len d <? 65536); [|discriminate]. intros E; injection E as <-. eauto. Qed.
Lemma enc_u8lp_cons d b : enc_u8lp d = Some b -> exists x, b = x :: d.
Proof. unfold enc_u8lp. destruct (len d <? 256); [|discriminate]. intros E; injection E as <-. eauto. Qed.

Definition u16_ok (x : N) : Prop := x < 65536.
Lemma rd_u16s_enc l : Forall u16_ok l -> rd_u16s (enc_u16s l) = Some l.
Proof.
  induction 1 as [|x l Hx _ IH]; [reflexivity|].
  unfold enc_u16s in *. cbn [flat_map]. unfold enc_u16 at 1. cbn [app rd_u16s]. rewrite IH. cbn [obind].
  now rewrite u16_split.
Qed.
Lemma enc_u16s_nonnil l : l <> [] -> is_nil (enc_u16s l) = false.
Proof. destruct l; [congruence|reflexivity]. Qed.

Lemma nonempty_u16s_enc0 l b : l <> [] -> Forall u16_ok l -> enc_u16lp (enc_u16s l) = Some b ->
  nonempty_u16s b = Some (l, []).
Proof.
  intros Hn Hl E. unfold nonempty_u16s. rewrite (rd_u16lp_enc0 _ _ E). cbn [obind].
  rewrite (enc_u16s_nonnil _ Hn), (rd_u16s_enc _ Hl). reflexivity.
Qed.

Lemma dec_alpn_nil fuel : dec_alpn fuel [] = Some []. Proof. destruct fuel; reflexivity. Qed.
Lemma dec_shares_nil fuel : dec_shares fuel [] = Some []. Proof. destruct fuel; reflexivity. Qed.
Lemma dec_ids_nil fuel : dec_ids fuel [] = Some []. Proof. destruct fuel; reflexivity. Qed.
Lemma dec_sni_nil fuel cur : dec_sni_names fuel [] cur = Some cur. Proof. destruct fuel; reflexivity. Qed.

Lemma cat_opt_cons (x : option bytes) l bs : cat_opt (x :: l) = Some bs ->
  exists a b, x = Some a /\ cat_opt l = Some b /\ bs = a ++ b.
Proof.
  cbn [cat_opt]. destruct x as [a|]; [|discriminate]. cbn [obind]. destruct (cat_opt l) as [b|]; [|discriminate].
  cbn [obind]. intros E; injection E as <-. eauto.
Qed.

Definition nonnil {A} (l : list A) : Prop := l <> [].
Lemma is_nil_false {A} (l : list A) : l <> [] -> is_nil l = false.
Proof. destruct l; [congruence|reflexivity]. Qed.

(* The list decoders are fuelled loops: [dec] reads back what the element encoder [enc] wrote, element by element, if
   one turn of it does; a turn consumes a non-empty [a], so the length of the input is fuel enough. *)
Lemma dec_loop_enc {A} (enc : A -> option bytes) (ok : A -> Prop) (dec : nat -> bytes -> option (list A)) :
  (forall fuel, dec fuel [] = Some []) ->
  (forall x a b fuel, ok x -> enc x = Some a ->
     a <> [] /\ dec (S fuel) (a ++ b) = let? l := dec fuel b in Some (x :: l)) ->
  forall l bs fuel, cat_opt (map enc l) = Some bs -> Forall ok l -> (length bs <= fuel)%nat -> dec fuel bs = Some l.
Proof.
  intros Hnil Hstep. induction l as [|x l IH]; intros bs fuel E Hl Hf.
  - cbn in E. injection E as <-. apply Hnil.
  - cbn [map] in E. apply cat_opt_cons in E as (a & b & Ea & Eb & ->).
    inversion Hl as [|? ? Hx Hl']; subst. destruct (Hstep x a b (pred fuel) Hx Ea) as [Ha Hd].
    assert (Hb : (S (length b) <= fuel)%nat) by (rewrite app_length in Hf; destruct a; [congruence|cbn [length] in Hf; lia]).
    destruct fuel as [|fuel]; [lia|]. cbn [pred] in Hd. rewrite Hd, (IH b fuel Eb Hl'); [reflexivity|lia].
Qed.

Lemma dec_alpn_enc : forall l bs fuel, cat_opt (map enc_u8lp l) = Some bs -> Forall nonnil l ->
  (length bs <= fuel)%nat -> dec_alpn fuel bs = Some l.
Proof.
  apply dec_loop_enc; [exact dec_alpn_nil|]. intros p a b fuel Hp Ea.
  destruct (enc_u8lp_cons _ _ Ea) as (x & Ex). split; [rewrite Ex; discriminate|].
  cbn [dec_alpn]. rewrite Ex at 1. cbn [app is_nil].
  rewrite (rd_u8lp_enc _ _ _ Ea). cbn [obind]. now rewrite (is_nil_false _ Hp).
Qed.

(* the binders loop (handshake_messages.go:688-695) reads the same layout as the ALPN loop: the two definitions have one body *)
Lemma dec_binders_alpn : dec_binders = dec_alpn. Proof. reflexivity. Qed.

Definition share_ok (k : keyShare) : Prop := ks_group k < 65536 /\ ks_data k <> [].
Lemma dec_shares_enc : forall l bs fuel, cat_opt (map enc_share l) = Some bs -> Forall share_ok l ->
  (length bs <= fuel)%nat -> dec_shares fuel bs = Some l.
Proof.
  apply dec_loop_enc; [exact dec_shares_nil|]. intros k a b fuel [Hg Hd] Ea.
  unfold enc_share in Ea. apply obind_some in Ea as (d & Ed & Ea).
  assert (a = enc_u16 (ks_group k) ++ d) as -> by congruence. split; [discriminate|].
  cbn [dec_shares]. rewrite <- app_assoc, is_nil_enc_u16.
  rewrite (rd_u16_enc _ _ Hg). cbn [obind]. rewrite (rd_u16lp_enc _ _ _ Ed). cbn [obind].
  rewrite (is_nil_false _ Hd). now destruct k.
Qed.

Definition id_ok (p : pskIdentity) : Prop := pi_obfuscatedTicketAge p < 4294967296 /\ pi_label p <> [].
Lemma dec_ids_enc : forall l bs fuel, cat_opt (map enc_id l) = Some bs -> Forall id_ok l ->
  (length bs <= fuel)%nat -> dec_ids fuel bs = Some l.
Proof.
  apply dec_loop_enc; [exact dec_ids_nil|]. intros k a b fuel [Hg Hd] Ea.
  unfold enc_id in Ea. apply obind_some in Ea as (d & Ed & Ea).
  assert (a = d ++ enc_u32 (pi_obfuscatedTicketAge k)) as -> by congruence.
  destruct (enc_u16lp_cons _ _ Ed) as (x & y & Exy).
  assert (Hn : is_nil ((d ++ enc_u32 (pi_obfuscatedTicketAge k)) ++ b) = false) by (rewrite Exy; reflexivity).
  split; [rewrite Exy; discriminate|].
  cbn [dec_ids]. rewrite Hn, <- !app_assoc, (rd_u16lp_enc _ _ _ Ed). cbn [obind].
  rewrite (rd_u32_enc _ _ Hg). cbn [obind]. rewrite (is_nil_false _ Hd). now destruct k.
Qed.

Definition wf_ext (x : ext) : Prop :=
  match x with
  | XSni n => n <> [] /\ last n 0 <> 46
  | XStatus b => b = true
  | XCurves l | XSigAlgs l | XSigAlgsCert l | XVersions l => l <> [] /\ Forall u16_ok l
  | XPoints p => p <> []
  | XCookie c => c <> []
  | XAlpn l => l <> [] /\ Forall nonnil l
  | XKeyShares l => Forall share_ok l
  | XPsk ids bs => ids <> [] /\ Forall id_ok ids /\ bs <> [] /\ Forall nonnil bs
  | XUnknown _ => False
  | _ => True
  end.

Lemma hdr_inv id body bs : hdr id body = Some bs ->
  exists b lb, body = Some b /\ enc_u16lp b = Some lb /\ bs = enc_u16 id ++ lb.
Proof.
  unfold hdr. intros E. apply obind_some in E as (b & Eb & E). apply obind_some in E as (lb & Elb & E).
  injection E as <-. eauto.
Qed.

Lemma ext_id_lt x : wf_ext x -> ext_id x < 65536.
Proof. destruct x; cbn; intros H; first [lia | contradiction]. Qed.

Lemma cat_opt_nonnil l bs : l <> [] -> Forall nonnil l -> cat_opt (map enc_u8lp l) = Some bs -> bs <> [].
Proof.
  destruct l as [|p l]; [congruence|]. intros _ _ E. cbn [map] in E.
  apply cat_opt_cons in E as (a & b & Ea & _ & ->). destruct (enc_u8lp_cons _ _ Ea) as (x & ->). discriminate.
Qed.
Lemma cat_ids_nonnil l bs : l <> [] -> cat_opt (map enc_id l) = Some bs -> bs <> [].
Proof.
  destruct l as [|p l]; [congruence|]. intros _ E. cbn [map] in E.
  apply cat_opt_cons in E as (a & b & Ea & _ & ->). unfold enc_id in Ea.
  apply obind_some in Ea as (d & Ed & Ea). injection Ea as <-.
  destruct (enc_u16lp_cons _ _ Ed) as (x & y & ->). discriminate.
Qed.

Lemma dec_enc x bs : wf_ext x -> enc_ext x = Some bs ->
  exists body lb, enc_u16lp body = Some lb /\ bs = enc_u16 (ext_id x) ++ lb /\ dec_ext (ext_id x) body = Some x.
Proof.
  intros W E. destruct x; cbn [enc_ext] in E; try discriminate;
    apply hdr_inv in E as (body & lb & Eb & Elb & ->); exists body, lb; (split; [exact Elb|split; [reflexivity|]]);
    cbn [wf_ext] in W; unfold dec_ext, dec_body; cbn [ext_id N.eqb Pos.eqb].
  (* the kinds whose body is the bytes themselves, or empty *)
  all: try (injection Eb as <-; reflexivity).
  - (* server_name *)
    apply obind_some in Eb as (a & Ea & Eb). destruct W as [Wn Wd].
    rewrite (rd_u16lp_enc0 _ _ Eb). cbn [obind is_nil length dec_sni_names rd_u8].
    rewrite (rd_u16lp_enc0 _ _ Ea). cbn [obind]. rewrite (is_nil_false _ Wn).
    cbn [N.eqb negb is_nil]. destruct (N.eqb_spec (last name 0) 46) as [H|H]; [contradiction|].
    rewrite dec_sni_nil. reflexivity.
  - (* status_request *) subst ocsp. injection Eb as <-. reflexivity.
  - (* supported_groups *) destruct W as [Wn Wl]. rewrite (nonempty_u16s_enc0 _ _ Wn Wl Eb). reflexivity.
  - (* ec_point_formats *) rewrite (rd_u8lp_enc0 _ _ Eb). cbn [obind]. rewrite (is_nil_false _ W). reflexivity.
  - (* signature_algorithms *) destruct W as [Wn Wl]. rewrite (nonempty_u16s_enc0 _ _ Wn Wl Eb). reflexivity.
  - (* signature_algorithms_cert *) destruct W as [Wn Wl]. rewrite (nonempty_u16s_enc0 _ _ Wn Wl Eb). reflexivity.
  - (* renegotiation_info *) rewrite (rd_u8lp_enc0 _ _ Eb). reflexivity.
  - (* alpn *) destruct W as [Wn Wl].
    apply obind_some in Eb as (a & Ea & Eb).
    rewrite (rd_u16lp_enc0 _ _ Eb). cbn [obind].
    rewrite (is_nil_false _ (cat_opt_nonnil _ _ Wn Wl Ea)). rewrite (dec_alpn_enc _ _ _ Ea Wl (le_n _)). reflexivity.
  - (* supported_versions *) destruct W as [Wn Wl].
    rewrite (rd_u8lp_enc0 _ _ Eb). cbn [obind].
    rewrite (enc_u16s_nonnil _ Wn), (rd_u16s_enc _ Wl). reflexivity.
  - (* cookie *) rewrite (rd_u16lp_enc0 _ _ Eb). cbn [obind]. rewrite (is_nil_false _ W). reflexivity.
  - (* key_share *)
    apply obind_some in Eb as (a & Ea & Eb).
    rewrite (rd_u16lp_enc0 _ _ Eb). cbn [obind].
    rewrite (dec_shares_enc _ _ _ Ea W (le_n _)). reflexivity.
  - (* psk_key_exchange_modes *) rewrite (rd_u8lp_enc0 _ _ Eb). reflexivity.
  - (* pre_shared_key *) destruct W as (Wi & Wil & Wb & Wbl).
    apply obind_some in Eb as (a & Ea & Eb).
    apply obind_some in Eb as (a' & Ea' & Eb).
    apply obind_some in Eb as (b & Ebn & Eb).
    apply obind_some in Eb as (b' & Eb' & Eb). injection Eb as <-.
    rewrite (rd_u16lp_enc _ _ _ Ea'). cbn [obind]. rewrite (is_nil_false _ (cat_ids_nonnil _ _ Wi Ea)).
    rewrite (dec_ids_enc _ _ _ Ea Wil (le_n _)). cbn [obind].
    rewrite (rd_u16lp_enc0 _ _ Eb'). cbn [obind].
    rewrite (is_nil_false _ (cat_opt_nonnil _ _ Wb Wbl Ebn)). rewrite dec_binders_alpn, (dec_alpn_enc _ _ _ Ebn Wbl (le_n _)). reflexivity.
Qed.

Fixpoint psk_lastb (l : list ext) : bool :=
  match l with [] => true | x :: r => (negb (ext_id x =? 41) || is_nil r) && psk_lastb r end.

Lemma parse_exts_nil fuel seen : parse_exts fuel [] seen = Some []. Proof. destruct fuel; reflexivity. Qed.

Lemma parse_exts_encs l : forall bs seen fuel,
  cat_opt (map enc_ext l) = Some bs -> Forall wf_ext l -> NoDup (map ext_id l) ->
  (forall x, In x l -> ~ In (ext_id x) seen) -> psk_lastb l = true -> (length bs <= fuel)%nat ->
  parse_exts fuel bs seen = Some l.
Proof.
  induction l as [|x l IH]; intros bs seen fuel E W ND Hs Hp Hf.
  - cbn in E. injection E as <-. apply parse_exts_nil.
  - cbn [map] in E. apply cat_opt_cons in E as (a & b & Ea & Eb & ->).
    inversion W as [|? ? Wx Wl]; subst. inversion ND as [|? ? Hni ND']; subst.
    destruct (dec_enc _ _ Wx Ea) as (body & lb & Elb & -> & Hdec).
    rewrite !app_length in Hf. unfold enc_u16 in Hf. cbn [length] in Hf.
    destruct fuel as [|fuel]; [lia|].
    cbn [parse_exts]. rewrite <- !app_assoc, is_nil_enc_u16.
    rewrite (rd_u16_enc _ _ (ext_id_lt _ Wx)). cbn [obind]. rewrite (rd_u16lp_enc _ _ _ Elb). cbn [obind].
    assert (Hseen : existsb (N.eqb (ext_id x)) seen = false).
    { destruct (existsb (N.eqb (ext_id x)) seen) eqn:Ex; [|reflexivity]. apply existsb_exists in Ex as (y & Hy & Hxy).
      apply N.eqb_eq in Hxy. subst y. exfalso. apply (Hs x (or_introl eq_refl)). exact Hy. }
    rewrite Hseen. cbn [psk_lastb] in Hp. apply andb_true_iff in Hp as [Hp1 Hp2].
    assert (Hpsk : (ext_id x =? 41) && negb (is_nil b) = false).
    { destruct (ext_id x =? 41); [|reflexivity]. cbn in Hp1. destruct l; [|discriminate]. cbn in Eb. injection Eb as <-. reflexivity. }
    rewrite Hpsk, Hdec. cbn [obind].
    rewrite (IH b (ext_id x :: seen) fuel Eb Wl ND'); [reflexivity| |exact Hp2|].
    + intros y Hy [Hin|Hin]; [apply Hni; rewrite Hin; now apply in_map|apply (Hs y (or_intror Hy) Hin)].
    + lia.
Qed.

Lemma enc_ext_nonnil x bs : enc_ext x = Some bs -> bs <> [].
Proof.
  intros E. assert (exists id body, hdr id body = Some bs) as (id & body & H) by (destruct x; cbn [enc_ext] in E; try discriminate; eauto).
  apply hdr_inv in H as (b & lb & _ & _ & ->). discriminate.
Qed.
Lemma encs_nil l : cat_opt (map enc_ext l) = Some [] -> l = [].
Proof.
  destruct l as [|x l]; [reflexivity|]. intros E. cbn [map] in E. apply cat_opt_cons in E as (a & b & Ea & _ & E).
  apply enc_ext_nonnil in Ea. destruct a; [congruence|discriminate].
Qed.

(* the extensions block (handshake_messages.go:390): absent when there is no extension, else 16-bit length-prefixed *)
Lemma ext_block_read eb ebb : (if is_nil eb then Some [] else enc_u16lp eb) = Some ebb ->
  if is_nil eb then ebb = [] else is_nil ebb = false /\ rd_u16lp ebb = Some (eb, []).
Proof.
  destruct eb as [|e eb]; cbn [is_nil]; intros E; [now injection E|]. split; [|exact (rd_u16lp_enc0 _ _ E)].
  destruct (enc_u16lp_cons _ _ E) as (x & y & ->). reflexivity.
Qed.

(* unmarshal inverts the layout marshalMsg writes, for any field values and any list of distinct well-formed
   extensions, whatever the four bytes in front are (type and length are skipped unread, handshake_messages.go:453).
   The message enters as a variable [b] with an equation: it occurs twice in the conclusion, and the users keep
   it folded so that Qed does not compare two unfolded copies. *)
Theorem unmarshal_encoding h vers random sid sidb suites csb comp compb l eb ebb :
  length h = 4%nat -> vers < 65536 -> length random = 32%nat -> enc_u8lp sid = Some sidb ->
  Forall u16_ok suites -> enc_u16lp (enc_u16s suites) = Some csb -> enc_u8lp comp = Some compb ->
  Forall wf_ext l -> NoDup (map ext_id l) -> psk_lastb l = true -> cat_opt (map enc_ext l) = Some eb ->
  (if is_nil eb then Some [] else enc_u16lp eb) = Some ebb ->
  forall b, b = h ++ enc_u16 vers ++ random ++ sidb ++ csb ++ compb ++ ebb ->
  unmarshal b = Some (project b vers random sid suites comp l).
Proof.
  intros Hh Hv Hr Esid Hs Ecs Ecomp Wl ND Hp El Eebb b Hb.
  assert (E4 : rd_bytes 4 b = Some (h, enc_u16 vers ++ random ++ sidb ++ csb ++ compb ++ ebb)) by (rewrite Hb; exact (rd_bytes_app 4 h _ Hh)).
  unfold unmarshal. rewrite E4. cbn [obind]. rewrite (rd_u16_enc _ _ Hv). cbn [obind].
  rewrite (rd_bytes_app 32 random _ Hr). cbn [obind]. rewrite (rd_u8lp_enc _ _ _ Esid). cbn [obind].
  rewrite (rd_u16lp_enc _ _ _ Ecs). cbn [obind]. rewrite (rd_u16s_enc _ Hs). cbn [obind].
  rewrite (rd_u8lp_enc _ _ _ Ecomp). cbn [obind].
  apply ext_block_read in Eebb. destruct eb as [|e eb]; cbn [is_nil] in Eebb.
  - now rewrite Eebb, (encs_nil _ El).
  - destruct Eebb as [En Erd]. rewrite En, Erd. cbn [obind is_nil negb].
    now rewrite (parse_exts_encs l _ [] _ El Wl ND (fun _ _ H => H) Hp (le_n _)).
Qed.
