(* Model/Lru.v against its specification: [abs] reads the recency list as the abstract map, [Inv] is what Put and
   Get keep, and each operation refines its abstract counterpart ([history] for whole runs). *)
From UV Require Import Base.Common Model.Lru.

Definition keys (l : list entry) : list N := map fst l.
Definition val (e : entry) : N := match snd e with Some x => x | None => 0 end.
Definition abs (l : list entry) : spec := map (fun e => (fst e, val e)) l.

(* what the Go map and the list agree on: one element per key, and none holds a nil state *)
Definition wf (l : list entry) : Prop := NoDup (keys l) /\ forall e, In e l -> snd e <> None.
Definition Inv (c : lru) : Prop := wf (q c) /\ (length (q c) <= cap c)%nat /\ (1 <= cap c)%nat.

Lemma filter_map_swap {A B} (f : B -> bool) (g : A -> B) l :
  filter f (map g l) = map g (filter (fun x => f (g x)) l).
Proof.
  induction l as [|a l IH]; cbn [map filter]; [reflexivity|]. destruct (f (g a)); cbn [map]; rewrite IH; reflexivity.
Qed.

Lemma filter_len_le {A} (f : A -> bool) l : (length (filter f l) <= length l)%nat.
Proof. induction l as [|a l IH]; cbn [filter length]; [auto|]. destruct (f a); cbn [length]; auto with arith. Qed.

Lemma in_firstn {A} n (l : list A) x : In x (firstn n l) -> In x l.
Proof. intros H. rewrite <- (firstn_skipn n l). apply in_or_app. left. exact H. Qed.

Lemma NoDup_firstn {A} n (l : list A) : NoDup l -> NoDup (firstn n l).
Proof.
  revert n. induction l as [|a l IH]; intros n H; [rewrite firstn_nil; constructor|].
  destruct n as [|n]; [constructor|]. cbn [firstn]. inversion H as [|? ? Hn Hl]; subst.
  constructor; [|apply IH; exact Hl]. intros Hin. apply Hn. eapply in_firstn, Hin.
Qed.

Lemma keys_remove k l : keys (remove k l) = filter (fun x => negb (x =? k)) (keys l).
Proof. symmetry. apply (filter_map_swap (fun x => negb (x =? k)) fst). Qed.

Lemma abs_remove k l : abs (remove k l) = s_remove k (abs l).
Proof. symmetry. apply (filter_map_swap (fun e : N * N => negb (fst e =? k)) (fun e : entry => (fst e, val e))). Qed.

Lemma s_lookup_abs k l : s_lookup k (abs l) = option_map val (lookup k l).
Proof.
  unfold lookup, s_lookup, abs. induction l as [|e l IH]; cbn [find map fst]; [reflexivity|].
  destruct (fst e =? k); [reflexivity|]. exact IH.
Qed.

Lemma lookup_abs k l :
  match lookup k l with
  | Some e => s_lookup k (abs l) = Some (val e) /\ fst e = k /\ In e l
  | None => s_lookup k (abs l) = None /\ ~ In k (keys l)
  end.
Proof.
  rewrite s_lookup_abs. unfold lookup. destruct (find (fun e => fst e =? k) l) as [e|] eqn:F; cbn [option_map].
  - apply find_some in F. destruct F as [Hin Hk]. apply N.eqb_eq in Hk. auto.
  - split; [reflexivity|]. unfold keys. intros H. apply in_map_iff in H. destruct H as (e & Hk & Hin).
    pose proof (find_none _ _ F e Hin) as Hn. cbn beta in Hn. rewrite Hk, N.eqb_refl in Hn. discriminate.
Qed.

Lemma remove_absent k l : ~ In k (keys l) -> remove k l = l.
Proof.
  unfold remove, keys. induction l as [|e l IH]; cbn [filter map In]; intros H; [reflexivity|].
  destruct (fst e =? k) eqn:E; [apply N.eqb_eq in E; tauto|].
  cbn [negb]. rewrite IH by tauto. reflexivity.
Qed.

Lemma remove_length_lt k l e : In e l -> fst e = k -> (length (remove k l) < length l)%nat.
Proof.
  unfold remove. induction l as [|a l IH]; cbn [filter length In]; [intros []|].
  intros [->|Hin] Hk.
  - rewrite Hk, N.eqb_refl. cbn [negb]. apply Nat.lt_succ_r, filter_len_le.
  - specialize (IH Hin Hk). destruct (negb _); cbn [length]; lia.
Qed.

Lemma not_in_keys_remove k l : ~ In k (keys (remove k l)).
Proof.
  rewrite keys_remove. intros H. apply filter_In in H. destruct H as [_ H].
  rewrite N.eqb_refl in H. discriminate.
Qed.

Lemma wf_remove k l : wf l -> wf (remove k l).
Proof.
  intros [Hn Hs]. split; [rewrite keys_remove; apply NoDup_filter, Hn|].
  intros e H. apply Hs. apply filter_In in H. tauto.
Qed.

Lemma wf_cons e l : wf l -> ~ In (fst e) (keys l) -> snd e <> None -> wf (e :: l).
Proof.
  intros [Hn Hs] Hk He. split; [constructor; assumption|]. intros e' [<-|H]; [exact He|apply Hs, H].
Qed.

Lemma wf_firstn n l : wf l -> wf (firstn n l).
Proof.
  intros [Hn Hs]. split; [unfold keys; rewrite <- firstn_map; apply NoDup_firstn, Hn|].
  intros e H. eapply Hs, in_firstn, H.
Qed.

(* The four branches of Put do what the specification does in one step: drop the key, push the new
   element in front, cut to capacity.  Cutting is the identity unless the key is new and the cache
   full, where it drops Back(). *)
Lemma put_q c k v : Inv c ->
  q (put c k v) = match v with Some _ => firstn (cap c) ((k, v) :: remove k (q c)) | None => remove k (q c) end.
Proof.
  intros (_ & Hlen & Hcap). unfold put. pose proof (lookup_abs k (q c)) as L.
  destruct (lookup k (q c)) as [e|].
  - destruct L as (_ & Hk & Hin). destruct v as [x|]; cbn [q]; [|reflexivity].
    rewrite firstn_all2; [reflexivity|]. cbn [length]. pose proof (remove_length_lt k (q c) e Hin Hk). lia.
  - destruct L as [_ Ha]. rewrite (remove_absent k (q c) Ha). destruct v as [x|]; [|reflexivity].
    destruct (length (q c) <? cap c)%nat eqn:E; cbn [q].
    + rewrite firstn_all2; [reflexivity|]. cbn [length]. lia.
    + destruct (cap c) as [|n] eqn:Ec; [lia|]. cbn [firstn]. rewrite removelast_firstn_len.
      do 2 f_equal. lia.
Qed.

Lemma put_cap c k v : cap (put c k v) = cap c.
Proof. unfold put. destruct (lookup k (q c)), v; try reflexivity. destruct (_ <? _)%nat; reflexivity. Qed.

Lemma put_refines c k v : Inv c ->
  Inv (put c k v) /\ abs (q (put c k v)) = s_put (cap c) (abs (q c)) k v.
Proof.
  intros Hc. pose proof Hc as (Hwf & Hlen & Hcap). unfold Inv. rewrite put_cap, (put_q c k v Hc).
  destruct v as [x|]; cbn [s_put].
  - split; [split; [|split; [apply firstn_le_length|exact Hcap]]|].
    + apply wf_firstn, wf_cons; [apply wf_remove, Hwf|apply not_in_keys_remove|discriminate].
    + unfold abs. rewrite <- firstn_map. fold abs. cbn [map]. rewrite abs_remove. reflexivity.
  - split; [split; [apply wf_remove, Hwf|split; [|exact Hcap]]|apply abs_remove].
    pose proof (filter_len_le (fun e : entry => negb (fst e =? k)) (q c)). unfold remove. lia.
Qed.

Lemma get_refines c k : Inv c ->
  Inv (fst (get c k)) /\ cap (fst (get c k)) = cap c /\
  abs (q (fst (get c k))) = fst (s_get (abs (q c)) k) /\
  snd (get c k) = obs_of_spec (snd (s_get (abs (q c)) k)).
Proof.
  intros Hc. pose proof Hc as (Hwf & Hlen & Hcap). unfold get, s_get. pose proof (lookup_abs k (q c)) as L.
  destruct (lookup k (q c)) as [e|].
  - destruct L as (-> & Hk & Hin). cbn [fst snd]. split; [split; [|split]|split; [reflexivity|split]]; cbn [q cap].
    + apply wf_cons; [apply wf_remove, Hwf|rewrite Hk; apply not_in_keys_remove|apply Hwf, Hin].
    + cbn [length]. pose proof (remove_length_lt k (q c) e Hin Hk). lia.
    + exact Hcap.
    + cbn [abs map]. fold (abs (remove k (q c))). rewrite abs_remove, Hk. reflexivity.
    + unfold val, obs_of_spec. destruct (snd e) eqn:E; [reflexivity|]. destruct (proj2 Hwf e Hin E).
  - destruct L as [-> _]. cbn [fst snd]. auto.
Qed.

Lemma history ops : forall c, Inv c ->
  run c ops = map obs_of_spec (s_run (cap c) (abs (q c)) ops) /\ Inv (final c ops).
Proof.
  induction ops as [|o ops IH]; intros c Hc; [split; [reflexivity|exact Hc]|].
  destruct o as [k v|k]; cbn [run s_run final].
  - destruct (put_refines c k v Hc) as [I <-]. rewrite <- (put_cap c k v). apply IH, I.
  - destruct (get_refines c k Hc) as (I & Ec & Ea & Eo).
    destruct (get c k) as [c' o], (s_get (abs (q c)) k) as [s' o']. cbn [fst snd map] in *.
    rewrite Eo, <- Ea, <- Ec. destruct (IH c' I) as [-> F]. split; [reflexivity|exact F].
Qed.

Lemma new_inv n : Inv (new_lru n).
Proof.
  unfold new_lru. split; [split; [constructor|intros e []]|]. cbn [q cap length].
  destruct (n <? 1)%Z eqn:E; lia.
Qed.
